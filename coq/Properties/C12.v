(* C12 - `let` names expose each branch's latest step result to later captures.
   Model: Spec.v.  Every capture / operand / callback of step k is given the snapshot `snap_of st` of the state after step k-1
   (by construction of Spec.step_result; the generated code is proved equal to Spec for the sequential and thread kinds:
   RefineTop.gen_refines_spec, where `snap rho = snap_of st` is part of the invariant).  `T b k d` is an arbitrary predicate
   "d is what branch b produced in step k" (see C04).  "Does not change the macro's result": the names occur in Spec only
   inside snapshots: PROVED (LetErasure.v): with and without the names the computations are equal after erasing snapshots, for every program and all 8 kinds,
   for every user-code semantics that cannot observe how a callback is implemented (parametricity hypotheses, satisfied by the concrete world).
   GENERATED by tools/mkprops.py from Properties/C12.spec: only property theorems, each with its FULL statement and
   closed by `exact`; the proofs are in theories/proofs. *)
From Coq Require Import List ZArith.
From Join Require Import Tok Names Ast Comp Std Denote Spec Leaves SpecProps LetErasure Ir Gen RefineBase RefineChain RefineProg RefineTop.

(* OBLIGATION name_sees_latest_step_result *)
(* the name of branch b shows a value of step min(k-1, depth b - 1) of THAT branch: the most recent one, also after the branch finished; still wrapped in try macros *)
Theorem name_sees_latest_step_result :
  forall (p : sprog) (T : nat -> nat -> dval -> Prop) (k : nat) (st : state)
    (x : string) (ov : option val),
  StateOK p T k st ->
  0 < k ->
  Datatypes.length (sp_names p) = Datatypes.length (sp_trees p) ->
  In (x, ov) (snap_of p st) ->
  exists (b : nat) (d : dval),
    b < Datatypes.length (sp_trees p) /\
    nth_error (sp_names p) b = Some (Some x) /\
    nth b st None = Some d /\ T b (Nat.min (k - 1) (depth p b - 1)) d /\ ov = shown (Some d).
Proof. exact (@name_sees_latest_step_result). Qed.
Print Assumptions name_sees_latest_step_result.

(* OBLIGATION snapshot_lists_named_branches *)
Theorem snapshot_lists_named_branches :
  forall (names : list (option string)) (st : list (option dval)) (x : string) (ov : option val),
  In (x, ov)
    (flat_map
       (fun nv : option string * option dval =>
        match fst nv with
        | Some y => [(y, shown (snd nv))]
        | None => []
        end) (combine names st)) ->
  exists b : nat,
    nth_error names b = Some (Some x) /\
    (exists od : option dval, nth_error st b = Some od /\ ov = shown od).
Proof. exact (@snap_of_entries). Qed.
Print Assumptions snapshot_lists_named_branches.

(* OBLIGATION state_holds_latest_values *)
(* the invariant used above is preserved by every step (any program, any world) *)
Theorem state_holds_latest_values :
  forall (p : sprog) (T : nat -> nat -> dval -> Prop),
  (forall b : nat, b < Datatypes.length (sp_trees p) -> 1 <= depth p b) ->
  forall (k : nat) (st : state) (ds : list dval),
  StateOK p T k st ->
  Forall2 (fun (b : nat) (d : dval) => T b k d) (actives p k) ds ->
  StateOK p T (S k) (set_all st (actives p k) ds).
Proof. exact (@state_step). Qed.
Print Assumptions state_holds_latest_values.

(* OBLIGATION generated_code_refines_reference_semantics *)
(* all eight macro kinds, all inputs: the meaning of the expansion IS the reference semantics (so what is proved about Spec holds of the generated code) *)
Theorem generated_code_refines_reference_semantics :
  forall (msem : string -> option (list operand) -> dval -> list dval -> comp dval)
    (dotsem : operand -> list (string * option val) -> dval -> comp dval)
    (callsem : val -> list dval -> comp dval) (awaitsem : val -> comp val) (cfg : config) 
    (inp : input) (e : rexpr) (sp : sprog),
  wf inp ->
  gen cfg inp = Ok e ->
  prepare cfg inp = Some sp ->
  den (user_names inp) msem dotsem callsem awaitsem e empty_env = spec msem dotsem callsem awaitsem sp.
Proof. exact (@gen_refines_spec). Qed.
Print Assumptions generated_code_refines_reference_semantics.

(* OBLIGATION let_does_not_change_the_computation *)
(* `ceq deq`: the same tree of events, in the same order with the same callback arguments and the same results, up to the snapshots events carry - spec sp vs spec (strip sp) *)
Theorem let_does_not_change_the_computation :
  forall (msem : string -> option (list operand) -> dval -> list dval -> comp dval)
    (dotsem : operand -> list (string * option val) -> dval -> comp dval)
    (callsem : val -> list dval -> comp dval) (awaitsem : val -> comp val),
  (forall (m : string) (tf : option (list operand)) (r r' : dval) (ds ds' : list dval),
   deq r r' -> Forall2 deq ds ds' -> ceq deq (msem m tf r ds) (msem m tf r' ds')) ->
  (forall (o : operand) (sn sn' : list (string * option val)) (r r' : dval),
   deq r r' -> ceq deq (dotsem o sn r) (dotsem o sn' r')) ->
  (forall (f : val) (ds ds' : list dval), Forall2 deq ds ds' -> ceq deq (callsem f ds) (callsem f ds')) ->
  forall sp : sprog,
  ceq deq (spec msem dotsem callsem awaitsem sp) (spec msem dotsem callsem awaitsem (strip sp)).
Proof. exact (@let_erasure). Qed.
Print Assumptions let_does_not_change_the_computation.

(* OBLIGATION names_are_irrelevant_up_to_snapshots *)
Theorem names_are_irrelevant_up_to_snapshots :
  forall (msem : string -> option (list operand) -> dval -> list dval -> comp dval)
    (dotsem : operand -> list (string * option val) -> dval -> comp dval)
    (callsem : val -> list dval -> comp dval) (awaitsem : val -> comp val),
  (forall (m : string) (tf : option (list operand)) (r r' : dval) (ds ds' : list dval),
   deq r r' -> Forall2 deq ds ds' -> ceq deq (msem m tf r ds) (msem m tf r' ds')) ->
  (forall (o : operand) (sn sn' : list (string * option val)) (r r' : dval),
   deq r r' -> ceq deq (dotsem o sn r) (dotsem o sn' r')) ->
  (forall (f : val) (ds ds' : list dval), Forall2 deq ds ds' -> ceq deq (callsem f ds) (callsem f ds')) ->
  forall p p' : sprog,
  sp_cfg p' = sp_cfg p ->
  sp_trees p' = sp_trees p ->
  sp_handler p' = sp_handler p ->
  ceq deq (spec msem dotsem callsem awaitsem p) (spec msem dotsem callsem awaitsem p').
Proof. exact (@names_irrelevant). Qed.
Print Assumptions names_are_irrelevant_up_to_snapshots.

(* OBLIGATION let_does_not_change_the_completed_result *)
Theorem let_does_not_change_the_completed_result :
  forall (msem : string -> option (list operand) -> dval -> list dval -> comp dval)
    (dotsem : operand -> list (string * option val) -> dval -> comp dval)
    (callsem : val -> list dval -> comp dval) (awaitsem : val -> comp val),
  (forall (m : string) (tf : option (list operand)) (r r' : dval) (ds ds' : list dval),
   deq r r' -> Forall2 deq ds ds' -> ceq deq (msem m tf r ds) (msem m tf r' ds')) ->
  (forall (o : operand) (sn sn' : list (string * option val)) (r r' : dval),
   deq r r' -> ceq deq (dotsem o sn r) (dotsem o sn' r')) ->
  (forall (f : val) (ds ds' : list dval), Forall2 deq ds ds' -> ceq deq (callsem f ds) (callsem f ds')) ->
  forall sp : sprog,
  erase (complete msem dotsem callsem awaitsem sp) =
  erase (complete msem dotsem callsem awaitsem (strip sp)).
Proof. exact (@let_erasure_completed). Qed.
Print Assumptions let_does_not_change_the_completed_result.

(* OBLIGATION let_preserves_every_postcondition *)
Theorem let_preserves_every_postcondition :
  forall (msem : string -> option (list operand) -> dval -> list dval -> comp dval)
    (dotsem : operand -> list (string * option val) -> dval -> comp dval)
    (callsem : val -> list dval -> comp dval) (awaitsem : val -> comp val),
  (forall (m : string) (tf : option (list operand)) (r r' : dval) (ds ds' : list dval),
   deq r r' -> Forall2 deq ds ds' -> ceq deq (msem m tf r ds) (msem m tf r' ds')) ->
  (forall (o : operand) (sn sn' : list (string * option val)) (r r' : dval),
   deq r r' -> ceq deq (dotsem o sn r) (dotsem o sn' r')) ->
  (forall (f : val) (ds ds' : list dval), Forall2 deq ds ds' -> ceq deq (callsem f ds) (callsem f ds')) ->
  forall (sp : sprog) (Q : val -> Prop),
  Leaves.leaves (complete msem dotsem callsem awaitsem (strip sp)) Q <->
  Leaves.leaves (complete msem dotsem callsem awaitsem sp) Q.
Proof. exact (@let_erasure_leaves_completed). Qed.
Print Assumptions let_preserves_every_postcondition.

(* OBLIGATION let_erasure_in_the_concrete_world *)
Theorem let_erasure_in_the_concrete_world :
  forall (cfg : config) (inp : input) (tbl : list Concrete.opinfo),
  no_cap tbl -> Check.spec_run cfg inp tbl = Check.spec_run cfg (strip_input inp) tbl.
Proof. exact (@let_erasure_spec_run). Qed.
Print Assumptions let_erasure_in_the_concrete_world.

