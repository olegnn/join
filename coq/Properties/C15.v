(* C15 - Expansion is total: valid code or a diagnostic, never an internal panic.
   Model: Parse.v (for every syn oracle) and Gen.v (every expect/unwrap/panic! of the Rust generator is an `InternalBug` value).
   Termination: parse and gen are Gallina fixpoints (structural / fuel with the out-of-fuel value proved unreachable: parse_total).
   GENERATED by tools/mkprops.py from Properties/C15.spec: only property theorems, each with its FULL statement and
   closed by `exact`; the proofs are in theories/proofs. *)
From Coq Require Import List.
From Join Require Import Tok Ast Ir Gen Parse ParseProps Render GenPropsBase GenPropsA GenPropsB GenPropsParse.
Import Parse.Pinned.

(* OBLIGATION parse_never_reports_internal_error *)
(* for every oracle and every token stream the parser ends in Ok or in a diagnostic - never in the out-of-fuel / bug values *)
Theorem parse_never_reports_internal_error :
  forall (o : oracle) (ts : list tt) (e : perr), parse o ts = PErr e -> is_internal e = false.
Proof. exact (@parse_never_internal). Qed.
Print Assumptions parse_never_reports_internal_error.

(* OBLIGATION parse_is_total *)
Theorem parse_is_total :
  forall (o : oracle) (ts : list tt),
  (exists i : input, parse o ts = POk i) \/
  (exists e : perr, parse o ts = PErr e /\ e <> EOutOfFuel /\ (forall n : nat, e <> EBug n)).
Proof. exact (@parse_total). Qed.
Print Assumptions parse_is_total.

(* OBLIGATION empty_stream_rejected *)
Theorem empty_stream_rejected :
  forall o : oracle, parse o [] = PErr ENoBranch.
Proof. exact (@empty_stream_rejected). Qed.
Print Assumptions empty_stream_rejected.

(* OBLIGATION no_branch_rejected *)
Theorem no_branch_rejected :
  forall (o : oracle) (ts : list tt) (i : input), parse o ts = POk i -> i_branches i <> [].
Proof. exact (@no_branch_rejected). Qed.
Print Assumptions no_branch_rejected.

(* OBLIGATION empty_branch_rejected *)
Theorem empty_branch_rejected :
  forall (o : oracle) (fuel : nat) (hseen : bool) (t : tt) (rest : list tt),
  no_comma_expr o -> tmatches (MP ",") t = true -> rejected (main_loop o (S fuel) hseen (t :: rest)).
Proof. exact (@empty_branch_rejected). Qed.
Print Assumptions empty_branch_rejected.

(* OBLIGATION leading_comma_rejected *)
Theorem leading_comma_rejected :
  forall (o : oracle) (t : tt) (rest : list tt),
  no_comma_expr o -> tmatches (MP ",") t = true -> rejected (parse o (t :: rest)).
Proof. exact (@leading_comma_rejected). Qed.
Print Assumptions leading_comma_rejected.

(* OBLIGATION double_comma_rejected *)
Theorem double_comma_rejected :
  forall (o : oracle) (fuel : nat) (hseen : bool) (inp : list tt) (b : branch) (t : tt) (rest : list tt),
  no_comma_expr o ->
  inp <> [] ->
  peek_handler inp = None ->
  build o inp = POk (b, t :: rest) ->
  tmatches (MP ",") t = true -> rejected (main_loop o (S (S fuel)) hseen inp).
Proof. exact (@double_comma_rejected). Qed.
Print Assumptions double_comma_rejected.

(* OBLIGATION unwrap_without_wrap_in_same_step_rejected *)
(* `<<<` with no open `>>>` in its own step *)
Theorem unwrap_without_wrap_in_same_step_rejected :
  forall (o : oracle) (fuel count : nat) (m : action) (g : group) (inp : list tt),
  g_mv g = Unwrap ->
  g_deferred g = true \/ count = 0 -> build_rest o fuel count m (Some g) inp = PErr EUnexpectedUnwrap.
Proof. exact (@unexpected_unwrap_rejected). Qed.
Print Assumptions unwrap_without_wrap_in_same_step_rejected.

(* OBLIGATION deferred_action_resets_wrapper_balance *)
(* ... including the cross-step case (the defect repaired by /repo commit 81e5f43) *)
Theorem deferred_action_resets_wrapper_balance :
  forall (count : nat) (g : group), g_deferred g = true -> bump count g = bump 0 g.
Proof. exact (@deferred_resets_balance). Qed.
Print Assumptions deferred_action_resets_wrapper_balance.

(* OBLIGATION negative_balance_rejected *)
Theorem negative_balance_rejected :
  forall (o : oracle) (inp : list tt) (b : branch) (rest : list tt),
  build o inp = POk (b, rest) -> Forall (fun z : Z => BinInt.Z.le Z0 z) (step_balances Z0 (b_members b)).
Proof. exact (@negative_balance_rejected). Qed.
Print Assumptions negative_balance_rejected.

(* OBLIGATION wrap_after_non_wrapper_or_with_unwrap_rejected *)
Theorem wrap_after_non_wrapper_or_with_unwrap_rejected :
  forall (o : oracle) (k : pkind) (a : bool) (inp acc : list tt) (def : bool)
    (d : determiner) (inp' : list tt) (c : comb) (forked : list tt),
  pu_loop o k a [] inp = PUStop acc def d inp' ->
  d_comb d = Some c ->
  erase (d_len d) inp' = Some forked ->
  peek_seq wrapper_pat forked = true ->
  (c = UNWRAP -> parse_until o k a inp = PErr EWrapAndUnwrap) /\
  (c <> UNWRAP -> can_be_wrapper c = false -> parse_until o k a inp = PErr ECantBeWrapper).
Proof. exact (@wrap_misuse_rejected). Qed.
Print Assumptions wrap_after_non_wrapper_or_with_unwrap_rejected.

(* OBLIGATION the_non_wrappers *)
Theorem the_non_wrappers :
  forall c : comb,
  In c [Then; Or; Dot; Chain; Flatten; Collect; Enumerate; Fold; TryFold; Unzip; Zip; Initial] ->
  can_be_wrapper c = false /\ c <> UNWRAP.
Proof. exact (@non_wrappers). Qed.
Print Assumptions the_non_wrappers.

(* OBLIGATION non_identifier_let_rejected *)
Theorem non_identifier_let_rejected :
  forall (o : oracle) (inp : list tt) (r : member_res) (e : operand) (ops : list operand),
  parse_stream o initial_group inp = POk r ->
  a_ops (mr_action r) = e :: ops -> let_split o e = Ans LetBadPat -> build o inp = PErr EIncorrectLet.
Proof. exact (@incorrect_let_rejected). Qed.
Print Assumptions non_identifier_let_rejected.

(* OBLIGATION duplicated_option_rejected *)
(* every duplicated option, wherever it stands (the escape of the pinned code, repaired by /repo commit a60958f, is duplicate_option_escapes about Parse.Pinned) *)
Theorem duplicated_option_rejected :
  forall (o : oracle) (ois : list oitem) (dup : oitem) (more : list oitem) (rest : list tt),
  distinct (keys ois) = true ->
  In (oi_k dup) (keys ois) ->
  Forall (payload_ok o) ois ->
  parse_options o (render_opts (ois ++ dup :: more) ++ rest) = PErr (EOptionTwice (oi_k dup)).
Proof. exact (@duplicate_option_rejected). Qed.
Print Assumptions duplicated_option_rejected.

(* OBLIGATION any_duplicate_rejected *)
Theorem any_duplicate_rejected :
  forall (o : oracle) (l : list oitem) (rest : list tt),
  distinct (keys l) = false ->
  Forall (payload_ok o) l ->
  exists k : optk, parse_options o (render_opts l ++ rest) = PErr (EOptionTwice k).
Proof. exact (@any_duplicate_rejected). Qed.
Print Assumptions any_duplicate_rejected.

(* OBLIGATION second_handler_rejected *)
Theorem second_handler_rejected :
  forall (o : oracle) (fuel : nat) (inp : list tt) (hk : hkind),
  peek_handler inp = Some hk -> main_loop o (S fuel) true inp = PErr EMultipleHandlers.
Proof. exact (@second_handler_rejected). Qed.
Print Assumptions second_handler_rejected.

(* OBLIGATION accepted_chains_are_well_formed *)
(* what the generator needs in order never to reach one of its internal `expect`s: non-empty chains starting with Initial, Wrap only on wrappers, Unwrap only on `<<<`, per-step balance >= 0 at every prefix *)
Theorem accepted_chains_are_well_formed :
  forall (o : oracle) (inp : list tt) (b : branch) (rest : list tt),
  build o inp = POk (b, rest) -> chain_wf (b_members b).
Proof. exact (@wrapper_balance_invariant). Qed.
Print Assumptions accepted_chains_are_well_formed.

(* OBLIGATION accepted_inputs_are_well_formed *)
Theorem accepted_inputs_are_well_formed :
  forall (o : oracle) (ts : list tt) (i : input),
  parse o ts = POk i ->
  i_branches i <> [] /\ Forall (fun b : branch => chain_wf (b_members b)) (i_branches i).
Proof. exact (@parse_ok_chains). Qed.
Print Assumptions accepted_inputs_are_well_formed.

(* OBLIGATION generator_never_hits_an_internal_error *)
(* Gen.v: for every configuration and every well-formed parsed input NONE of the generator's expect/unwrap/panic! sites is reachable *)
Theorem generator_never_hits_an_internal_error :
  forall (cfg : config) (inp : input), wf_parsed inp -> forall n : N, gen cfg inp <> InternalBug n.
Proof. exact (@no_internal_bug). Qed.
Print Assumptions generator_never_hits_an_internal_error.

(* OBLIGATION generator_total_on_parsed_input *)
Theorem generator_total_on_parsed_input :
  forall (cfg : config) (inp : input),
  wf_parsed inp -> config_verdict cfg inp = None -> exists e : rexpr, gen cfg inp = Ok e.
Proof. exact (@gen_total). Qed.
Print Assumptions generator_total_on_parsed_input.

(* OBLIGATION parser_output_is_well_formed *)
Theorem parser_output_is_well_formed :
  forall (o : oracle) (ts : list tt) (inp : input),
  parse o ts = POk inp -> wf_parsed inp /\ i_branches inp <> [].
Proof. exact (@parse_ok_wf). Qed.
Print Assumptions parser_output_is_well_formed.

(* OBLIGATION expansion_never_internal_panic *)
(* composed, for EVERY oracle and EVERY token stream: if the parser accepts, the generator does not end in an internal error *)
Theorem expansion_never_internal_panic :
  forall (o : oracle) (ts : list tt) (inp : input) (cfg : config),
  parse o ts = POk inp -> forall n : N, gen cfg inp <> InternalBug n.
Proof. exact (@parse_then_gen_no_internal_bug). Qed.
Print Assumptions expansion_never_internal_panic.

(* OBLIGATION expansion_total *)
(* ... it ends in an expression or in one of the documented configuration rejections (codes 1-3; the fourth, "no branch", cannot follow a successful parse) *)
Theorem expansion_total :
  forall (o : oracle) (ts : list tt) (inp : input) (cfg : config),
  parse o ts = POk inp ->
  (exists e : rexpr, gen cfg inp = Ok e) \/
  (exists k : N, gen cfg inp = ConfigError k /\ (k = 1%N \/ k = 2%N \/ k = 3%N)).
Proof. exact (@parse_then_gen_total). Qed.
Print Assumptions expansion_total.

(* OBLIGATION configuration_rejections_exact *)
Theorem configuration_rejections_exact :
  forall (cfg : config) (inp : input) (k : N),
  gen cfg inp = ConfigError k <->
  k = 1%N /\ rej_not_try_handler cfg inp \/
  k = 2%N /\ ~ rej_not_try_handler cfg inp /\ rej_try_then cfg inp \/
  k = 3%N /\ ~ rej_not_try_handler cfg inp /\ ~ rej_try_then cfg inp /\ rej_sync_fcp cfg inp \/
  k = 4%N /\
  ~ rej_not_try_handler cfg inp /\ ~ rej_try_then cfg inp /\ ~ rej_sync_fcp cfg inp /\ rej_no_branch inp.
Proof. exact (@config_rejection_exact). Qed.
Print Assumptions configuration_rejections_exact.

(* OBLIGATION unbalanced_step_is_generator_bug *)
(* conversely: a step whose brackets do not balance makes the generator stop with an internal error (why the parser must reject it) *)
Theorem unbalanced_step_is_generator_bug :
  forall (j : jout) (b : nat) (prev : string) (acts : list action),
  Spec.nest acts = None -> forall r : list rstmt * rexpr, gen_branch_step j b prev acts <> Ok r.
Proof. exact (@Render.gen_branch_step_unbalanced). Qed.
Print Assumptions unbalanced_step_is_generator_bug.

(* OBLIGATION pinned_duplicate_option_escaped *)
Theorem pinned_duplicate_option_escaped :
  forall (o : oracle) (cl ct cj cf cf' rest : list tt),
  let ois :=
    [{| oi_k := OLazy; oi_content := cl |}; {| oi_k := OTranspose; oi_content := ct |};
     {| oi_k := OJoiner; oi_content := cj |}; {| oi_k := OFcp; oi_content := cf |}] in
  Forall (payload_ok o) (ois ++ [{| oi_k := OFcp; oi_content := cf' |}]) ->
  not_opt_start rest ->
  parse_options_pinned o (render_opts (ois ++ [{| oi_k := OFcp; oi_content := cf' |}]) ++ rest) =
  POk (opts_of ois, render_opt {| oi_k := OFcp; oi_content := cf' |} ++ rest).
Proof. exact (@PinnedProps.duplicate_option_escapes). Qed.
Print Assumptions pinned_duplicate_option_escaped.

