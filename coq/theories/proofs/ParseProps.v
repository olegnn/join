(* ParseProps.v - theorems about the parser model Parse.v: A is about the determiner table alone, B-G hold for EVERY
   oracle, H (witnesses) and I (the two definitions of the pinned tree) run the fixed oracle `toy`.
   See PARSE_NOTES.md for the list and the reading of each statement. *)
From Coq Require Import Lia.
From Join Require Import Tok Ast Parse.

Local Open Scope list_scope.

(** * A. The determiner table: longest operator wins *)

Definition tm_compat (a b : tmatch) : bool :=
  match a, b with
  | MP c, MP c' | MP c, MJ c' | MJ c, MP c' | MJ c, MJ c' => String.eqb c c'
  | MI s, MI s' => String.eqb s s'
  | MBracket, MBracket => true
  | _, _ => false
  end.

(* compatible up to the length of the shorter pattern *)
Fixpoint pat_compat (p q : list tmatch) : bool :=
  match p, q with
  | a :: p', b :: q' => tm_compat a b && pat_compat p' q'
  | _, _ => true
  end.

Lemma tm_compat_sound a b t :
  tmatches a t = true -> tmatches b t = true -> tm_compat a b = true.
Proof.
  intros Ha Hb.
  destruct a, b, t; cbn in *; try discriminate; try reflexivity;
    try (destruct joint; try discriminate);
    try (apply String.eqb_eq in Ha; apply String.eqb_eq in Hb; subst; apply String.eqb_refl).
  all: destruct d; try discriminate; reflexivity.
Qed.

Lemma pat_compat_sound p : forall q ts,
  peek_seq p ts = true -> peek_seq q ts = true -> pat_compat p q = true.
Proof.
  induction p as [|a p IH]; intros q ts Hp Hq; [reflexivity|].
  destruct q as [|b q]; [reflexivity|].
  cbn in *. destruct ts as [|t ts]; [discriminate|].
  apply andb_true_iff in Hp as [Ha Hp]. apply andb_true_iff in Hq as [Hb Hq].
  rewrite (tm_compat_sound _ _ _ Ha Hb). cbn. eauto.
Qed.

(* `rest` turns the spelling of c into a longer documented operator: `?|>` + `@` = `?|>@`, `=>` + `[..]` = `=>[]` *)
Definition extends_op (c : comb) (rest : list tt) : bool :=
  match c, rest with
  | FilterMap, t :: _ => tmatches (MP "@") t
  | AndThen, t :: _ => tmatches MBracket t
  | _, _ => false
  end.

(* the same on pattern elements: m is what a longer row has where the row of c ends *)
Definition extends_by (c : option comb) (m : tmatch) : bool :=
  match c, m with
  | Some FilterMap, MP a => String.eqb a "@"
  | Some AndThen, MBracket => true
  | _, _ => false
  end.

Lemma extends_by_op c m t X : extends_by (Some c) m = true -> tmatches m t = true -> extends_op c (t :: X) = true.
Proof.
  destruct c; try discriminate; destruct m; try discriminate; cbn [extends_by extends_op]; auto.
  intros E. apply String.eqb_eq in E. now subst.
Qed.

(* the finite fact, on the table itself: of two rows that can match the same tokens the earlier one is longer,
   and where the later one ends it goes on with what `extends_op` looks for *)
Definition table_pairs_ok : bool :=
  forallb (fun idi =>
    forallb (fun jdj =>
      if Nat.ltb (fst idi) (fst jdj) then
        forallb (fun pi => forallb (fun pj =>
          implb (pat_compat pi pj)
                (Nat.ltb (List.length pj) (List.length pi) &&
                 extends_by (d_comb (snd jdj)) (nth (List.length pj) pi MBracket)))
          (d_pats (snd jdj))) (d_pats (snd idi))
      else true) (enum_from 0 determiners)) (enum_from 0 determiners).

Lemma table_pairs_ok_true : table_pairs_ok = true.
Proof. vm_compute. reflexivity. Qed.

Lemma In_enum_from {A} (l : list A) : forall k i x,
  nth_error l i = Some x -> In (k + i, x) (enum_from k l).
Proof.
  induction l as [|y l IH]; intros k i x H; destruct i; cbn in *; try discriminate.
  - inversion H; subst. left. f_equal. lia.
  - right. replace (k + S i) with (S k + i) by lia. apply IH. exact H.
Qed.

Lemma table_pairs i1 i2 d1 d2 p1 p2 :
  nth_error determiners i1 = Some d1 -> nth_error determiners i2 = Some d2 ->
  In p1 (d_pats d1) -> In p2 (d_pats d2) -> pat_compat p2 p1 = true -> i2 < i1 ->
  List.length p1 < List.length p2 /\ extends_by (d_comb d1) (nth (List.length p1) p2 MBracket) = true.
Proof.
  intros H1 H2 Hp1 Hp2 Hc Hlt.
  pose proof table_pairs_ok_true as T. unfold table_pairs_ok in T.
  rewrite forallb_forall in T.
  specialize (T (i2, d2) (In_enum_from determiners 0 i2 d2 H2)).
  rewrite forallb_forall in T.
  specialize (T (i1, d1) (In_enum_from determiners 0 i1 d1 H1)).
  cbn [fst snd] in T.
  destruct (Nat.ltb_spec i2 i1) as [_|]; [|lia].
  rewrite forallb_forall in T. specialize (T p2 Hp2).
  rewrite forallb_forall in T. specialize (T p1 Hp1).
  rewrite Hc in T. cbn [implb] in T. apply andb_true_iff in T as [T Te]. apply Nat.ltb_lt in T. auto.
Qed.

(* of two rows that can match the same tokens the earlier one has the strictly longer pattern *)
Theorem longest_operator_wins_table :
  forall i1 i2 d1 d2 p1 p2,
    nth_error determiners i1 = Some d1 -> nth_error determiners i2 = Some d2 ->
    In p1 (d_pats d1) -> In p2 (d_pats d2) ->
    pat_compat p2 p1 = true -> i2 < i1 ->
    List.length p1 < List.length p2.
Proof. intros i1 i2 d1 d2 p1 p2 H1 H2 Hp1 Hp2 Hc Hlt. exact (proj1 (table_pairs i1 i2 d1 d2 p1 p2 H1 H2 Hp1 Hp2 Hc Hlt)). Qed.

Lemma find_from_spec ds : forall k ts i d,
  find_from ds k ts = Some (i, d) ->
  exists j, i = k + j /\ nth_error ds j = Some d /\ d_check d ts = true /\
            forall j' d', j' < j -> nth_error ds j' = Some d' -> d_check d' ts = false.
Proof.
  induction ds as [|d0 ds IH]; intros k ts i d H; cbn in H; [discriminate|].
  destruct (d_check d0 ts) eqn:E.
  - inversion H; subst. exists 0. repeat split; auto; try lia.
  - apply IH in H as (j & -> & Hn & Hc & Hmin).
    exists (S j). repeat split; auto; try lia.
    intros j' d' Hj Hn'. destruct j'; cbn in Hn'.
    + inversion Hn'; subst. exact E.
    + eapply Hmin; [|exact Hn']. lia.
Qed.

Lemma find_from_none ds : forall k ts,
  find_from ds k ts = None <-> forall d, In d ds -> d_check d ts = false.
Proof.
  induction ds as [|d0 ds IH]; intros k ts; cbn [find_from].
  - split; [intros _ d []|reflexivity].
  - destruct (d_check d0 ts) eqn:E.
    + split; [discriminate|]. intros H. rewrite (H d0 (or_introl eq_refl)) in E. discriminate.
    + rewrite IH. split; [intros H d [<-|Hd]; auto|intros H d Hd; apply H; right; exact Hd].
Qed.

Lemma find_first_spec ts i d :
  find_first ts = Some (i, d) ->
  nth_error determiners i = Some d /\ d_check d ts = true /\
  forall j d', j < i -> nth_error determiners j = Some d' -> d_check d' ts = false.
Proof. intros H. apply find_from_spec in H as (j & -> & H). exact H. Qed.

Lemma find_first_none ts : find_first ts = None <-> forall d, In d determiners -> d_check d ts = false.
Proof. apply find_from_none. Qed.

Lemma first_match_spec ts d :
  first_match ts = Some d ->
  exists i, nth_error determiners i = Some d /\ d_check d ts = true /\
            forall j d', j < i -> nth_error determiners j = Some d' -> d_check d' ts = false.
Proof.
  unfold first_match. destruct (find_first ts) as [[i d0]|] eqn:E; [|discriminate].
  intros [= <-]. exists i. exact (find_first_spec ts i d0 E).
Qed.

(* A search from the start of the table returns the determiner of a matching row unless an EARLIER row
   matches too - and then that row's spelling is strictly longer (it extends the shorter spelling). *)
Theorem longest_operator_wins :
  forall ts i d p,
    nth_error determiners i = Some d -> In p (d_pats d) -> peek_seq p ts = true ->
    exists j d', first_match ts = Some d' /\ nth_error determiners j = Some d' /\ j <= i /\
      (j < i -> exists p', In p' (d_pats d') /\ peek_seq p' ts = true /\ List.length p < List.length p').
Proof.
  intros ts i d p Hn Hp Hm.
  assert (Hc : d_check d ts = true).
  { unfold d_check. apply existsb_exists. eauto. }
  destruct (first_match ts) as [d'|] eqn:E.
  - destruct (first_match_spec ts d' E) as (j & Hj & Hc' & Hmin).
    exists j, d'. repeat split; auto.
    + destruct (Nat.le_gt_cases j i); auto.
      rewrite (Hmin i d H Hn) in Hc. discriminate.
    + intros Hlt. unfold d_check in Hc'. apply existsb_exists in Hc' as (p' & Hp' & Hm').
      exists p'. repeat split; auto.
      exact (longest_operator_wins_table i j d d' p p' Hn Hj Hp Hp' (pat_compat_sound _ _ _ Hm' Hm) Hlt).
  - unfold first_match in E. destruct (find_first ts) as [[? ?]|] eqn:E'; [discriminate|].
    rewrite (proj1 (find_first_none ts) E' d (nth_error_In _ _ Hn)) in Hc. discriminate.
Qed.

Lemma peek_seq_length p : forall ts, peek_seq p ts = true -> List.length p <= List.length ts.
Proof.
  induction p as [|m p IH]; intros ts H; cbn in *; [lia|].
  destruct ts as [|t ts]; [discriminate|]. apply andb_true_iff in H as [_ H]. apply IH in H. cbn. lia.
Qed.

Lemma peek_seq_app p : forall s X, peek_seq p s = true -> peek_seq p (s ++ X) = true.
Proof.
  induction p as [|m p IH]; intros s X H; [reflexivity|]. destruct s as [|t s]; [discriminate|].
  cbn [peek_seq app] in *. apply andb_true_iff in H as [-> H]. exact (IH s X H).
Qed.

Lemma peek_seq_next q : forall s X,
  peek_seq q (s ++ X) = true -> List.length s < List.length q ->
  exists t X', X = t :: X' /\ tmatches (nth (List.length s) q MBracket) t = true.
Proof.
  induction q as [|m q IH]; intros s X H L; [cbn in L; lia|].
  destruct s as [|a s]; cbn [app peek_seq List.length nth] in *.
  - destruct X as [|t X']; [discriminate|]. apply andb_true_iff in H as [H _]. eauto.
  - destruct (a :: s ++ X) eqn:E; [discriminate|]. injection E as <- <-.
    apply andb_true_iff in H as [_ H]. apply (IH s X H). lia.
Qed.

Definition table_rows_ok : bool :=
  forallb (fun d =>
    forallb (fun p => Nat.leb (d_len d) (List.length p)) (d_pats d) && d_validate d &&
    match d_comb d with
    | Some c => Nat.leb 2 (d_len d) && negb (comb_eqb c Initial)
    | None => Nat.eqb (d_len d) 0
    end) determiners.
Lemma table_rows_ok_true : table_rows_ok = true.
Proof. vm_compute. reflexivity. Qed.

Lemma comb_eqb_refl c : comb_eqb c c = true.
Proof. destruct c; reflexivity. Qed.
Lemma comb_is_unwrap_true c : comb_is_unwrap c = true -> c = UNWRAP.
Proof. destruct c; (discriminate || reflexivity). Qed.

Lemma det_row_facts d :
  In d determiners ->
  (forall p, In p (d_pats d) -> d_len d <= List.length p) /\ d_validate d = true /\
  (forall c, d_comb d = Some c -> 2 <= d_len d /\ c <> Initial) /\
  (d_comb d = None -> d_len d = 0).
Proof.
  intros Hin. pose proof table_rows_ok_true as T. unfold table_rows_ok in T.
  rewrite forallb_forall in T. specialize (T d Hin).
  apply andb_true_iff in T as [T T3]. apply andb_true_iff in T as [T1 T2].
  rewrite forallb_forall in T1.
  repeat split.
  - intros p Hp. apply Nat.leb_le. auto.
  - exact T2.
  - rewrite H in T3. apply andb_true_iff in T3 as [T3 _]. apply Nat.leb_le. exact T3.
  - rewrite H in T3. apply andb_true_iff in T3 as [_ T3]. intros ->. discriminate.
  - intros H. rewrite H in T3. apply Nat.eqb_eq. exact T3.
Qed.

(* The documented spellings as proc_macro2 lexes them (all characters but the last are Joint; the spacing j of
   the last character depends on what follows). *)
Definition PJ (c : string) : tt := TP c true.
Definition spellings (j : bool) : list (list tt * comb) :=
  [ ([PJ "|"; TP ">" j], Map); ([PJ "-"; TP ">" j], Then); ([PJ "="; TP ">" j], AndThen);
    ([PJ "<"; TP "|" j], Or); ([PJ "<"; TP "=" j], OrElse); ([PJ ">"; TP "." j], Dot); ([PJ "."; TP "." j], Dot);
    ([PJ "!"; TP ">" j], MapErr); ([PJ ">"; PJ "@"; TP ">" j], Chain); ([PJ "?"; TP "?" j], Inspect);
    ([PJ "?"; TP ">" j], Filter); ([PJ "?"; PJ "|"; PJ ">"; TP "@" j], FindMap); ([PJ "?"; PJ "|"; TP ">" j], FilterMap);
    ([PJ "|"; TI "n"; TP ">" j], Enumerate); ([PJ "?"; PJ "&"; PJ "!"; TP ">" j], Partition);
    ([PJ "^"; PJ "^"; TP ">" j], Flatten); ([PJ "^"; TP "@" j], Fold); ([PJ "?"; PJ "^"; TP "@" j], TryFold);
    ([PJ "?"; TP "@" j], Find); ([PJ ">"; PJ "^"; TP ">" j], Zip); ([PJ "<"; PJ "-"; TP ">" j], Unzip);
    ([PJ "<"; PJ "<"; TP "<" j], UNWRAP) ].
(* `=>[]`: the bracket group is part of the spelling, its content is ignored *)
Definition collect_spelling (j : bool) (content : list tt) : list tt := [PJ "="; TP ">" j; TG DBracket content].

Definition TILDE : tt := TP "~" true.

Definition documented (s : list tt) (c : comb) : Prop :=
  (exists j, In (s, c) (spellings j)) \/ (c = Collect /\ exists j content, s = collect_spelling j content).

(* each documented spelling, on its own, is matched by a row of its combinator that takes all of it *)
Lemma spellings_rows j :
  map (fun sc => match find_first (fst sc) with
                 | Some (_, d) => (d_comb d, d_len d, is_tilde (hd TILDE (fst sc)))
                 | None => (None, 0, true)
                 end) (spellings j)
  = map (fun sc => (Some (snd sc), List.length (fst sc), false)) (spellings j).
Proof. destruct j; vm_compute; reflexivity. Qed.

Lemma documented_row s c :
  documented s c ->
  exists i d, find_first s = Some (i, d) /\ d_comb d = Some c /\ d_len d = List.length s /\ is_tilde (hd TILDE s) = false.
Proof.
  intros [[j Hin]|[-> (j & content & ->)]].
  - pose proof (spellings_rows j) as E. rewrite map_ext_in_iff in E. specialize (E (s, c) Hin). cbn [fst snd] in E.
    destruct (find_first s) as [[i d]|]; [|discriminate E]. injection E as Ec El Et. eauto 6.
  - exists 2. eexists. repeat split; reflexivity.   (* row 2 of `determiners` is `=>[]` *)
Qed.

(* With something behind it, a documented spelling is still resolved to its own row: by `longest_operator_wins`
   only an earlier, longer row could win, and the table has such a row only where `extends_op` says so. *)
Lemma documented_resolves_at s c X :
  documented s c -> extends_op c X = false ->
  exists i d, find_first (s ++ X) = Some (i, d) /\ d_comb d = Some c /\ d_len d = List.length s /\
              is_tilde (hd TILDE s) = false /\ s <> [].
Proof.
  intros Hdoc Hext. destruct (documented_row s c Hdoc) as (i & d & Hf & Hc & Hl & Ht).
  apply find_first_spec in Hf as (Hn & Hck & _). apply existsb_exists in Hck as (p & Hp & Hm).
  destruct (det_row_facts d (nth_error_In _ _ Hn)) as (Hlen & _ & Hsome & _). destruct (Hsome c Hc) as [H2 _].
  assert (Hlp : List.length p = List.length s).
  { specialize (Hlen p Hp). apply peek_seq_length in Hm. lia. }
  pose proof (peek_seq_app p s X Hm) as HmX.
  destruct (longest_operator_wins (s ++ X) i d p Hn Hp HmX) as (j & d' & Hfm & Hj & Hle & Hlong).
  unfold first_match in Hfm. destruct (find_first (s ++ X)) as [[i' d'']|]; [|discriminate]. injection Hfm as ->.
  exists i', d'. assert (d' = d) as ->.
  { destruct (Nat.eq_dec j i) as [->|Hne]; [congruence|]. exfalso.
    destruct (Hlong ltac:(lia)) as (p' & Hp' & Hm' & Hlt).
    destruct (table_pairs i j d d' p p' Hn Hj Hp Hp' (pat_compat_sound _ _ _ Hm' HmX) ltac:(lia)) as [_ He].
    destruct (peek_seq_next p' s X Hm' ltac:(lia)) as (t & X' & -> & Htm).
    rewrite Hc, Hlp in He. rewrite (extends_by_op c _ t X' He Htm) in Hext. discriminate. }
  repeat split; auto. destruct s; [cbn in Hl; lia|discriminate].
Qed.

Theorem documented_wins s c rest :
  documented s c -> extends_op c rest = false ->
  exists d, first_match (s ++ rest) = Some d /\ d_comb d = Some c.
Proof.
  intros Hdoc Hext. destruct (documented_resolves_at s c rest Hdoc Hext) as (i & d & Hf & Hc & _).
  exists d. unfold first_match. rewrite Hf. auto.
Qed.

Theorem documented_operator_wins :
  forall j s c rest, In (s, c) (spellings j) -> extends_op c rest = false ->
    exists d, first_match (s ++ rest) = Some d /\ d_comb d = Some c.
Proof. intros j s c rest Hin. exact (documented_wins s c rest (or_introl (ex_intro _ j Hin))). Qed.

Theorem collect_spelling_wins :
  forall j content rest, exists d, first_match (collect_spelling j content ++ rest) = Some d /\ d_comb d = Some Collect.
Proof.
  intros j content rest.
  exact (documented_wins _ Collect rest (or_intror (conj eq_refl (ex_intro _ j (ex_intro _ content eq_refl)))) eq_refl).
Qed.

Print Assumptions longest_operator_wins_table.
Print Assumptions longest_operator_wins.
Print Assumptions documented_operator_wins.

(** * B. What every parser function returns (every oracle, every input)

   One specification per function, of the form `sat P (f ..)`: the result satisfies P, or it is an error that is
   not one of the two internal ones (for the two loops with fuel, `build_rest_spec` and `main_loop_spec` in part C,
   the error is not internal provided the fuel covers the input).  Read on `POk` it is the shape of what is accepted (part C: every accepted
   chain), read on `PErr` it is the first half of C15. *)

Definition is_internal (e : perr) : bool :=
  match e with EOutOfFuel | EBug _ => true | _ => false end.

Definition sat {A} (P : A -> Prop) (r : presult A) : Prop :=
  match r with POk a => P a | PErr e => is_internal e = false end.

Lemma sat_ok {A} (P : A -> Prop) r a : sat P r -> r = POk a -> P a.
Proof. intros H ->. exact H. Qed.
Lemma sat_err {A} (P : A -> Prop) r e : sat P r -> r = PErr e -> is_internal e = false.
Proof. intros H ->. exact H. Qed.
Lemma sat_impl {A} (P Q : A -> Prop) r : sat P r -> (forall a, P a -> Q a) -> sat Q r.
Proof. destruct r; cbn; auto. Qed.
Lemma sat_bind {A B} (P : A -> Prop) (Q : B -> Prop) r (f : A -> presult B) :
  sat P r -> (forall a, P a -> sat Q (f a)) -> sat Q (match r with POk a => f a | PErr e => PErr e end).
Proof. destruct r; cbn; auto. Qed.

Definition suffix (a b : list tt) : Prop := exists pre, b = pre ++ a.

Lemma suffix_refl a : suffix a a.
Proof. exists []. reflexivity. Qed.
Lemma suffix_trans a b c : suffix a b -> suffix b c -> suffix a c.
Proof. intros [p ->] [q ->]. exists (q ++ p). now rewrite app_assoc. Qed.
Lemma suffix_cons t a b : suffix a b -> suffix a (t :: b).
Proof. intros [p ->]. exists (t :: p). reflexivity. Qed.
Lemma suffix_length a b : suffix a b -> List.length a <= List.length b.
Proof. intros [p ->]. rewrite app_length. lia. Qed.
Lemma suffix_same_length a b : suffix a b -> List.length a = List.length b -> a = b.
Proof.
  intros [p ->] H. rewrite app_length in H. destruct p; [reflexivity|]. cbn in H. lia.
Qed.

Lemma erase_spec n : forall ts r, erase n ts = Some r -> suffix r ts /\ List.length ts = n + List.length r.
Proof.
  induction n as [|n IH]; intros ts r H; cbn in H.
  - inversion H; subst. split; [apply suffix_refl|reflexivity].
  - destruct ts as [|t ts]; [discriminate|]. apply IH in H as [Hs Hl].
    split; [apply suffix_cons; exact Hs|cbn; lia].
Qed.

Lemma erase_enough n : forall ts, n <= List.length ts -> exists r, erase n ts = Some r.
Proof.
  induction n as [|n IH]; intros ts H; cbn; [eauto|].
  destruct ts as [|t ts]; cbn in H; [lia|]. apply IH. lia.
Qed.

Lemma d_check_length d ts :
  In d determiners -> d_check d ts = true -> d_len d <= List.length ts.
Proof.
  intros Hin Hc. unfold d_check in Hc. apply existsb_exists in Hc as (p & Hp & Hm).
  destruct (det_row_facts d Hin) as (Hl & _). specialize (Hl p Hp).
  apply peek_seq_length in Hm. lia.
Qed.

Lemma nth_error_skipn' {A} n : forall (l : list A) i, nth_error (skipn n l) i = nth_error l (n + i).
Proof.
  induction n as [|n IH]; intros l i; [reflexivity|].
  destruct l as [|x l]; cbn; [destruct i; reflexivity|apply IH].
Qed.
Lemma nth_error_firstn' {A} n : forall (l : list A) i x, nth_error (firstn n l) i = Some x -> nth_error l i = Some x.
Proof.
  induction n as [|n IH]; intros l i x H; cbn in H; [destruct i; discriminate|].
  destruct l as [|y l]; [destruct i; discriminate|]. destruct i; cbn in *; [exact H|eauto].
Qed.

(* every row validates what was scanned, so `try_accept` is the search and then the oracle's answer *)
Lemma try_accept_eq o k a acc inp :
  try_accept o k a acc inp =
  match find_first inp with
  | None => Continue
  | Some (_, d) =>
      if is_nil acc && a then Accept d
      else match check_valid o k acc with Ans true => Accept d | Ans false => Continue | NoAns => AMiss end
  end.
Proof.
  unfold try_accept. destruct (find_first inp) as [[i d]|] eqn:E; [|reflexivity].
  apply find_first_spec in E as (Hn & _). destruct (det_row_facts d (nth_error_In _ _ Hn)) as (_ & -> & _). reflexivity.
Qed.

Lemma try_accept_Accept o k a acc inp d :
  try_accept o k a acc inp = Accept d -> In d determiners /\ d_check d inp = true.
Proof.
  rewrite try_accept_eq. destruct (find_first inp) as [[i d']|] eqn:E; [|discriminate].
  apply find_first_spec in E as (Hn & Hc & _). apply nth_error_In in Hn. intros H.
  assert (d' = d) as <-; [|auto].
  destruct (is_nil acc && a); [congruence|]. destruct (check_valid o k acc) as [[|]|]; congruence.
Qed.

Lemma pu_loop_nil o k a acc : pu_loop o k a acc [] = PUEnd acc.
Proof. reflexivity. Qed.

(* `pu_loop` and `opt_loop` go on with the tail, or with the tail of the tail (after a `~`, after an option) *)
Lemma list_ind_tl {A} (P : list A -> Prop) :
  P [] -> (forall t rest, P rest -> P (tl rest) -> P (t :: rest)) -> forall l, P l.
Proof.
  intros H0 HS. assert (H : forall l, P l /\ P (tl l)); [|intros l; apply H].
  induction l as [|t rest [IH IH']]; cbn; auto.
Qed.

Definition pu_post (acc inp : list tt) (r : pu_stop) : Prop :=
  match r with
  | PUEnd acc' => exists l, acc' = acc ++ l
  | PUStop acc' _ d inp' =>
      suffix inp' inp /\ (exists l, acc' = acc ++ l) /\ In d determiners /\ d_check d inp' = true
  | PUErr e => is_internal e = false
  end.

Lemma pu_post_step acc x inp inp0 r : suffix inp inp0 -> pu_post (acc ++ [x]) inp r -> pu_post acc inp0 r.
Proof.
  intros Hs. destruct r as [acc'|acc' def d inp'|e]; cbn [pu_post]; [| |auto].
  - intros (l & ->). exists (x :: l). now rewrite <- app_assoc.
  - intros (Hs' & (l & ->) & Hr). split; [eapply suffix_trans; eauto|]. split; [|exact Hr].
    exists (x :: l). now rewrite <- app_assoc.
Qed.

Lemma pu_loop_spec o k a : forall inp acc, pu_post acc inp (pu_loop o k a acc inp).
Proof.
  induction inp as [|t rest IH IH'] using list_ind_tl; intros acc.
  - exists []. now rewrite app_nil_r.
  - assert (Hstop : forall def inp', suffix inp' (t :: rest) -> forall d, In d determiners /\ d_check d inp' = true ->
                      pu_post acc (t :: rest) (PUStop acc def d inp')).
    { intros def inp' Hs d [Hin Hc]. repeat split; auto. exists []. now rewrite app_nil_r. }
    cbn [pu_loop]. destruct (is_tilde t).
    + destruct (try_accept o k a acc rest) as [d| |] eqn:E; [| |reflexivity].
      * apply Hstop; [apply suffix_cons, suffix_refl|eapply try_accept_Accept; eauto].
      * destruct rest as [|x rest']; [reflexivity|].
        apply (pu_post_step acc x rest'); [do 2 apply suffix_cons; apply suffix_refl|apply IH'].
    + destruct (try_accept o k a acc (t :: rest)) as [d| |] eqn:E; [| |reflexivity].
      * apply Hstop; [apply suffix_refl|eapply try_accept_Accept; eauto].
      * apply (pu_post_step acc t rest); [apply suffix_cons, suffix_refl|apply IH].
Qed.

(* `parse_until` is the loop `pu_loop`, then `after_stop`: what happens at the determiner the loop stopped at *)
Definition after_stop (def : bool) (d : determiner) (inp' : list tt) : presult (option group * list tt) :=
  match d_comb d with
  | None =>
      match erase (d_len d) inp' with
      | None => PErr EUnexpectedEnd
      | Some rest => POk (None, rest)
      end
  | Some c =>
      match erase (d_len d) inp' with
      | None => PErr EUnexpectedEnd
      | Some forked =>
          let wrap := peek_seq wrapper_pat forked in
          if wrap && comb_is_unwrap c then PErr EWrapAndUnwrap
          else if wrap && negb (can_be_wrapper c) then PErr ECantBeWrapper
          else
            match (if wrap then erase 3 inp' else Some inp') with
            | None => PErr EUnexpectedEnd
            | Some inp'' =>
                match erase (d_len d) inp'' with
                | None => PErr EUnexpectedEnd
                | Some rest =>
                    POk (Some (mkGroup c def (if wrap then Wrap else if comb_is_unwrap c then Unwrap else NoMove)), rest)
                end
            end
      end
  end.

Lemma parse_until_alt o k a inp :
  parse_until o k a inp =
  match pu_loop o k a [] inp with
  | PUErr e => PErr e
  | PUEnd acc => finish_unit o k acc None []
  | PUStop acc def d inp' =>
      match after_stop def d inp' with
      | PErr e => PErr e
      | POk (next, rest) => finish_unit o k acc next rest
      end
  end.
Proof.
  unfold parse_until, after_stop.
  destruct (pu_loop o k a [] inp) as [acc|acc def d inp'|e]; try reflexivity.
  destruct (d_comb d) as [c|].
  - destruct (erase (d_len d) inp') as [forked|]; [|reflexivity].
    destruct (peek_seq wrapper_pat forked && comb_is_unwrap c); [reflexivity|].
    destruct (peek_seq wrapper_pat forked && negb (can_be_wrapper c)); [reflexivity|].
    destruct (if peek_seq wrapper_pat forked then erase 3 inp' else Some inp') as [inp''|]; [|reflexivity].
    destruct (erase (d_len d) inp''); reflexivity.
  - destruct (erase (d_len d) inp'); reflexivity.
Qed.

Lemma finish_unit_spec o k acc next rest :
  sat (fun u => u = mkUnit acc next rest /\ check_valid o k acc = Ans true) (finish_unit o k acc next rest).
Proof. unfold finish_unit. destruct (check_valid o k acc) as [[|]|]; cbn; auto. Qed.

(* a group as parse_until produces it *)
Definition group_coherent (g : group) : Prop :=
  (g_mv g = Wrap -> can_be_wrapper (g_comb g) = true) /\
  (g_mv g = Unwrap <-> g_comb g = UNWRAP) /\
  g_comb g <> Initial.

Definition stops_at_separator (rest : list tt) : Prop :=
  rest = [] \/ (exists t r, rest = t :: r /\ tmatches (MP ",") t = true) \/ peek_handler rest <> None.

Definition next_post (inp : list tt) (next : option group) (rest : list tt) : Prop :=
  match next with
  | Some g => List.length rest + 2 <= List.length inp /\ group_coherent g
  | None => stops_at_separator rest
  end.

Lemma next_post_suffix inp inp' next rest :
  suffix inp inp' -> next_post inp next rest -> next_post inp' next rest.
Proof.
  intros Hs. destruct next; cbn; [|auto]. intros [Hl Hc]. apply suffix_length in Hs. split; [lia|auto].
Qed.

Lemma det_none_cases d :
  In d determiners -> d_comb d = None -> d_pats d = [[MP ","]] \/ d_pats d = handler_pats.
Proof.
  intros Hin Hn.
  assert (H : In d (filter (fun d => negb (is_some (d_comb d))) determiners)) by (apply filter_In; now rewrite Hn).
  destruct H as [<-|[<-|[]]]; auto.
Qed.

Lemma handler_check_peek ts :
  existsb (fun p => peek_seq p ts) handler_pats = true <-> peek_handler ts <> None.
Proof.
  unfold handler_pats, peek_handler. cbn [existsb].
  destruct (peek_seq [MI "then"; MJ "="; MP ">"] ts); [split; [discriminate|reflexivity]|].
  destruct (peek_seq [MI "and_then"; MJ "="; MP ">"] ts); [split; [discriminate|reflexivity]|].
  destruct (peek_seq [MI "map"; MJ "="; MP ">"] ts); cbn; split; congruence.
Qed.

Lemma after_stop_spec def d inp' :
  In d determiners -> d_check d inp' = true ->
  sat (fun nr => suffix (snd nr) inp' /\ next_post inp' (fst nr) (snd nr)) (after_stop def d inp').
Proof.
  intros Hin Hc. unfold after_stop.
  pose proof (d_check_length d inp' Hin Hc) as Hlen.
  destruct (det_row_facts d Hin) as (_ & _ & Hsome & Hnone).
  destruct (d_comb d) as [c|] eqn:Ec.
  - destruct (Hsome c eq_refl) as [H2 Hni].
    destruct (erase (d_len d) inp') as [forked|] eqn:Ef; [|reflexivity]. cbn zeta.
    destruct (peek_seq wrapper_pat forked); cbn [andb].
    + destruct (comb_is_unwrap c) eqn:Eu; [reflexivity|].
      destruct (can_be_wrapper c) eqn:Ecw; cbn [negb]; [|reflexivity].
      destruct (erase 3 inp') as [inp''|] eqn:E3; [|reflexivity].
      destruct (erase (d_len d) inp'') as [rest|] eqn:E4; [|reflexivity].
      apply erase_spec in E3 as [Hs3 Hl3]. apply erase_spec in E4 as [Hs4 Hl4]. cbn.
      split; [eapply suffix_trans; eauto|]. split; [lia|].
      repeat split; cbn; auto; try discriminate. intros ->. discriminate.
    + rewrite Ef. apply erase_spec in Ef as [Hs Hl]. cbn. split; [exact Hs|]. split; [lia|].
      repeat split; cbn; auto.
      * intros H. destruct (comb_is_unwrap c); discriminate.
      * destruct (comb_is_unwrap c) eqn:Eu; [intros _; now apply comb_is_unwrap_true|discriminate].
      * intros ->. reflexivity.
  - rewrite (Hnone eq_refl). cbn. split; [apply suffix_refl|].
    unfold d_check in Hc. destruct (det_none_cases d Hin Ec) as [Hp|Hp]; rewrite Hp in Hc.
    + cbn in Hc. destruct inp' as [|t r]; [discriminate|]. right; left. exists t, r. split; auto.
      rewrite orb_false_r, andb_true_r in Hc. exact Hc.
    + right; right. now apply handler_check_peek.
Qed.

Theorem parse_until_spec o k a inp :
  sat (fun u => suffix (u_rest u) inp /\ check_valid o k (u_tokens u) = Ans true /\ next_post inp (u_next u) (u_rest u))
      (parse_until o k a inp).
Proof.
  rewrite parse_until_alt. pose proof (pu_loop_spec o k a inp []) as Sp.
  destruct (pu_loop o k a [] inp) as [acc|acc def d inp'|e]; [| |exact Sp].
  - apply (sat_impl _ _ _ (finish_unit_spec o k acc None [])). intros u [-> Hv]. cbn.
    split; [exists inp; now rewrite app_nil_r|]. split; [exact Hv|left; reflexivity].
  - destruct Sp as (Hs & _ & Hin & Hc).
    apply (sat_bind _ _ _ _ (after_stop_spec def d inp' Hin Hc)). intros [next rest] [Hs' Hn].
    apply (sat_impl _ _ _ (finish_unit_spec o k acc next rest)). intros u [-> Hv]. cbn in *.
    split; [eapply suffix_trans; eauto|]. split; [exact Hv|]. eapply next_post_suffix; eauto.
Qed.

Lemma parse_until_tokens o k a inp u :
  parse_until o k a inp = POk u ->
  match pu_loop o k a [] inp with PUEnd acc | PUStop acc _ _ _ => u_tokens u = acc | PUErr _ => False end.
Proof.
  rewrite parse_until_alt. destruct (pu_loop o k a [] inp) as [acc|acc def d inp'|e]; [| |discriminate].
  - intros H. now apply (sat_ok _ _ _ (finish_unit_spec o k acc None [])) in H as [-> _].
  - destruct (after_stop def d inp') as [[next rest]|]; [|discriminate].
    intros H. now apply (sat_ok _ _ _ (finish_unit_spec o k acc next rest)) in H as [-> _].
Qed.

Lemma parse_n_S o c' k inp :
  parse_n o (S c') k inp =
  match parse_until o k false inp with
  | PErr e => PErr e
  | POk u =>
      match c' with
      | 0 => POk ([u_tokens u], u_next u, u_rest u)
      | S _ =>
          match u_rest u with
          | [] => PErr EExpectedComma
          | t :: rest' =>
              if tmatches (MP ",") t then
                match u_next u with
                | Some _ => PErr EExpectedUnits
                | None =>
                    match parse_n o c' k rest' with
                    | PErr e => PErr e
                    | POk (ops, next, rest'') => POk (u_tokens u :: ops, next, rest'')
                    end
                end
              else PErr EExpectedComma
          end
      end
  end.
Proof. reflexivity. Qed.

Lemma parse_n_spec o k : forall count inp,
  sat (fun r => let '(ops, next, rest) := r in
         suffix rest inp /\ List.length ops = count /\
         Forall (fun e => check_valid o k e = Ans true) ops /\
         ((count = 0 /\ next = None /\ rest = inp) \/ (0 < count /\ next_post inp next rest)))
      (parse_n o count k inp).
Proof.
  induction count as [|c IH]; intros inp.
  - cbn. repeat split; auto using suffix_refl.
  - rewrite parse_n_S. apply (sat_bind _ _ _ _ (parse_until_spec o k false inp)). intros u (Hs & Hv & Hn).
    destruct c as [|c'].
    + cbn. split; [exact Hs|]. split; [reflexivity|]. split; [constructor; auto|]. right. split; [lia|exact Hn].
    + destruct (u_rest u) as [|t rest'] eqn:Er; [reflexivity|].
      destruct (tmatches (MP ",") t); [|reflexivity].
      destruct (u_next u); [reflexivity|].
      assert (Hs2 : suffix rest' inp).
      { eapply suffix_trans; [|exact Hs]. apply suffix_cons, suffix_refl. }
      apply (sat_bind _ _ _ _ (IH rest')). intros [[ops next] rest''] (Hs' & Hl' & Hf' & Hn'). cbn.
      split; [eapply suffix_trans; eauto|]. split; [now rewrite Hl'|]. split; [constructor; auto|].
      right. split; [lia|]. destruct Hn' as [(Hz & _)|(_ & Hn')]; [discriminate|].
      eapply next_post_suffix; eauto.
Qed.

Lemma parse_n_or_empty_cases o count allow k inp :
  (allow = true /\ exists u, parse_until o KEmpty true inp = POk u /\
     parse_n_or_empty o count allow k inp = POk (mkUnits None (u_next u) (u_rest u))) \/
  parse_n_or_empty o count allow k inp =
    match parse_n o count k inp with
    | PErr e => PErr e
    | POk (ops, next, rest) => POk (mkUnits (Some ops) next rest)
    end.
Proof.
  unfold parse_n_or_empty. destruct allow; [|right; reflexivity].
  destruct (parse_until o KEmpty true inp) as [u|e]; [left; eauto|right; reflexivity].
Qed.

Lemma parse_n_or_empty_spec o count allow k inp :
  sat (fun us =>
         suffix (us_rest us) inp /\
         ((count = 0 /\ us_next us = None /\ us_rest us = inp) \/ next_post inp (us_next us) (us_rest us)) /\
         match us_parsed us with
         | Some ops => List.length ops = count /\ Forall (fun e => check_valid o k e = Ans true) ops
         | None => allow = true
         end)
      (parse_n_or_empty o count allow k inp).
Proof.
  destruct (parse_n_or_empty_cases o count allow k inp) as [(-> & u & Eu & ->)| ->].
  - destruct (sat_ok _ _ _ (parse_until_spec o KEmpty true inp) Eu) as (Hs & _ & Hn). cbn. auto.
  - apply (sat_bind _ _ _ _ (parse_n_spec o k count inp)). intros [[ops next] rest] (Hs & Hl & Hf & Hn). cbn.
    repeat split; auto. destruct Hn as [Hn|[_ Hn]]; auto.
Qed.

Lemma parse_stream_wrap o g inp :
  g_mv g = Wrap ->
  parse_stream o g inp =
  if can_be_wrapper (g_comb g) then
    match parse_until o KEmpty true inp with
    | PErr e => PErr e
    | POk u => POk (mkMember (mkAction (g_comb g) (g_deferred g) Wrap [wrapper_placeholder]) (u_next u) (u_rest u))
    end
  else PErr ECantBeWrapper.
Proof. unfold parse_stream. now intros ->. Qed.

Lemma parse_stream_nowrap o g inp :
  g_mv g <> Wrap ->
  parse_stream o g inp =
  match parse_n_or_empty o (ar_count (arity (g_comb g))) (ar_allow_empty (arity (g_comb g))) (ar_kind (arity (g_comb g))) inp with
  | PErr e => PErr e
  | POk us =>
      POk (mkMember (mkAction (g_comb g) (g_deferred g) (g_mv g) (match us_parsed us with Some l => l | None => [] end))
                    (us_next us) (us_rest us))
  end.
Proof. unfold parse_stream. destruct (g_mv g); [congruence|reflexivity|reflexivity]. Qed.

Definition ops_shape (g : group) (ops : list operand) : Prop :=
  (g_mv g = Wrap /\ can_be_wrapper (g_comb g) = true /\ ops = [wrapper_placeholder]) \/
  (g_mv g <> Wrap /\
   (List.length ops = ar_count (arity (g_comb g)) \/ (ops = [] /\ ar_allow_empty (arity (g_comb g)) = true))).

Lemma parse_stream_spec o g inp :
  sat (fun r =>
         a_comb (mr_action r) = g_comb g /\ a_deferred (mr_action r) = g_deferred g /\ a_mv (mr_action r) = g_mv g /\
         suffix (mr_rest r) inp /\
         ((has_inner_exprs (g_comb g) = false /\ g_mv g <> Wrap /\ mr_next r = None /\ mr_rest r = inp) \/
          next_post inp (mr_next r) (mr_rest r)) /\
         (g_comb g = Initial -> g_mv g <> Wrap -> exists e, a_ops (mr_action r) = [e] /\ valid_expr o e = Ans true) /\
         ops_shape g (a_ops (mr_action r)))
      (parse_stream o g inp).
Proof.
  assert (Hmv : g_mv g = Wrap \/ g_mv g <> Wrap) by (destruct (g_mv g); auto; right; discriminate).
  destruct Hmv as [Em|Em].
  - rewrite (parse_stream_wrap o g inp Em). destruct (can_be_wrapper (g_comb g)) eqn:Ecw; [|reflexivity].
    apply (sat_bind _ _ _ _ (parse_until_spec o KEmpty true inp)). intros u (Hs & _ & Hn). cbn.
    repeat split; auto; [congruence|]. left. auto.
  - rewrite (parse_stream_nowrap o g inp Em).
    apply (sat_bind _ _ _ _ (parse_n_or_empty_spec o _ _ _ inp)). intros us (Hs & Hn & Hp). cbn.
    repeat split; auto.
    + destruct Hn as [(Hz & Hn & Hr)|Hn]; [left|right; exact Hn].
      repeat split; auto. destruct (g_comb g); cbn in Hz; try discriminate; reflexivity.
    + intros Hi _. rewrite Hi in Hp. cbn in Hp.
      destruct (us_parsed us) as [ops|]; [|discriminate].
      destruct Hp as [Hl Hf]. destruct ops as [|e [|? ?]]; try discriminate.
      inversion Hf; subst. exists e. split; auto.
    + right. split; [exact Em|]. destruct (us_parsed us) as [ops|]; [left; apply Hp|right; auto].
Qed.

(** * C. The chain builder and the top level: shape of every accepted chain, no internal error *)

From Coq Require Import ZArith.

Definition delta (m : action) : Z :=
  match a_mv m with Wrap => 1 | Unwrap => -1 | NoMove => 0 end%Z.

(* running Wrap/Unwrap balance; it restarts from 0 at every Deferred member (= first member of a step) *)
Fixpoint step_balances (cur : Z) (ms : list action) : list Z :=
  match ms with
  | [] => []
  | m :: r => let c := ((if a_deferred m then 0 else cur) + delta m)%Z in c :: step_balances c r
  end.

Definition member_ok (m : action) : Prop :=
  (a_mv m = Wrap -> can_be_wrapper (a_comb m) = true) /\ (a_mv m = Unwrap <-> a_comb m = UNWRAP).

Definition chain_wf (ms : list action) : Prop :=
  exists m0 rest, ms = m0 :: rest /\
    a_comb m0 = Initial /\ a_mv m0 = NoMove /\ a_deferred m0 = false /\
    Forall (fun m => a_comb m <> Initial) rest /\
    Forall member_ok ms /\
    Forall (fun z => (0 <= z)%Z) (step_balances 0 ms).

Lemma finish_chain_spec m inp :
  sat (fun rest => suffix rest inp /\ (forall t r, inp = t :: r -> tmatches (MP ",") t = true -> rest = r))
      (finish_chain m inp).
Proof.
  unfold finish_chain. destruct inp as [|t r].
  - destruct (last_is_block m); (split; [apply suffix_refl|discriminate]).
  - destruct (tmatches (MP ",") t) eqn:Et.
    + destruct (last_is_block m); (split; [apply suffix_cons, suffix_refl|]); intros t' r' [= <- <-] _; reflexivity.
    + destruct (last_is_block m); [|reflexivity]. split; [apply suffix_refl|]. intros t' r' [= <- <-] Ht. congruence.
Qed.

Lemma bump_spec count g c' :
  bump count g = Some c' ->
  Z.of_nat c' = ((if g_deferred g then 0 else Z.of_nat count) +
                 match g_mv g with Wrap => 1 | Unwrap => -1 | NoMove => 0 end)%Z.
Proof.
  unfold bump. destruct (g_deferred g), (g_mv g); cbn; intros H; try (inversion H; subst; lia).
  destruct count; [discriminate|]. inversion H; subst. lia.
Qed.

(* P is any further property of the members that `parse_stream` guarantees; fuel is needed only while an operator
   is pending. *)
Lemma build_rest_spec o (P : action -> Prop) :
  (forall g inp r, parse_stream o g inp = POk r -> P (mr_action r)) ->
  forall fuel count m next inp,
  (forall g, next = Some g -> group_coherent g) ->
  match build_rest o fuel count m next inp with
  | POk (ms, rest) =>
      exists ms', ms = m :: ms' /\
        Forall member_ok ms' /\ Forall (fun m => a_comb m <> Initial) ms' /\ Forall P ms' /\
        Forall (fun z => (0 <= z)%Z) (step_balances (Z.of_nat count) ms') /\
        suffix rest inp
  | PErr e => next = None \/ List.length inp < fuel -> is_internal e = false
  end.
Proof.
  intros HP. induction fuel as [|fuel IH]; intros count m [g|] inp Hg; cbn [build_rest].
  (* no operator pending (second and fourth goal): the chain ends here *)
  2,4: pose proof (finish_chain_spec m inp) as Sp; destruct (finish_chain m inp) as [r|e]; [|intros _; exact Sp].
  2,3: destruct Sp as [Hs _]; exists []; repeat split; auto; constructor.
  - destruct (bump count g); [intros [H|H]; [discriminate|lia]|intros _; reflexivity].
  - destruct (bump count g) as [c'|] eqn:Eb; [|intros _; reflexivity].
    pose proof (parse_stream_spec o g inp) as Sp.
    destruct (parse_stream o g inp) as [r|e] eqn:Ep; [|intros _; exact Sp].
    destruct Sp as (Hc & Hd & Hm & Hs & Hn & _).
    assert (Hg' : forall g', mr_next r = Some g' -> group_coherent g').
    { intros g' Hg'. destruct Hn as [(_ & _ & Hn & _)|Hn]; [congruence|]. rewrite Hg' in Hn. apply Hn. }
    specialize (IH c' (mr_action r) (mr_next r) (mr_rest r) Hg').
    destruct (build_rest o fuel c' (mr_action r) (mr_next r) (mr_rest r)) as [[ms1 rest1]|e].
    + destruct IH as (ms' & -> & Hok & Hni & HP' & Hbal & Hs'). exists (mr_action r :: ms').
      destruct (Hg g eq_refl) as (Hw & Hu & Hi). apply bump_spec in Eb.
      repeat split; auto.
      * constructor; [|exact Hok]. unfold member_ok. rewrite Hc, Hm. split; auto.
      * constructor; [|exact Hni]. rewrite Hc. exact Hi.
      * constructor; [eapply HP; eauto|exact HP'].
      * cbn [step_balances]. unfold delta. rewrite Hd, Hm, <- Eb. constructor; [lia|exact Hbal].
      * eapply suffix_trans; eauto.
    + intros [Hf|Hf]; [discriminate|]. apply IH.
      destruct (mr_next r); [right|left; reflexivity].
      destruct Hn as [(_ & _ & Hx & _)|Hn]; [discriminate|]. cbn in Hn. lia.
Qed.

Lemma initial_fixup_spec o m :
  a_ops m <> [] ->
  sat (fun mp => a_comb (fst mp) = a_comb m /\ a_deferred (fst mp) = a_deferred m /\ a_mv (fst mp) = a_mv m /\
                 (a_ops (fst mp) = a_ops m \/ exists v, a_ops (fst mp) = [v]))
      (initial_fixup o m).
Proof.
  unfold initial_fixup. destruct (a_ops m) as [|x ops] eqn:Eo; [congruence|]. intros _.
  destruct (let_split o x) as [[| |p n v]|]; try reflexivity.
  - destruct (is_nil x); [reflexivity|]. cbn. auto.
  - destruct (is_nil v); [reflexivity|]. cbn. eauto 6.
Qed.

(* The last clause is the progress that makes the fuel of `main_loop` sufficient. *)
Lemma build_spec o (P : action -> Prop) :
  (forall g inp r, parse_stream o g inp = POk r -> P (mr_action r)) ->
  forall inp,
  sat (fun br =>
         chain_wf (b_members (fst br)) /\
         (exists m0 ms, b_members (fst br) = m0 :: ms /\ List.length (a_ops m0) = 1 /\ Forall P ms) /\
         suffix (snd br) inp /\
         (inp <> [] -> peek_handler inp = None -> List.length (snd br) < List.length inp))
      (build o inp).
Proof.
  intros HP inp. unfold build.
  pose proof (parse_stream_spec o initial_group inp) as Sp.
  destruct (parse_stream o initial_group inp) as [r|e]; [|exact Sp].
  destruct Sp as (Hc & Hd & Hm & Hs & Hn & Hops & _). cbn in Hc, Hd, Hm.
  destruct (Hops eq_refl ltac:(discriminate)) as (x & Hx & _).
  pose proof (initial_fixup_spec o (mr_action r) ltac:(rewrite Hx; discriminate)) as Sp.
  destruct (initial_fixup o (mr_action r)) as [[m pat]|e]; [|exact Sp].
  destruct Sp as (Hc' & Hd' & Hm' & Hops'). cbn [fst] in *.
  assert (Hg : forall g, mr_next r = Some g -> group_coherent g).
  { intros g Hg. destruct Hn as [(_ & _ & Hn & _)|Hn]; [congruence|]. rewrite Hg in Hn. apply Hn. }
  pose proof (build_rest_spec o P HP (S (List.length (mr_rest r))) 0 m (mr_next r) (mr_rest r) Hg) as Sp.
  destruct (build_rest o _ 0 m (mr_next r) (mr_rest r)) as [[ms rest1]|e] eqn:Er; [|apply Sp; right; lia].
  destruct Sp as (ms' & -> & Hok & Hni & HP' & Hbal & Hs'). cbn [sat fst snd b_members].
  split; [|split; [|split]].
  - exists m, ms'. repeat split; try congruence; auto.
    + constructor; [|exact Hok]. unfold member_ok. rewrite Hm', Hm, Hc', Hc. split; [discriminate|].
      split; discriminate.
    + cbn [step_balances]. unfold delta. rewrite Hd', Hd, Hm', Hm. cbn. constructor; [lia|exact Hbal].
  - exists m, ms'. repeat split; auto. destruct Hops' as [->|[v ->]]; [now rewrite Hx|reflexivity].
  - eapply suffix_trans; eauto.
  - (* progress: a pending operator has taken two tokens or more; without one the chain ends at the end of the
       input, at a comma, which `finish_chain` takes, or at a handler, which does not stand at the start of inp *)
    intros Hne Hph.
    pose proof (suffix_length _ _ Hs) as L1. pose proof (suffix_length _ _ Hs') as L2.
    destruct Hn as [(Hx' & _)|Hn]; [discriminate|].
    destruct (mr_next r) as [g|] eqn:En.
    + cbn in Hn. lia.
    + cbn in Hn. cbn [build_rest] in Er.
      pose proof (finish_chain_spec m (mr_rest r)) as Sp.
      destruct (finish_chain m (mr_rest r)) as [r1|]; [|discriminate].
      injection Er as _ <-. destruct Sp as [_ Hcomma].
      destruct Hn as [Hn|[(t & r' & Hn & Ht)|Hn]].
      * rewrite Hn in *. cbn in L2. destruct inp; [congruence|]. cbn. lia.
      * rewrite (Hcomma t r' Hn Ht) in *. rewrite Hn in L1. cbn in L1. lia.
      * destruct (Nat.eq_dec (List.length (mr_rest r)) (List.length inp)) as [Heq|Hneq]; [|lia].
        apply suffix_same_length in Hs; [|exact Heq]. rewrite Hs in Hn. contradiction.
Qed.

(* Every chain of an accepted branch: non-empty, starts with the `Initial` action (Instant, no move), no other
   member is `Initial`, `Wrap` only on `can_be_wrapper` combinators, `Unwrap` exactly on `UNWRAP`, and in every
   step the running Wrap/Unwrap balance is >= 0 at every prefix (the clause the name comes from). *)
Theorem wrapper_balance_invariant o inp b rest :
  build o inp = POk (b, rest) -> chain_wf (b_members b).
Proof. intros H. exact (proj1 (sat_ok _ _ _ (build_spec o (fun _ => True) (fun _ _ _ _ => Logic.I) inp) H)). Qed.

Lemma main_loop_nil o fuel hseen : main_loop o fuel hseen [] = POk ([], None).
Proof. destruct fuel; reflexivity. Qed.

Lemma main_loop_branch o fuel hseen inp b rest :
  inp <> [] -> peek_handler inp = None -> build o inp = POk (b, rest) ->
  main_loop o (S fuel) hseen inp =
  match main_loop o fuel hseen rest with PErr e => PErr e | POk (bs, h) => POk (b :: bs, h) end.
Proof. intros Hne Hp Hb. destruct inp; [congruence|]. cbn [main_loop]. now rewrite Hp, Hb. Qed.

Lemma parse_handler_spec o hk inp :
  sat (fun hr => List.length (snd hr) + 3 <= List.length inp) (parse_handler o hk inp).
Proof.
  unfold parse_handler. destruct (erase 3 inp) as [body|] eqn:E; [|reflexivity].
  apply erase_spec in E as [_ Hl].
  destruct (expr_prefix o body) as [[n|]|]; try reflexivity. cbn [sat snd].
  pose proof (skipn_length n body) as Hs.
  destruct (skipn n body) as [|t r]; [cbn [List.length]; lia|].
  cbn [List.length] in Hs. destruct (tmatches (MP ",") t); cbn [List.length]; lia.
Qed.

(* Q is any property of the branches that `build` guarantees *)
Lemma main_loop_spec o (Q : branch -> Prop) :
  (forall inp b rest, build o inp = POk (b, rest) -> Q b) ->
  forall fuel hseen inp,
  match main_loop o fuel hseen inp with
  | POk (bs, h) => Forall Q bs /\ (hseen = true -> h = None)
  | PErr e => List.length inp <= fuel -> is_internal e = false
  end.
Proof.
  intros HQ. induction fuel as [|fuel IH]; intros hseen inp.
  all: destruct inp as [|t inp']; [split; [constructor|reflexivity]|]; cbn [main_loop].
  - cbn. lia.
  - destruct (peek_handler (t :: inp')) as [hk|] eqn:Eh.
    + destruct hseen; [intros _; reflexivity|].
      pose proof (parse_handler_spec o hk (t :: inp')) as Sp.
      destruct (parse_handler o hk (t :: inp')) as [[h0 rest]|e]; [|intros _; exact Sp]. cbn in Sp.
      specialize (IH true rest). destruct (main_loop o fuel true rest) as [[bs h]|e].
      * split; [apply IH|discriminate].
      * intros Hf. apply IH. cbn [List.length] in Hf. lia.
    + pose proof (build_spec o (fun _ => True) (fun _ _ _ _ => Logic.I) (t :: inp')) as Sp.
      destruct (build o (t :: inp')) as [[b rest]|e] eqn:Eb; [|intros _; exact Sp].
      destruct Sp as (_ & _ & _ & Hp). specialize (Hp ltac:(discriminate) Eh). cbn in Hp.
      specialize (IH hseen rest). destruct (main_loop o fuel hseen rest) as [[bs h]|e].
      * split; [constructor; [eapply HQ; eauto|apply IH]|apply IH].
      * intros Hf. apply IH. cbn [List.length] in Hf. lia.
Qed.

Lemma opt_payload_spec o k st content : sat (fun _ => True) (opt_payload o k st content).
Proof.
  unfold opt_payload. destruct k.
  - destruct (path_prefix o content) as [[n|]|]; cbn; auto.
  - exact Logic.I.
  - destruct (lit_bool content) as [[? ?]|]; cbn; auto.
  - destruct (lit_bool content) as [[? ?]|]; cbn; auto.
Qed.

Lemma opt_loop_spec o : forall inp st, sat (fun _ => True) (opt_loop o st inp).
Proof.
  induction inp as [|t rest _ IH] using list_ind_tl; intros st; [exact Logic.I|]. cbn [opt_loop].
  destruct (which_opt t) as [k|]; [|exact Logic.I].
  destruct rest as [|[| | |[] content] rest']; try reflexivity.
  destruct (opt_is_set k st); [reflexivity|].
  apply (sat_bind _ _ _ _ (opt_payload_spec o k st content)). intros st' _. apply IH.
Qed.

(* Whole macro inputs.  C15, first half, is the reading on `PErr`: for every oracle and every token stream the
   parser terminates (it is a total function), never runs out of its fuel and never reaches one of the
   `expect(".. This's a bug ..")` sites. *)
Theorem parse_spec o (Q : branch -> Prop) :
  (forall inp b rest, build o inp = POk (b, rest) -> Q b) ->
  forall ts, sat (fun i => i_branches i <> [] /\ Forall Q (i_branches i)) (parse o ts).
Proof.
  intros HQ ts. unfold parse, parse_options.
  apply (sat_bind _ _ _ _ (opt_loop_spec o ts empty_opts)). intros [st rest] _.
  pose proof (main_loop_spec o Q HQ (S (List.length rest)) false rest) as Sp.
  destruct (main_loop o (S (List.length rest)) false rest) as [[bs h]|e]; [|apply Sp; lia].
  destruct bs as [|b bs]; [reflexivity|]. cbn [is_nil].
  destruct (o_unexpected st); [reflexivity|]. split; [discriminate|apply Sp].
Qed.

(* what the generator may rely on *)
Theorem parse_ok_chains o ts i :
  parse o ts = POk i ->
  i_branches i <> [] /\ Forall (fun b => chain_wf (b_members b)) (i_branches i).
Proof. exact (sat_ok _ _ _ (parse_spec o _ (wrapper_balance_invariant o) ts)). Qed.

Theorem parse_never_internal o ts e : parse o ts = PErr e -> is_internal e = false.
Proof. exact (sat_err _ _ _ (parse_spec o (fun _ => True) (fun _ _ _ _ => Logic.I) ts)). Qed.

Corollary parse_total o ts :
  (exists i, parse o ts = POk i) \/ (exists e, parse o ts = PErr e /\ e <> EOutOfFuel /\ forall n, e <> EBug n).
Proof.
  destruct (parse o ts) as [i|e] eqn:E; [eauto|]. right. exists e.
  apply parse_never_internal in E. repeat split; auto; intros; intro; subst; discriminate.
Qed.

Print Assumptions wrapper_balance_invariant.
Print Assumptions parse_ok_chains.
Print Assumptions parse_never_internal.

(** * D. Structurally invalid input is rejected (second half of C15) *)

Definition rejected {A} (r : presult A) : Prop := exists e, r = PErr e /\ is_internal e = false.

Theorem empty_stream_rejected o : parse o [] = PErr ENoBranch.
Proof. reflexivity. Qed.

Theorem no_branch_rejected o ts i : parse o ts = POk i -> i_branches i <> [].
Proof. intros H. now apply parse_ok_chains in H. Qed.

Lemma parse_until_tokens_head o k a t rest u :
  is_tilde t = false -> parse_until o k a (t :: rest) = POk u ->
  u_tokens u = [] \/ exists l, u_tokens u = t :: l.
Proof.
  intros Ht H. apply parse_until_tokens in H. cbn [pu_loop] in H. rewrite Ht in H.
  destruct (try_accept o k a [] (t :: rest)); [left; exact H| |contradiction].
  pose proof (pu_loop_spec o k a rest [t]) as Sp. cbn [app] in H.
  destruct (pu_loop o k a [t] rest) as [acc|acc ? ? ?|]; [| |contradiction]; right.
  - destruct Sp as (l & ->). exists l. exact H.
  - destruct Sp as (_ & (l & ->) & _). exists l. exact H.
Qed.

(* The one thing `syn` contributes to the rejection of an empty branch: neither the empty token list nor a list
   that starts with a comma is an expression. *)
Definition no_comma_expr (o : oracle) : Prop :=
  valid_expr o [] <> Ans true /\
  forall t ts, tmatches (MP ",") t = true -> valid_expr o (t :: ts) <> Ans true.

Lemma comma_not_tilde t : tmatches (MP ",") t = true -> is_tilde t = false.
Proof.
  unfold is_tilde. destruct t; cbn [tmatches]; try reflexivity. intros H. apply String.eqb_eq in H. subst. reflexivity.
Qed.

Lemma comma_not_handler t rest : tmatches (MP ",") t = true -> peek_handler (t :: rest) = None.
Proof. destruct t; cbn [tmatches]; try discriminate. reflexivity. Qed.

Lemma build_at_comma o t rest :
  no_comma_expr o -> tmatches (MP ",") t = true -> rejected (build o (t :: rest)).
Proof.
  intros [H0 H1] Ht. destruct (build o (t :: rest)) as [[b r]|e] eqn:E.
  - exfalso. unfold build in E.
    destruct (parse_stream o initial_group (t :: rest)) as [mr|] eqn:Ep; [|discriminate].
    clear E. unfold parse_stream in Ep. cbn [g_mv initial_group g_comb arity ar_count ar_allow_empty ar_kind] in Ep.
    unfold parse_n_or_empty in Ep. rewrite parse_n_S in Ep.
    destruct (parse_until o KExpr false (t :: rest)) as [u|] eqn:Eu; [|discriminate].
    destruct (sat_ok _ _ _ (parse_until_spec o KExpr false (t :: rest)) Eu) as (_ & Hv & _).
    apply parse_until_tokens_head in Eu; [|now apply comma_not_tilde].
    cbn in Hv. destruct Eu as [Hu|(l & Hu)]; rewrite Hu in Hv; [contradiction|].
    eapply H1; eauto.
  - exists e. split; [reflexivity|]. exact (sat_err _ _ _ (build_spec o (fun _ => True) (fun _ _ _ _ => Logic.I) _) E).
Qed.

(* an empty branch - the loop standing at a `,`: leading comma, `a,,b`, `a, ,` .. *)
Theorem empty_branch_rejected o fuel hseen t rest :
  no_comma_expr o -> tmatches (MP ",") t = true -> rejected (main_loop o (S fuel) hseen (t :: rest)).
Proof.
  intros Ho Ht. cbn [main_loop]. rewrite (comma_not_handler t rest Ht).
  destruct (build_at_comma o t rest Ho Ht) as (e & -> & He). exists e. auto.
Qed.

Corollary leading_comma_rejected o t rest :
  no_comma_expr o -> tmatches (MP ",") t = true -> rejected (parse o (t :: rest)).
Proof.
  intros Ho Ht. unfold parse.
  assert (Hopt : parse_options o (t :: rest) = POk (empty_opts, t :: rest)).
  { destruct t; cbn [tmatches] in Ht; try discriminate. reflexivity. }
  rewrite Hopt. destruct (empty_branch_rejected o (List.length (t :: rest)) false t rest Ho Ht) as (e & -> & He).
  exists e. auto.
Qed.

(* `a,,b`: whenever a branch ends in front of a second comma, the whole input is rejected *)
Corollary double_comma_rejected o fuel hseen inp b t rest :
  no_comma_expr o -> inp <> [] -> peek_handler inp = None ->
  build o inp = POk (b, t :: rest) -> tmatches (MP ",") t = true ->
  rejected (main_loop o (S (S fuel)) hseen inp).
Proof.
  intros Ho Hne Hph Hb Ht. rewrite (main_loop_branch o (S fuel) hseen inp b (t :: rest) Hne Hph Hb).
  destruct (empty_branch_rejected o fuel hseen t rest Ho Ht) as (e & -> & He). exists e. auto.
Qed.

(* `count` is the number of wrappers opened and not yet closed in the current step (`build_rest_spec`);
   an `<<<` that arrives when it is 0, or that is itself deferred (first action of a new step), is rejected -
   this includes the cross-step case `a |> >>> |> f ~|> g <<< |> h`, where the `~` has reset the count. *)
Theorem unexpected_unwrap_rejected o fuel count m g inp :
  g_mv g = Unwrap -> g_deferred g = true \/ count = 0 ->
  build_rest o fuel count m (Some g) inp = PErr EUnexpectedUnwrap.
Proof.
  intros Hm Hc. assert (Hb : bump count g = None).
  { unfold bump. rewrite Hm. destruct Hc as [-> | ->]; [reflexivity|]. destruct (g_deferred g); reflexivity. }
  destruct fuel; cbn [build_rest]; now rewrite Hb.
Qed.

(* a deferred action resets the count: after `~op` only wrappers opened by `~op` itself or later count *)
Theorem deferred_resets_balance count g :
  g_deferred g = true -> bump count g = bump 0 g.
Proof. intros H. unfold bump. now rewrite H. Qed.

(* read contrapositively: a chain whose running per-step balance goes negative at some member is not accepted *)
Theorem negative_balance_rejected o inp b rest :
  build o inp = POk (b, rest) -> Forall (fun z => (0 <= z)%Z) (step_balances 0 (b_members b)).
Proof. intros H. apply wrapper_balance_invariant in H as (m0 & r & _ & _ & _ & _ & _ & _ & H). exact H. Qed.

(* `>>>` behind an operator that cannot be a wrapper, and `<<< >>>` *)
Theorem wrap_misuse_rejected o k a inp acc def d inp' c forked :
  pu_loop o k a [] inp = PUStop acc def d inp' ->          (* the unit ends at determiner d .. *)
  d_comb d = Some c -> erase (d_len d) inp' = Some forked ->
  peek_seq wrapper_pat forked = true ->                     (* .. which is followed by `>>>` *)
  (c = UNWRAP -> parse_until o k a inp = PErr EWrapAndUnwrap) /\
  (c <> UNWRAP -> can_be_wrapper c = false -> parse_until o k a inp = PErr ECantBeWrapper).
Proof.
  intros Hl Hc He Hw. unfold parse_until. rewrite Hl, Hc, He, Hw. cbn [andb]. split.
  - intros ->. reflexivity.
  - intros Hn Hcw. destruct (comb_is_unwrap c) eqn:E.
    + apply comb_is_unwrap_true in E. contradiction.
    + rewrite Hcw. reflexivity.
Qed.

(* the eleven operators after which `>>>` is rejected, and `Initial` *)
Theorem non_wrappers :
  forall c, In c [Then; Or; Dot; Chain; Flatten; Collect; Enumerate; Fold; TryFold; Unzip; Zip; Initial] ->
            can_be_wrapper c = false /\ c <> UNWRAP.
Proof. intros c H. cbn in H. repeat (destruct H as [<-|H]; [split; [reflexivity|discriminate]|]). contradiction. Qed.

(* `let <pattern> = ..` with a pattern that is not an identifier *)
Theorem incorrect_let_rejected o inp r e ops :
  parse_stream o initial_group inp = POk r -> a_ops (mr_action r) = e :: ops ->
  let_split o e = Ans LetBadPat -> build o inp = PErr EIncorrectLet.
Proof. intros Hp Ho Hl. unfold build, initial_fixup. rewrite Hp, Ho, Hl. reflexivity. Qed.

(* a duplicated option at the place where it is noticed; about option sequences: `duplicate_option_rejected` *)
Theorem option_twice_rejected o k st t content rest :
  which_opt t = Some k -> opt_is_set k st = true ->
  opt_loop o st (t :: TG DParen content :: rest) = PErr (EOptionTwice k).
Proof. intros Ht Hs. cbn [opt_loop]. rewrite Ht, Hs. reflexivity. Qed.

Theorem second_handler_rejected o fuel inp hk :
  peek_handler inp = Some hk -> main_loop o (S fuel) true inp = PErr EMultipleHandlers.
Proof.
  intros H. destruct inp as [|t r]; [discriminate|]. cbn [main_loop]. rewrite H. reflexivity.
Qed.

(* once a handler has been seen the flag stays set: nothing after it can be accepted as a handler *)
Theorem handler_seen_none o : forall fuel inp bs h, main_loop o fuel true inp = POk (bs, h) -> h = None.
Proof.
  intros fuel inp bs h H. pose proof (main_loop_spec o (fun _ => True) (fun _ _ _ _ => Logic.I) fuel true inp) as Sp.
  rewrite H in Sp. now apply Sp.
Qed.

Print Assumptions empty_branch_rejected.
Print Assumptions unexpected_unwrap_rejected.
Print Assumptions wrap_misuse_rejected.
Print Assumptions incorrect_let_rejected.
Print Assumptions option_twice_rejected.
Print Assumptions second_handler_rejected.

(** * E. C14: units, operators, chains - the round trip *)

Definition strip_tilde (follow : list tt) : bool * list tt :=
  match follow with
  | t :: r => if is_tilde t then (true, r) else (false, follow)
  | [] => (false, [])
  end.

(* How the tokens `follow` that stand after a complete operand are resolved: end of input, or (after an optional
   `~`) the first matching determiner of the table and the group / remaining input it yields. *)
Definition resolves (follow : list tt) (next : option group) (rest : list tt) : Prop :=
  match follow with
  | [] => next = None /\ rest = []
  | _ :: _ => exists i d, find_first (snd (strip_tilde follow)) = Some (i, d) /\
                          after_stop (fst (strip_tilde follow)) d (snd (strip_tilde follow)) = POk (next, rest)
  end.

(* An operand that is ATOMIC FOR THE ORACLE in front of `follow`:
   - it holds no top-level `~`;
   - the oracle accepts it as a whole;
   - at every proper prefix (the empty one included) at which some determiner matches the upcoming tokens, the
     oracle says "not a complete operand" - operator look-alikes inside an incomplete operand. *)
Definition atomic (o : oracle) (k : pkind) (e follow : list tt) : Prop :=
  forallb (fun t => negb (is_tilde t)) e = true /\
  check_valid o k e = Ans true /\
  (forall e1 e2, e = e1 ++ e2 -> e2 <> [] -> forall d, In d determiners -> d_check d (e2 ++ follow) = true ->
                 check_valid o k e1 = Ans false).

Lemma pu_loop_scan o k e follow :
  atomic o k e follow ->
  forall e2 e1, e = e1 ++ e2 ->
    pu_loop o k false e1 (e2 ++ follow) = pu_loop o k false e follow.
Proof.
  intros (Hnt & Hv & Hint).
  induction e2 as [|t e2 IH]; intros e1 He.
  - rewrite app_nil_r in He. subst e1. reflexivity.
  - cbn [app pu_loop].
    assert (Ht : is_tilde t = false).
    { rewrite forallb_forall in Hnt. specialize (Hnt t). rewrite He in Hnt.
      apply negb_true_iff. apply Hnt. apply in_or_app. right. left. reflexivity. }
    rewrite Ht, try_accept_eq, andb_false_r.
    destruct (find_first (t :: e2 ++ follow)) as [[i d]|] eqn:Ef.
    + apply find_first_spec in Ef as (Hn & Hc & _).
      rewrite (Hint e1 (t :: e2) He ltac:(discriminate) d (nth_error_In _ _ Hn) Hc).
      apply IH. rewrite He. now rewrite <- app_assoc.
    + apply IH. rewrite He. now rewrite <- app_assoc.
Qed.

Lemma pu_loop_at_end o k e follow :
  atomic o k e follow ->
  pu_loop o k false e follow =
  match follow with
  | [] => PUEnd e
  | _ :: _ => match find_first (snd (strip_tilde follow)) with
              | Some (_, d) => PUStop e (fst (strip_tilde follow)) d (snd (strip_tilde follow))
              | None => pu_loop o k false e follow
              end
  end.
Proof.
  intros (Hnt & Hv & Hint). destruct follow as [|t r]; [reflexivity|].
  unfold strip_tilde in *. cbn [pu_loop]. rewrite !try_accept_eq, andb_false_r, Hv.
  destruct (is_tilde t); cbn [fst snd].
  - destruct (find_first r) as [[i d]|]; reflexivity.
  - destruct (find_first (t :: r)) as [[i d]|]; reflexivity.
Qed.

(* C14 at the level of one unit: an atomic operand is cut exactly at its end, whatever look-alikes it contains;
   the `~` (deferred flag) and the operator found there are exactly those that stand there, and the operator is
   the first matching row of the table, i.e. the longest documented one (part A). *)
Theorem unit_roundtrip o k e follow next rest :
  atomic o k e follow -> resolves follow next rest ->
  parse_until o k false (e ++ follow) = POk (mkUnit e next rest).
Proof.
  intros Ha Hres. rewrite parse_until_alt.
  rewrite (pu_loop_scan o k e follow Ha e [] eq_refl).
  rewrite (pu_loop_at_end o k e follow Ha).
  destruct Ha as (_ & Hv & _). unfold resolves in Hres.
  destruct follow as [|t r].
  - destruct Hres as [-> ->]. unfold finish_unit. now rewrite Hv.
  - destruct Hres as (i & d & Hf & Has). rewrite Hf, Has. unfold finish_unit. now rewrite Hv.
Qed.

(* a unit that may be empty (after `>>>`, after `^^>`, `|n>`, `<<<`, `=>[]`, `<->`): the next operator is taken at once *)
Theorem empty_unit o follow next rest :
  resolves follow next rest -> parse_until o KEmpty true follow = POk (mkUnit [] next rest).
Proof.
  intros Hres. rewrite parse_until_alt. unfold resolves in Hres.
  destruct follow as [|t r].
  - destruct Hres as [-> ->]. reflexivity.
  - destruct Hres as (i & d & Hf & Has). cbn [pu_loop]. unfold strip_tilde in *.
    destruct (is_tilde t); cbn [fst snd] in *; rewrite try_accept_eq, Hf; cbn [is_nil andb]; rewrite Has; reflexivity.
Qed.

Print Assumptions unit_roundtrip.
Print Assumptions empty_unit.

Definition wrap3 (j : bool) : list tt := [PJ ">"; PJ ">"; TP ">" j].

Lemma erase_app_len (l : list tt) : forall Y, erase (List.length l) (l ++ Y) = Some Y.
Proof. induction l as [|x l IH]; intros Y; cbn; auto. Qed.

Lemma erase_add a : forall b ts,
  erase (a + b) ts = match erase a ts with Some r => erase b r | None => None end.
Proof.
  induction a as [|a IH]; intros b ts; cbn; [reflexivity|].
  destruct ts as [|t ts]; [reflexivity|]. apply IH.
Qed.

Definition mv_of (c : comb) (wrap : bool) : mv :=
  if wrap then Wrap else if comb_is_unwrap c then Unwrap else NoMove.

(* `~` and `>>>` attach to exactly the operator they precede / follow *)
Theorem resolves_op s c X (def wrap : bool) (jw : bool) :
  documented s c ->
  extends_op c ((if wrap then wrap3 jw else []) ++ X) = false ->
  (wrap = false -> peek_seq wrapper_pat X = false) ->
  (wrap = true -> can_be_wrapper c = true) ->
  resolves ((if def then [TILDE] else []) ++ s ++ (if wrap then wrap3 jw else []) ++ X)
           (Some (mkGroup c def (mv_of c wrap))) X.
Proof.
  intros Hdoc Hext Hnw Hcw.
  destruct (documented_resolves_at s c _ Hdoc Hext) as (i & d & Hf & Hc & Hl & Ht & Hne).
  set (W := if wrap then wrap3 jw else []) in *.
  assert (Hstrip : strip_tilde ((if def then [TILDE] else []) ++ s ++ W ++ X) = (def, s ++ W ++ X)).
  { destruct def; [reflexivity|]. destruct s as [|t s']; [congruence|]. cbn in *. now rewrite Ht. }
  assert (Hcons : exists t r, (if def then [TILDE] else []) ++ s ++ W ++ X = t :: r).
  { destruct def; [eexists; eexists; reflexivity|]. destruct s as [|t s']; [congruence|]. eexists; eexists; reflexivity. }
  destruct Hcons as (t0 & r0 & Hcons). unfold resolves. rewrite Hcons, <- Hcons, Hstrip. cbn [fst snd].
  exists i, d. split; [exact Hf|].
  unfold after_stop. rewrite Hc, Hl, erase_app_len.
  assert (Hu : can_be_wrapper c = true -> comb_is_unwrap c = false) by (destruct c; cbn; congruence).
  destruct wrap; subst W.
  - assert (Hp : peek_seq wrapper_pat (wrap3 jw ++ X) = true) by reflexivity.
    rewrite Hp. cbn [andb]. rewrite (Hu (Hcw eq_refl)), (Hcw eq_refl). cbn [negb].
    assert (E3 : exists r3, erase 3 (s ++ wrap3 jw ++ X) = Some r3 /\ erase (List.length s) r3 = Some X).
    { pose proof (erase_add 3 (List.length s) (s ++ wrap3 jw ++ X)) as Ha.
      replace (3 + List.length s) with (List.length (s ++ wrap3 jw)) in Ha by (rewrite app_length; cbn; lia).
      rewrite (app_assoc s (wrap3 jw) X) in Ha at 1. rewrite erase_app_len in Ha.
      destruct (erase 3 (s ++ wrap3 jw ++ X)) as [r3|]; [|discriminate]. exists r3. auto. }
    destruct E3 as (r3 & -> & ->). unfold mv_of. reflexivity.
  - cbn [app]. rewrite (Hnw eq_refl). cbn [andb]. rewrite erase_app_len. reflexivity.
Qed.

Lemma resolves_comma t tail : tmatches (MP ",") t = true -> resolves (t :: tail) None (t :: tail).
Proof.
  intros Ht. unfold resolves, strip_tilde. rewrite (comma_not_tilde t Ht). cbn [fst snd].
  destruct t; cbn [tmatches] in Ht; try discriminate. apply String.eqb_eq in Ht. subst c.
  exists 0. eexists. split; reflexivity.   (* row 0 of `determiners` is the comma *)
Qed.

Lemma resolves_handler sep hk : peek_handler sep = Some hk -> resolves sep None sep.
Proof.
  intros Hp. destruct sep as [|t r]; [discriminate|].
  destruct t as [c j|s|l|dl g]; try discriminate.
  unfold resolves, strip_tilde. cbn [is_tilde tmatches fst snd].
  assert (Hh : existsb (fun p => peek_seq p (TI s :: r)) handler_pats = true) by (apply handler_check_peek; congruence).
  exists 24. eexists. split.   (* row 24, the last of `determiners`, holds the three handler keywords *)
  - unfold find_first. cbn [determiners find_from d_check cdet d_pats existsb peek_seq tmatches andb orb].
    rewrite Hh. reflexivity.
  - reflexivity.
Qed.

Definition COMMA : tt := TP "," false.

Fixpoint join_ops (ops : list operand) : list tt :=
  match ops with
  | [] => []
  | e :: r => match r with [] => e | _ :: _ => e ++ COMMA :: join_ops r end
  end.

(* every operand atomic in front of what follows IT: a comma and the remaining operands, resp. F after the last one *)
Fixpoint operands_ok (o : oracle) (k : pkind) (ops : list operand) (F : list tt) : Prop :=
  match ops with
  | [] => True
  | e :: r => match r with
              | [] => atomic o k e F
              | _ :: _ => atomic o k e (COMMA :: join_ops r ++ F) /\ operands_ok o k r F
              end
  end.

Lemma parse_n_roundtrip o k F next rest : forall ops,
  ops <> [] -> operands_ok o k ops F -> resolves F next rest ->
  parse_n o (List.length ops) k (join_ops ops ++ F) = POk (ops, next, rest).
Proof.
  induction ops as [|e r IH]; intros Hne Hok Hres; [congruence|].
  cbn [List.length]. rewrite parse_n_S. destruct r as [|e' r'].
  - cbn in Hok |- *. rewrite (unit_roundtrip o k e F next rest Hok Hres). reflexivity.
  - destruct Hok as [Ha Hok].
    change (join_ops (e :: e' :: r')) with (e ++ COMMA :: join_ops (e' :: r')) in *.
    rewrite <- app_assoc.
    change ((COMMA :: join_ops (e' :: r')) ++ F) with (COMMA :: join_ops (e' :: r') ++ F).
    rewrite (unit_roundtrip o k e _ None (COMMA :: join_ops (e' :: r') ++ F) Ha (resolves_comma COMMA _ eq_refl)).
    cbn [u_rest u_next u_tokens].
    change (tmatches (MP ",") COMMA) with true. cbn iota.
    rewrite (IH ltac:(discriminate) Hok Hres). reflexivity.
Qed.

Lemma try_accept_kempty o a acc inp :
  acc <> [] -> try_accept o KEmpty a acc inp = Continue.
Proof.
  intros Hne. rewrite try_accept_eq. destruct (find_first inp) as [[i d]|]; [|reflexivity].
  destruct acc; [congruence|reflexivity].
Qed.

Lemma pu_loop_kempty o a : forall inp acc,
  acc <> [] ->
  (exists acc', pu_loop o KEmpty a acc inp = PUEnd acc' /\ acc' <> []) \/
  (exists e, pu_loop o KEmpty a acc inp = PUErr e).
Proof.
  induction inp as [|t rest IH IH'] using list_ind_tl; intros acc Hne; [left; exists acc; auto|].
  cbn [pu_loop]. rewrite !(try_accept_kempty o a acc) by exact Hne.
  destruct (is_tilde t); [|apply IH; now destruct acc].
  destruct rest as [|x rest']; [right; eauto|]. apply IH'. now destruct acc.
Qed.

(* a type operand after `=>[]` / `<->`: the "is it empty?" attempt fails and the real parse takes over *)
Lemma empty_attempt_fails o t rest :
  is_tilde t = false -> (forall d, In d determiners -> d_check d (t :: rest) = false) ->
  exists e, parse_until o KEmpty true (t :: rest) = PErr e.
Proof.
  intros Ht Hnd. rewrite parse_until_alt. cbn [pu_loop]. rewrite Ht. unfold try_accept.
  rewrite (proj2 (find_first_none (t :: rest)) Hnd). cbn [app].
  destruct (pu_loop_kempty o true rest [t] ltac:(discriminate)) as [(acc' & -> & Hne)|(e & ->)]; [|eauto].
  unfold finish_unit. cbn. destruct acc'; [congruence|]. cbn. eauto.
Qed.

Definition is_wrap (m : action) : bool := match a_mv m with Wrap => true | _ => false end.

Definition operand_toks (m : action) : list tt :=
  if is_wrap m then [] else join_ops (a_ops m).

(* what a member must look like so that its operands, followed by F, parse back to it *)
Definition member_rt (o : oracle) (m : action) (F : list tt) : Prop :=
  if is_wrap m then can_be_wrapper (a_comb m) = true /\ a_ops m = [wrapper_placeholder]
  else
    let a := arity (a_comb m) in
    match a_ops m with
    | [] => ar_allow_empty a = true            (* `^^>` `|n>` `<<<`, and `=>[]` / `<->` without types *)
    | e0 :: _ =>
        List.length (a_ops m) = ar_count a /\ operands_ok o (ar_kind a) (a_ops m) F /\
        (ar_allow_empty a = true ->
           exists t e', e0 = t :: e' /\ is_tilde t = false /\
                        forall d, In d determiners -> d_check d (join_ops (a_ops m) ++ F) = false)
    end.

Definition group_of (m : action) : group := mkGroup (a_comb m) (a_deferred m) (a_mv m).

Lemma join_ops_head (e0 : operand) (r : list operand) F t e' :
  e0 = t :: e' -> exists tl, join_ops (e0 :: r) ++ F = t :: tl.
Proof. intros ->. destruct r; cbn; eauto. Qed.

Lemma action_eta m : mkAction (a_comb m) (a_deferred m) (a_mv m) (a_ops m) = m.
Proof. destruct m; reflexivity. Qed.

Theorem parse_stream_roundtrip o m F next rest :
  member_rt o m F -> resolves F next rest ->
  parse_stream o (group_of m) (operand_toks m ++ F) = POk (mkMember m next rest).
Proof.
  intros Hm Hres. unfold member_rt, operand_toks in *. destruct (is_wrap m) eqn:Ew.
  - assert (Emv : a_mv m = Wrap) by (unfold is_wrap in Ew; destruct (a_mv m); (reflexivity || discriminate)).
    destruct Hm as [Hcw Hops]. rewrite parse_stream_wrap by exact Emv. cbn [group_of g_comb g_deferred app].
    rewrite Hcw, (empty_unit o F next rest Hres). cbn [u_next u_rest]. now rewrite <- Emv, <- Hops, action_eta.
  - assert (Emv : a_mv m <> Wrap) by (intros E; unfold is_wrap in Ew; rewrite E in Ew; discriminate).
    rewrite parse_stream_nowrap by exact Emv. cbn [group_of g_comb g_deferred g_mv]. cbn zeta in Hm.
    unfold parse_n_or_empty. destruct (a_ops m) as [|e0 r] eqn:Eo.
    + rewrite Hm. cbn [join_ops app]. rewrite (empty_unit o F next rest Hres). cbn [us_parsed us_next us_rest u_next u_rest].
      now rewrite <- Eo, action_eta.
    + destruct Hm as (Hl & Hok & Hemp). rewrite <- Hl.
      rewrite (parse_n_roundtrip o _ F next rest (e0 :: r) ltac:(discriminate) Hok Hres).
      destruct (ar_allow_empty (arity (a_comb m))).
      * destruct (Hemp eq_refl) as (t & e' & He0 & Ht & Hnd).
        destruct (join_ops_head e0 r F t e' He0) as (tl & Htl). rewrite Htl in Hnd. rewrite Htl.
        destruct (empty_attempt_fails o t tl Ht Hnd) as (e & ->). cbn [us_parsed us_next us_rest]. now rewrite <- Eo, action_eta.
      * cbn [us_parsed us_next us_rest]. now rewrite <- Eo, action_eta.
Qed.

Record item := mkItem {
  it_m : action;            (* the member *)
  it_sp : list tt;          (* the spelling used for its operator *)
  it_jw : bool              (* spacing of the last `>` of `>>>`, if wrapped *)
}.

Definition op_toks (it : item) : list tt :=
  (if a_deferred (it_m it) then [TILDE] else []) ++ it_sp it ++ (if is_wrap (it_m it) then wrap3 (it_jw it) else []).

(* a chain after its initial expression: operator, operands, operator, operands ... and the separator *)
Fixpoint render_items (its : list item) (sep : list tt) : list tt :=
  match its with
  | [] => sep
  | it :: r => op_toks it ++ operand_toks (it_m it) ++ render_items r sep
  end.

Definition item_ok (o : oracle) (it : item) (Fnext : list tt) : Prop :=
  let m := it_m it in
  let X := operand_toks m ++ Fnext in
  documented (it_sp it) (a_comb m) /\
  a_mv m = mv_of (a_comb m) (is_wrap m) /\
  extends_op (a_comb m) ((if is_wrap m then wrap3 (it_jw it) else []) ++ X) = false /\
  (is_wrap m = false -> peek_seq wrapper_pat X = false) /\
  member_rt o m Fnext.

Fixpoint items_ok (o : oracle) (its : list item) (sep : list tt) : Prop :=
  match its with
  | [] => True
  | it :: r => item_ok o it (render_items r sep) /\ items_ok o r sep
  end.

Definition sep_ok (sep : list tt) : Prop :=
  sep = [] \/ (exists t tail, sep = t :: tail /\ tmatches (MP ",") t = true) \/ (exists hk, peek_handler sep = Some hk).

Lemma resolves_sep sep : sep_ok sep -> resolves sep None sep.
Proof.
  intros [->|[(t & tail & -> & Ht)|(hk & Hh)]].
  - split; reflexivity. - now apply resolves_comma. - eapply resolves_handler; eauto.
Qed.

Definition next_of (its : list item) : option group :=
  match its with [] => None | it :: _ => Some (group_of (it_m it)) end.
Definition rest_of (its : list item) (sep : list tt) : list tt :=
  match its with [] => sep | it :: r => operand_toks (it_m it) ++ render_items r sep end.

Lemma resolves_items o its sep :
  items_ok o its sep -> sep_ok sep -> resolves (render_items its sep) (next_of its) (rest_of its sep).
Proof.
  destruct its as [|it r]; intros Hok Hsep; [now apply resolves_sep|].
  destruct Hok as [(Hdoc & Hmv & Hext & Hnw & Hm) _]. cbn [render_items next_of rest_of].
  unfold op_toks, group_of. rewrite Hmv. rewrite <- !app_assoc.
  apply resolves_op; auto.
  intros Hw. unfold member_rt in Hm. rewrite Hw in Hm. apply Hm.
Qed.

(* what the builder must return for the rendered chain: the members, or `Unexpected <<<` as soon as the running
   per-step balance would go negative, or the comma error of the separator *)
Fixpoint expected_rest (count : nat) (m : action) (its : list item) (sep : list tt) : presult (list action * list tt) :=
  match its with
  | [] => match finish_chain m sep with PErr e => PErr e | POk r => POk ([m], r) end
  | it :: r =>
      match bump count (group_of (it_m it)) with
      | None => PErr EUnexpectedUnwrap
      | Some c' =>
          match expected_rest c' (it_m it) r sep with
          | PErr e => PErr e
          | POk (ms, rest) => POk (m :: ms, rest)
          end
      end
  end.

Theorem build_rest_roundtrip o sep : sep_ok sep -> forall its fuel count m,
  items_ok o its sep -> List.length its <= fuel ->
  build_rest o fuel count m (next_of its) (rest_of its sep) = expected_rest count m its sep.
Proof.
  intros Hsep. induction its as [|it r IH]; intros fuel count m Hok Hf.
  - destruct fuel; reflexivity.
  - destruct fuel as [|fuel]; [cbn in Hf; lia|]. cbn [build_rest next_of rest_of expected_rest].
    destruct (bump count (group_of (it_m it))) as [c'|]; [|reflexivity]. destruct Hok as [Hit Hok].
    destruct Hit as (_ & _ & _ & _ & Hm).
    rewrite (parse_stream_roundtrip o (it_m it) (render_items r sep) (next_of r) (rest_of r sep) Hm
               (resolves_items o r sep Hok Hsep)).
    cbn [mr_action mr_next mr_rest]. rewrite IH; auto. cbn in Hf. lia.
Qed.

Lemma render_items_length o sep : forall its, items_ok o its sep -> List.length its <= List.length (render_items its sep).
Proof.
  induction its as [|it r IH]; intros Hok; [cbn; lia|]. destruct Hok as [(Hdoc & _) Hok].
  cbn [render_items List.length]. rewrite !app_length. specialize (IH Hok).
  assert (1 <= List.length (op_toks it)).
  { unfold op_toks. rewrite !app_length.
    destruct (documented_resolves_at _ _ [] Hdoc) as (_ & _ & _ & _ & _ & _ & Hne).
    - destruct (a_comb (it_m it)); reflexivity.
    - destruct (it_sp it); [congruence|]. cbn. lia. }
  lia.
Qed.

(* C14 for one branch.  e0: the tokens of the initial expression; its: the operators with their operands;
   sep: what stands behind the branch.  The result is exactly the chain that was rendered (or the error its shape
   demands): nothing is split, merged or reordered, every `~`, `>>>`, `<<<` sits on its own operator. *)
Theorem chain_roundtrip o e0 its sep :
  atomic o KExpr e0 (render_items its sep) -> items_ok o its sep -> sep_ok sep ->
  build o (e0 ++ render_items its sep) =
  match initial_fixup o (mkAction Initial false NoMove [e0]) with
  | PErr e => PErr e
  | POk (m0, pat) =>
      match expected_rest 0 m0 its sep with
      | PErr e => PErr e
      | POk (ms, rest) => POk (mkBranch pat ms, rest)
      end
  end.
Proof.
  intros Ha Hok Hsep. unfold build, parse_stream.
  cbn [g_mv initial_group g_comb g_deferred arity ar_count ar_allow_empty ar_kind].
  unfold parse_n_or_empty. rewrite parse_n_S.
  rewrite (unit_roundtrip o KExpr e0 _ (next_of its) (rest_of its sep) Ha (resolves_items o its sep Hok Hsep)).
  cbn [u_tokens u_next u_rest us_parsed us_next us_rest mr_action mr_next mr_rest].
  destruct (initial_fixup o (mkAction Initial false NoMove [e0])) as [[m0 pat]|]; [|reflexivity].
  rewrite (build_rest_roundtrip o sep Hsep its); auto.
  pose proof (render_items_length o sep its Hok) as Hl.
  destruct its as [|it r]; cbn [List.length rest_of render_items] in *; [lia|].
  destruct Hok as [_ Hok]. pose proof (render_items_length o sep r Hok). rewrite app_length. lia.
Qed.

Fixpoint bumps (count : nat) (gs : list group) : option nat :=
  match gs with
  | [] => Some count
  | g :: r => match bump count g with None => None | Some c => bumps c r end
  end.

Lemma last_cons {A} : forall (l : list A) x m, last (x :: l) m = last l x.
Proof.
  induction l as [|y l IH]; intros x m; [reflexivity|].
  change (last (x :: y :: l) m) with (last (y :: l) m). now rewrite !IH.
Qed.

(* the accepted case spelled out: balance never negative, separator acceptable *)
Lemma expected_rest_ok sep : forall its count m,
  bumps count (map (fun it => group_of (it_m it)) its) <> None ->
  expected_rest count m its sep =
  match finish_chain (last (map it_m its) m) sep with
  | PErr e => PErr e
  | POk r => POk (m :: map it_m its, r)
  end.
Proof.
  induction its as [|it r IH]; intros count m Hb; [reflexivity|].
  cbn [expected_rest map bumps] in *. destruct (bump count (group_of (it_m it))) as [c'|]; [|congruence].
  rewrite (IH c' (it_m it) Hb).
  rewrite last_cons.
  destruct (finish_chain _ sep); reflexivity.
Qed.

(* C15 seen from the tokens: when the running per-step balance goes negative (a `<<<` without an open `>>>` in
   its own step) what `chain_roundtrip` expects of the parser is `Unexpected <<<` *)
Lemma expected_rest_unbalanced sep : forall its count m,
  bumps count (map (fun it => group_of (it_m it)) its) = None ->
  expected_rest count m its sep = PErr EUnexpectedUnwrap.
Proof.
  induction its as [|it r IH]; intros count m Hb; [discriminate|].
  cbn [expected_rest map bumps] in *. destruct (bump count (group_of (it_m it))) as [c'|]; [|reflexivity].
  now rewrite (IH c' (it_m it) Hb).
Qed.

Print Assumptions parse_stream_roundtrip.
Print Assumptions chain_roundtrip.

(** * F. Options (C16) and handler position *)

Record oitem := mkOItem { oi_k : optk; oi_content : list tt }.

Definition render_opt (oi : oitem) : list tt := [TI (opt_kw (oi_k oi)); TG DParen (oi_content oi)].
Definition render_opts (l : list oitem) : list tt := flat_map render_opt l.

Definition payload_ok (o : oracle) (oi : oitem) : Prop :=
  match oi_k oi with
  | OFcp => path_prefix o (oi_content oi) = Ans (Some (List.length (oi_content oi)))
  | OJoiner => True
  | OTranspose | OLazy => oi_content oi = [TI "true"] \/ oi_content oi = [TI "false"]
  end.

Definition bool_of (content : list tt) : bool :=
  match lit_bool content with Some (b, _) => b | None => false end.

Definition set_opt (st : opts) (oi : oitem) : opts :=
  match oi_k oi with
  | OFcp => mkOpts (Some (oi_content oi)) (o_joiner st) (o_transpose st) (o_lazy st) (o_unexpected st || false)
  | OJoiner => mkOpts (o_fcp st) (Some (oi_content oi)) (o_transpose st) (o_lazy st) (o_unexpected st)
  | OTranspose => mkOpts (o_fcp st) (o_joiner st) (Some (bool_of (oi_content oi))) (o_lazy st) (o_unexpected st || false)
  | OLazy => mkOpts (o_fcp st) (o_joiner st) (o_transpose st) (Some (bool_of (oi_content oi))) (o_unexpected st || false)
  end.

Lemma opt_payload_ok o oi st :
  payload_ok o oi -> opt_payload o (oi_k oi) st (oi_content oi) = POk (set_opt st oi).
Proof.
  unfold payload_ok, opt_payload, set_opt. destruct (oi_k oi).
  - intros ->. rewrite firstn_all, skipn_all. reflexivity.
  - reflexivity.
  - intros [-> | ->]; reflexivity.
  - intros [-> | ->]; reflexivity.
Qed.

Definition optk_eqb (a b : optk) : bool :=
  match a, b with OFcp, OFcp | OJoiner, OJoiner | OTranspose, OTranspose | OLazy, OLazy => true | _, _ => false end.

Lemma opt_kw_eqb a b : String.eqb (opt_kw a) (opt_kw b) = optk_eqb a b.
Proof. destruct a, b; reflexivity. Qed.

Definition not_opt_start (rest : list tt) : Prop :=
  match rest with
  | [] => True
  | t :: _ => which_opt t = None
  end.

Definition keys (ois : list oitem) : list optk := map oi_k ois.

Fixpoint distinct (ks : list optk) : bool :=
  match ks with
  | [] => true
  | k :: r => negb (existsb (optk_eqb k) r) && distinct r
  end.

Definition opts_of (ois : list oitem) : opts := fold_left set_opt ois empty_opts.

Lemma optk_eqb_refl k : optk_eqb k k = true.
Proof. destruct k; reflexivity. Qed.
Lemma optk_eqb_sym a b : optk_eqb a b = optk_eqb b a.
Proof. destruct a, b; reflexivity. Qed.
Lemma optk_eqb_eq a b : optk_eqb a b = true -> a = b.
Proof. destruct a, b; try discriminate; reflexivity. Qed.

Lemma which_opt_kw k : which_opt (TI (opt_kw k)) = Some k.
Proof. destruct k; reflexivity. Qed.

Lemma which_opt_none t : which_opt t = None -> forall k, tmatches (MI (opt_kw k)) t = false.
Proof.
  unfold which_opt. intros H k.
  destruct (tmatches (MI (opt_kw OFcp)) t) eqn:E1; [discriminate|].
  destruct (tmatches (MI (opt_kw OJoiner)) t) eqn:E2; [discriminate|].
  destruct (tmatches (MI (opt_kw OTranspose)) t) eqn:E3; [discriminate|].
  destruct (tmatches (MI (opt_kw OLazy)) t) eqn:E4; [discriminate|].
  destruct k; assumption.
Qed.

Lemma opt_loop_render_opt o st oi X :
  opt_loop o st (render_opt oi ++ X) =
  if opt_is_set (oi_k oi) st then PErr (EOptionTwice (oi_k oi))
  else match opt_payload o (oi_k oi) st (oi_content oi) with
       | PErr e => PErr e
       | POk st' => opt_loop o st' X
       end.
Proof.
  unfold render_opt. change ([TI (opt_kw (oi_k oi)); TG DParen (oi_content oi)] ++ X)
    with (TI (opt_kw (oi_k oi)) :: TG DParen (oi_content oi) :: X).
  cbn [opt_loop]. rewrite which_opt_kw. reflexivity.
Qed.

Lemma opt_loop_stop o st rest : not_opt_start rest -> opt_loop o st rest = POk (st, rest).
Proof. destruct rest as [|t r]; [reflexivity|]. cbn [not_opt_start opt_loop]. now intros ->. Qed.

Lemma opt_is_set_set_opt k st oi :
  opt_is_set k (set_opt st oi) = optk_eqb k (oi_k oi) || opt_is_set k st.
Proof. destruct oi as [k' c]. destruct k, k'; reflexivity. Qed.

Lemma opt_is_set_fold k : forall ois st,
  opt_is_set k (fold_left set_opt ois st) = existsb (optk_eqb k) (keys ois) || opt_is_set k st.
Proof.
  induction ois as [|oi r IH]; intros st; [reflexivity|].
  change (keys (oi :: r)) with (oi_k oi :: keys r). cbn [fold_left existsb]. rewrite IH, opt_is_set_set_opt.
  now destruct (optk_eqb k (oi_k oi)), (existsb (optk_eqb k) (keys r)).
Qed.

Lemma opt_is_set_opts_of k ois : opt_is_set k (opts_of ois) = existsb (optk_eqb k) (keys ois).
Proof. unfold opts_of. rewrite opt_is_set_fold. destruct k; apply orb_false_r. Qed.

Lemma existsb_optk k l : existsb (optk_eqb k) l = true <-> In k l.
Proof.
  rewrite existsb_exists. split.
  - intros (x & Hx & E). apply optk_eqb_eq in E. now subst.
  - intros H. exists k. split; [exact H|apply optk_eqb_refl].
Qed.

Lemma opt_loop_distinct o X : forall ois st,
  distinct (keys ois) = true -> (forall k, In k (keys ois) -> opt_is_set k st = false) ->
  Forall (payload_ok o) ois ->
  opt_loop o st (render_opts ois ++ X) = opt_loop o (fold_left set_opt ois st) X.
Proof.
  induction ois as [|oi r IH]; intros st Hd Hns Hp; [reflexivity|].
  cbn [render_opts flat_map]. rewrite <- app_assoc. rewrite opt_loop_render_opt.
  rewrite (Hns (oi_k oi) (or_introl eq_refl)).
  inversion Hp as [|? ? Hp1 Hp2]; subst. rewrite (opt_payload_ok o oi st Hp1).
  cbn [keys map distinct] in Hd. apply andb_true_iff in Hd as [Hd1 Hd2].
  cbn [fold_left]. apply IH; auto.
  intros k Hk. rewrite opt_is_set_set_opt. rewrite (Hns k (or_intror Hk)), orb_false_r.
  destruct (optk_eqb k (oi_k oi)) eqn:E; [|reflexivity].
  apply optk_eqb_eq in E. subst k. apply existsb_optk in Hk. unfold keys in Hk. rewrite Hk in Hd1. discriminate.
Qed.

(* C16: every permutation of every subset of the four options is accepted, whatever stands behind them *)
Theorem options_any_order o ois rest :
  distinct (keys ois) = true -> Forall (payload_ok o) ois -> not_opt_start rest ->
  parse_options o (render_opts ois ++ rest) = POk (opts_of ois, rest).
Proof.
  intros Hd Hp Hr. unfold parse_options.
  rewrite (opt_loop_distinct o rest ois empty_opts Hd ltac:(intros k _; destruct k; reflexivity) Hp).
  now apply opt_loop_stop.
Qed.

(* C16 / C15: a duplicated option is rejected wherever it stands, whatever follows it - no exception
   (`parse_options_pinned` lets one shape escape: P2 in part I) *)
Theorem duplicate_option_rejected o ois dup more rest :
  distinct (keys ois) = true -> In (oi_k dup) (keys ois) -> Forall (payload_ok o) ois ->
  parse_options o (render_opts (ois ++ dup :: more) ++ rest) = PErr (EOptionTwice (oi_k dup)).
Proof.
  intros Hd Hin Hp. unfold parse_options, render_opts.
  rewrite flat_map_app. cbn [flat_map]. rewrite <- !app_assoc.
  rewrite (opt_loop_distinct o _ ois empty_opts Hd ltac:(intros k _; destruct k; reflexivity) Hp).
  rewrite opt_loop_render_opt. fold (opts_of ois).
  apply existsb_optk in Hin. rewrite opt_is_set_opts_of, Hin. reflexivity.
Qed.

Lemma distinct_snoc l x : distinct (l ++ [x]) = distinct l && negb (existsb (optk_eqb x) l).
Proof.
  induction l as [|a l IH]; [reflexivity|]. cbn [app distinct existsb]. rewrite IH, existsb_app. cbn [existsb].
  rewrite (optk_eqb_sym x a).
  destruct (existsb (optk_eqb a) l), (optk_eqb a x), (distinct l), (existsb (optk_eqb x) l); reflexivity.
Qed.

Lemma first_duplicate : forall l,
  distinct (keys l) = false ->
  exists ois dup more, l = ois ++ dup :: more /\ distinct (keys ois) = true /\ In (oi_k dup) (keys ois).
Proof.
  induction l as [|x l IH] using rev_ind; intros H; [discriminate|].
  unfold keys in *. rewrite map_app in H. cbn [map] in H. rewrite distinct_snoc in H.
  destruct (distinct (map oi_k l)) eqn:Ed.
  - cbn in H. apply negb_false_iff, existsb_optk in H. exists l, x, []. auto.
  - destruct (IH eq_refl) as (ois & dup & more & -> & Hd & Hin).
    exists ois, dup, (more ++ [x]). rewrite <- app_assoc. auto.
Qed.

Corollary any_duplicate_rejected o l rest :
  distinct (keys l) = false -> Forall (payload_ok o) l ->
  exists k, parse_options o (render_opts l ++ rest) = PErr (EOptionTwice k).
Proof.
  intros Hd Hp. destruct (first_duplicate l Hd) as (ois & dup & more & -> & Hd' & Hin).
  exists (oi_k dup). apply duplicate_option_rejected; auto.
  apply Forall_app in Hp. apply Hp.
Qed.

Print Assumptions options_any_order.
Print Assumptions duplicate_option_rejected.

(* A branch segment parses to its branch whatever follows it (e.g. a rendered chain that ends with its comma);
   a handler segment likewise. *)
Definition branch_seg (o : oracle) (seg : list tt) (b : branch) : Prop :=
  seg <> [] /\ forall X, peek_handler (seg ++ X) = None /\ build o (seg ++ X) = POk (b, X).
Definition handler_seg (o : oracle) (seg : list tt) (h : hkind * operand) : Prop :=
  forall X, exists hk, peek_handler (seg ++ X) = Some hk /\ parse_handler o hk (seg ++ X) = POk (h, X).

Lemma main_loop_branches_only o hseen : forall segs bs,
  Forall2 (branch_seg o) segs bs ->
  forall fuel tail, List.length segs <= fuel ->
  main_loop o fuel hseen (List.concat segs ++ tail) =
  match main_loop o (fuel - List.length segs) hseen tail with
  | PErr e => PErr e
  | POk (bs', h) => POk (bs ++ bs', h)
  end.
Proof.
  induction 1 as [|seg b segs bs Hseg Hrest IH]; intros fuel tail Hf.
  - cbn. rewrite Nat.sub_0_r. destruct (main_loop o fuel hseen tail) as [[? ?]|]; reflexivity.
  - cbn [List.concat List.length] in *. destruct fuel as [|fuel]; [lia|]. rewrite <- app_assoc.
    destruct Hseg as [Hne Hseg]. destruct (Hseg (List.concat segs ++ tail)) as [Hp Hb].
    assert (Hne' : seg ++ List.concat segs ++ tail <> []) by (destruct seg; [congruence|discriminate]).
    rewrite (main_loop_branch o fuel hseen _ b _ Hne' Hp Hb).
    rewrite (IH fuel tail ltac:(lia)). cbn [Nat.sub].
    destruct (main_loop o (fuel - List.length segs) hseen tail) as [[? ?]|]; reflexivity.
Qed.

(* the handler may stand before, between or after the branches - the parse result is the same *)
Theorem handler_position_irrelevant o pre post bpre bpost hs h :
  Forall2 (branch_seg o) pre bpre -> Forall2 (branch_seg o) post bpost -> handler_seg o hs h ->
  forall fuel, List.length pre + List.length post + 1 <= fuel ->
  main_loop o fuel false (List.concat pre ++ hs ++ List.concat post) = POk (bpre ++ bpost, Some h).
Proof.
  intros Hpre Hpost Hh fuel Hf.
  rewrite (main_loop_branches_only o false pre bpre Hpre fuel (hs ++ List.concat post)) by lia.
  destruct (fuel - List.length pre) as [|f1] eqn:Ef; [lia|].
  destruct (Hh (List.concat post)) as (hk & Hp & Hph).
  destruct (hs ++ List.concat post) as [|t0 r0] eqn:E; [discriminate|].
  cbn [main_loop]. rewrite Hp, Hph.
  pose proof (main_loop_branches_only o true post bpost Hpost f1 [] ltac:(lia)) as H2.
  rewrite app_nil_r in H2. rewrite H2, main_loop_nil. now rewrite app_nil_r.
Qed.

Corollary handler_position_irrelevant' o pre post pre' post' bpre bpost bpre' bpost' hs h fuel :
  Forall2 (branch_seg o) pre bpre -> Forall2 (branch_seg o) post bpost ->
  Forall2 (branch_seg o) pre' bpre' -> Forall2 (branch_seg o) post' bpost' -> handler_seg o hs h ->
  pre ++ post = pre' ++ post' -> bpre ++ bpost = bpre' ++ bpost' ->
  List.length (pre ++ post) + 1 <= fuel ->
  main_loop o fuel false (List.concat pre ++ hs ++ List.concat post) = main_loop o fuel false (List.concat pre' ++ hs ++ List.concat post').
Proof.
  intros H1 H2 H3 H4 Hh Hs Hb Hf. rewrite app_length in Hf.
  assert (Hl : List.length pre' + List.length post' = List.length pre + List.length post).
  { rewrite <- !app_length. now rewrite Hs. }
  rewrite (handler_position_irrelevant o pre post bpre bpost hs h H1 H2 Hh fuel ltac:(lia)).
  rewrite (handler_position_irrelevant o pre' post' bpre' bpost' hs h H3 H4 Hh fuel ltac:(lia)).
  now rewrite Hb.
Qed.

Print Assumptions handler_position_irrelevant.

Lemma opts_of_unexpected : forall ois st, o_unexpected (fold_left set_opt ois st) = o_unexpected st.
Proof.
  induction ois as [|oi r IH]; intros st; [reflexivity|]. cbn [fold_left]. rewrite IH.
  unfold set_opt. destruct (oi_k oi); cbn; try apply orb_false_r; reflexivity.
Qed.

Lemma segs_length o : forall segs bs,
  Forall2 (branch_seg o) segs bs -> List.length segs <= List.length (List.concat segs).
Proof.
  induction 1 as [|seg b segs bs [Hs _] _ IH]; [cbn; lia|]. cbn. rewrite app_length.
  destruct seg; [congruence|]. cbn. lia.
Qed.

(* the handler segment of an input, if it has one *)
Definition hh_toks (hh : option (list tt * (hkind * operand))) : list tt :=
  match hh with Some (hs, _) => hs | None => [] end.
Definition hh_ok (o : oracle) (hh : option (list tt * (hkind * operand))) : Prop :=
  match hh with Some (hs, h) => handler_seg o hs h | None => True end.

Lemma main_loop_roundtrip o pre post bpre bpost hh fuel :
  Forall2 (branch_seg o) pre bpre -> Forall2 (branch_seg o) post bpost -> hh_ok o hh ->
  List.length pre + List.length post + 1 <= fuel ->
  main_loop o fuel false (List.concat pre ++ hh_toks hh ++ List.concat post) = POk (bpre ++ bpost, option_map snd hh).
Proof.
  intros Hpre Hpost Hh Hf. destruct hh as [[hs h]|]; cbn [hh_toks hh_ok option_map snd app] in *.
  - exact (handler_position_irrelevant o pre post bpre bpost hs h Hpre Hpost Hh fuel Hf).
  - rewrite <- concat_app.
    pose proof (main_loop_branches_only o false (pre ++ post) (bpre ++ bpost) (Forall2_app Hpre Hpost) fuel []
                  ltac:(rewrite app_length; lia)) as H.
    rewrite app_nil_r in H. rewrite H, main_loop_nil. now rewrite app_nil_r.
Qed.

(* E and F together: any order of distinct options, then the branch segments with the handler segment,
   if there is one, anywhere among them: the same `input` comes out - options, branches in order, handler. *)
Theorem parse_roundtrip_gen o ois pre post bpre bpost hh :
  distinct (keys ois) = true -> Forall (payload_ok o) ois ->
  not_opt_start (List.concat pre ++ hh_toks hh ++ List.concat post) ->
  Forall2 (branch_seg o) pre bpre -> Forall2 (branch_seg o) post bpost -> hh_ok o hh ->
  bpre ++ bpost <> [] ->
  parse o (render_opts ois ++ List.concat pre ++ hh_toks hh ++ List.concat post) =
  POk (mkInput (bpre ++ bpost) (option_map snd hh) (o_fcp (opts_of ois)) (o_joiner (opts_of ois))
               (o_transpose (opts_of ois)) (o_lazy (opts_of ois))).
Proof.
  intros Hd Hp Hn Hpre Hpost Hh Hne. unfold parse.
  rewrite (options_any_order o ois _ Hd Hp Hn).
  rewrite (main_loop_roundtrip o pre post bpre bpost hh _ Hpre Hpost Hh).
  - destruct (bpre ++ bpost); [congruence|]. cbn [is_nil]. unfold opts_of at 1. rewrite opts_of_unexpected. reflexivity.
  - rewrite !app_length. pose proof (segs_length o _ _ Hpre). pose proof (segs_length o _ _ Hpost). lia.
Qed.

Theorem parse_roundtrip o ois pre post bpre bpost hs h :
  distinct (keys ois) = true -> Forall (payload_ok o) ois ->
  not_opt_start (List.concat pre ++ hs ++ List.concat post) ->
  Forall2 (branch_seg o) pre bpre -> Forall2 (branch_seg o) post bpost -> handler_seg o hs h ->
  bpre ++ bpost <> [] ->
  parse o (render_opts ois ++ List.concat pre ++ hs ++ List.concat post) =
  POk (mkInput (bpre ++ bpost) (Some h) (o_fcp (opts_of ois)) (o_joiner (opts_of ois))
               (o_transpose (opts_of ois)) (o_lazy (opts_of ois))).
Proof. exact (parse_roundtrip_gen o ois pre post bpre bpost (Some (hs, h))). Qed.

Print Assumptions parse_roundtrip.

(** * G. groups_are_opaque: cutting a branch into units never looks inside a group *)

(* replace the content of every top-level group by anything *)
Definition regroup (phi : delim -> list tt -> list tt) (t : tt) : tt :=
  match t with TG d c => TG d (phi d c) | _ => t end.
Definition mg (phi : delim -> list tt -> list tt) (ts : list tt) : list tt := map (regroup phi) ts.

(* the oracle that is asked about the regrouped tokens *)
Definition pre_oracle (phi : delim -> list tt -> list tt) (o : oracle) : oracle :=
  mkOracle (fun q => valid_expr o (mg phi q)) (fun q => valid_type o (mg phi q))
           (fun q => expr_prefix o (mg phi q)) (fun q => path_prefix o (mg phi q))
           (fun q => let_split o (mg phi q)).

Section Opaque.
  Variable phi : delim -> list tt -> list tt.
  Variable o : oracle.
  Let o' := pre_oracle phi o.
  Let G := mg phi.

  Lemma tmatches_regroup m t : tmatches m (regroup phi t) = tmatches m t.
  Proof. destruct m, t; reflexivity. Qed.

  Lemma peek_seq_mg p : forall ts, peek_seq p (G ts) = peek_seq p ts.
  Proof.
    induction p as [|m p IH]; intros ts; [reflexivity|]. destruct ts as [|t ts]; [reflexivity|].
    cbn. now rewrite tmatches_regroup, IH.
  Qed.

  Lemma d_check_mg d ts : d_check d (G ts) = d_check d ts.
  Proof. unfold d_check. induction (d_pats d) as [|p ps IH]; [reflexivity|]. cbn. now rewrite peek_seq_mg, IH. Qed.

  Lemma find_from_mg ds : forall k ts, find_from ds k (G ts) = find_from ds k ts.
  Proof. induction ds as [|d ds IH]; intros k ts; [reflexivity|]. cbn. rewrite d_check_mg. destruct (d_check d ts); auto. Qed.

  Lemma find_first_mg ts : find_first (G ts) = find_first ts.
  Proof. unfold find_first. now rewrite find_from_mg. Qed.

  Lemma is_nil_mg ts : is_nil (G ts) = is_nil ts.
  Proof. destruct ts; reflexivity. Qed.

  Lemma check_valid_mg k acc : check_valid o' k acc = check_valid o k (G acc).
  Proof. destruct k; cbn; try reflexivity. now rewrite is_nil_mg. Qed.

  Lemma try_accept_mg k a acc inp : try_accept o k a (G acc) (G inp) = try_accept o' k a acc inp.
  Proof. unfold try_accept. rewrite find_first_mg, is_nil_mg, check_valid_mg. reflexivity. Qed.

  Definition map_stop (r : pu_stop) : pu_stop :=
    match r with
    | PUEnd acc => PUEnd (G acc)
    | PUStop acc def d inp => PUStop (G acc) def d (G inp)
    | PUErr e => PUErr e
    end.

  Lemma pu_loop_mg k a : forall inp acc, pu_loop o k a (G acc) (G inp) = map_stop (pu_loop o' k a acc inp).
  Proof.
    assert (Hsnoc : forall acc x, G acc ++ [regroup phi x] = G (acc ++ [x])) by (intros; unfold G, mg; now rewrite map_app).
    induction inp as [|t rest IH IH'] using list_ind_tl; intros acc; [reflexivity|].
    change (G (t :: rest)) with (regroup phi t :: G rest). cbn [pu_loop].
    unfold is_tilde. rewrite tmatches_regroup. destruct (tmatches (MP "~") t).
    - rewrite try_accept_mg. destruct (try_accept o' k a acc rest); try reflexivity.
      destruct rest as [|x rest']; [reflexivity|].
      change (G (x :: rest')) with (regroup phi x :: G rest'). cbv iota beta. rewrite Hsnoc. apply IH'.
    - change (regroup phi t :: G rest) with (G (t :: rest)). rewrite try_accept_mg.
      destruct (try_accept o' k a acc (t :: rest)); try reflexivity. rewrite Hsnoc. apply IH.
  Qed.

  Lemma erase_mg n : forall ts, erase n (G ts) = option_map G (erase n ts).
  Proof. induction n as [|n IH]; intros ts; [reflexivity|]. destruct ts; [reflexivity|]. cbn. apply IH. Qed.

  Definition map_unit (r : presult unit_res) : presult unit_res :=
    match r with
    | POk u => POk (mkUnit (G (u_tokens u)) (u_next u) (G (u_rest u)))
    | PErr e => PErr e
    end.

  Lemma finish_unit_mg k acc next rest :
    finish_unit o k (G acc) next (G rest) = map_unit (finish_unit o' k acc next rest).
  Proof. unfold finish_unit. rewrite check_valid_mg. destruct (check_valid o k (G acc)) as [[|]|]; reflexivity. Qed.

  Lemma after_stop_mg def d inp' :
    after_stop def d (G inp') =
    match after_stop def d inp' with POk (next, rest) => POk (next, G rest) | PErr e => PErr e end.
  Proof.
    unfold after_stop. destruct (d_comb d) as [c|]; rewrite erase_mg.
    - destruct (erase (d_len d) inp') as [forked|]; [|reflexivity]. cbn [option_map]. rewrite peek_seq_mg.
      destruct (peek_seq wrapper_pat forked); cbn [andb].
      + destruct (comb_is_unwrap c); [reflexivity|]. destruct (negb (can_be_wrapper c)); [reflexivity|].
        rewrite erase_mg. destruct (erase 3 inp') as [inp''|]; [|reflexivity]. cbn [option_map].
        rewrite erase_mg. destruct (erase (d_len d) inp''); reflexivity.
      + rewrite erase_mg. destruct (erase (d_len d) inp'); reflexivity.
    - destruct (erase (d_len d) inp'); reflexivity.
  Qed.

  (* Cutting out a unit (and choosing the operator, `~`, `>>>` that end it) depends on the inside of groups only
     through the oracle: if every group's content is replaced by anything else and the oracle is asked about the
     replaced tokens, the same cut is made, the same operator found, the same error raised. *)
  Theorem groups_are_opaque k a ts :
    parse_until o k a (G ts) = map_unit (parse_until o' k a ts).
  Proof.
    rewrite !parse_until_alt. change (@nil tt) with (G []) at 1. rewrite (pu_loop_mg k a ts []).
    destruct (pu_loop o' k a [] ts) as [acc|acc def d inp'|e]; cbn [map_stop]; [| |reflexivity].
    - change (@nil tt) with (G []) at 1. apply finish_unit_mg.
    - rewrite after_stop_mg. destruct (after_stop def d inp') as [[next rest]|]; [apply finish_unit_mg|reflexivity].
  Qed.
End Opaque.

Print Assumptions groups_are_opaque.

(** * H. Non-vacuity: the hypotheses hold on concrete, non-trivial inputs *)

(* deciding `atomic` for a computable oracle and concrete tokens *)
Fixpoint splits (e : list tt) : list (list tt * list tt) :=
  match e with
  | [] => []
  | t :: r => ([], t :: r) :: map (fun p => (t :: fst p, snd p)) (splits r)
  end.

Lemma splits_complete : forall e e1 e2, e = e1 ++ e2 -> e2 <> [] -> In (e1, e2) (splits e).
Proof.
  induction e as [|t r IH]; intros e1 e2 He Hne.
  - destruct e1, e2; try discriminate. congruence.
  - destruct e1 as [|t' e1]; cbn in He.
    + left. now rewrite He.
    + inversion He; subst. right. apply (in_map (fun p => (t' :: fst p, snd p)) _ (e1, e2)). apply IH; auto.
Qed.

Definition any_det (ts : list tt) : bool := existsb (fun d => d_check d ts) determiners.
Definition ans_eqb (a : answer bool) (b : bool) : bool := match a with Ans x => Bool.eqb x b | NoAns => false end.

Definition atomicb (o : oracle) (k : pkind) (e follow : list tt) : bool :=
  forallb (fun t => negb (is_tilde t)) e && ans_eqb (check_valid o k e) true &&
  forallb (fun p => implb (any_det (snd p ++ follow)) (ans_eqb (check_valid o k (fst p)) false)) (splits e).

Lemma ans_eqb_true a b : ans_eqb a b = true -> a = Ans b.
Proof. destruct a as [x|]; cbn; [|discriminate]. intros H. apply Bool.eqb_prop in H. now subst. Qed.

Lemma atomicb_sound o k e follow : atomicb o k e follow = true -> atomic o k e follow.
Proof.
  unfold atomicb. intros H. apply andb_true_iff in H as [H H3].
  apply andb_true_iff in H as [H1 H2]. repeat split.
  - exact H1.
  - now apply ans_eqb_true.
  - intros e1 e2 He Hne d Hin Hc. rewrite forallb_forall in H3. specialize (H3 _ (splits_complete e e1 e2 He Hne)).
    cbn [fst snd] in H3. assert (Ha : any_det (e2 ++ follow) = true) by (apply existsb_exists; eauto).
    rewrite Ha in H3. cbn in H3. now apply ans_eqb_true.
Qed.

(* the same for a whole chain: everything in `items_ok` that asks the oracle or peeks at tokens is computed;
   `item_shape` is the rest, equations between tokens, which a boolean test could decide only through a proof
   that token equality is decidable *)
Fixpoint operands_okb (o : oracle) (k : pkind) (ops : list operand) (F : list tt) : bool :=
  match ops with
  | [] => true
  | e :: r => match r with
              | [] => atomicb o k e F
              | _ :: _ => atomicb o k e (COMMA :: join_ops r ++ F) && operands_okb o k r F
              end
  end.

Definition member_rtb (o : oracle) (m : action) (F : list tt) : bool :=
  if is_wrap m then can_be_wrapper (a_comb m)
  else
    let a := arity (a_comb m) in
    match a_ops m with
    | [] => ar_allow_empty a
    | e0 :: _ =>
        Nat.eqb (List.length (a_ops m)) (ar_count a) && operands_okb o (ar_kind a) (a_ops m) F &&
        (negb (ar_allow_empty a) ||
         match e0 with
         | t :: _ => negb (is_tilde t) && negb (any_det (join_ops (a_ops m) ++ F))
         | [] => false
         end)
    end.

Definition item_okb (o : oracle) (it : item) (Fnext : list tt) : bool :=
  let m := it_m it in
  let X := operand_toks m ++ Fnext in
  negb (extends_op (a_comb m) ((if is_wrap m then wrap3 (it_jw it) else []) ++ X)) &&
  (is_wrap m || negb (peek_seq wrapper_pat X)) && member_rtb o m Fnext.

Fixpoint items_okb (o : oracle) (its : list item) (sep : list tt) : bool :=
  match its with
  | [] => true
  | it :: r => item_okb o it (render_items r sep) && items_okb o r sep
  end.

Definition item_shape (it : item) : Prop :=
  documented (it_sp it) (a_comb (it_m it)) /\
  a_mv (it_m it) = mv_of (a_comb (it_m it)) (is_wrap (it_m it)) /\
  (is_wrap (it_m it) = true -> a_ops (it_m it) = [wrapper_placeholder]).

Lemma operands_okb_sound o k F : forall ops, operands_okb o k ops F = true -> operands_ok o k ops F.
Proof.
  induction ops as [|e r IH]; [exact (fun _ => Logic.I)|]. cbn [operands_okb operands_ok]. destruct r as [|e' r'].
  - apply atomicb_sound.
  - intros H. apply andb_true_iff in H as [Ha Hr]. split; [apply atomicb_sound, Ha|apply IH, Hr].
Qed.

Lemma member_rtb_sound o m F :
  (is_wrap m = true -> a_ops m = [wrapper_placeholder]) -> member_rtb o m F = true -> member_rt o m F.
Proof.
  unfold member_rtb, member_rt. intros Hw.
  destruct (is_wrap m); [intros H; split; [exact H|apply Hw; reflexivity]|].
  cbn zeta. destruct (a_ops m) as [|e0 r]; [auto|].
  intros H. apply andb_true_iff in H as [H H3]. apply andb_true_iff in H as [H1 H2].
  split; [apply Nat.eqb_eq, H1|]. split; [apply operands_okb_sound, H2|].
  intros He. rewrite He in H3. cbn [negb orb] in H3. destruct e0 as [|t e']; [discriminate|].
  apply andb_true_iff in H3 as [Ht Hd]. exists t, e'. split; [reflexivity|]. split; [now apply negb_true_iff|].
  intros d Hin. apply negb_true_iff in Hd. destruct (d_check d _) eqn:E; [|reflexivity].
  unfold any_det in Hd. rewrite (proj2 (existsb_exists _ _) (ex_intro _ d (conj Hin E))) in Hd. discriminate.
Qed.

Lemma items_okb_sound o sep : forall its,
  Forall item_shape its -> items_okb o its sep = true -> items_ok o its sep.
Proof.
  induction 1 as [|it r (Hdoc & Hmv & Hw) _ IH]; [exact (fun _ => Logic.I)|]. cbn [items_okb items_ok].
  intros H. apply andb_true_iff in H as [H Hr]. split; [|exact (IH Hr)].
  unfold item_okb in H. cbn zeta in H. apply andb_true_iff in H as [H Hm]. apply andb_true_iff in H as [He Hp].
  unfold item_ok. cbn zeta. split; [exact Hdoc|]. split; [exact Hmv|]. split; [now apply negb_true_iff|].
  split; [|now apply member_rtb_sound].
  intros Hnw. rewrite Hnw in Hp. now apply negb_true_iff.
Qed.

(* a small computable oracle: identifiers, single groups, calls `f(..)`, closures `|x| -> T {..}`, `let x = v`;
   types: identifiers and `V<T>` *)
Definition toy_expr (ts : list tt) : bool :=
  match ts with
  | [TI s] => negb (String.eqb s "let")
  | [TG _ _] => true
  | [TI _; TG DParen _] => true
  | [TP b1 _; TI _; TP b2 _; TP m true; TP g _; TI _; TG DBrace _] =>
      String.eqb b1 "|" && String.eqb b2 "|" && String.eqb m "-" && String.eqb g ">"
  | [TI l; TI _; TP q _; TI _] => String.eqb l "let" && String.eqb q "="
  | [TI l; TG DParen _; TP q _; TI _] => String.eqb l "let" && String.eqb q "="
  | _ => false
  end.
Definition toy_type (ts : list tt) : bool :=
  match ts with
  | [TI _] => true
  | [TI _; TP a _; TI _; TP b _] => String.eqb a "<" && String.eqb b ">"
  | _ => false
  end.
Definition toy_let (ts : list tt) : let_shape :=
  match ts with
  | [TI l; TI x; TP q _; TI v] => if String.eqb l "let" && String.eqb q "=" then LetIdent [TI x] x [TI v] else NotLet
  | [TI l; TG DParen _; TP q _; TI _] => if String.eqb l "let" && String.eqb q "=" then LetBadPat else NotLet
  | _ => NotLet
  end.
Definition toy : oracle :=
  mkOracle (fun ts => Ans (toy_expr ts)) (fun ts => Ans (toy_type ts))
           (fun ts => Ans (match ts with TI _ :: _ => Some 1 | _ => None end))
           (fun ts => Ans (Some (List.length ts)))
           (fun ts => Ans (toy_let ts)).

(* hides `Logic.I` here and in every file that imports this one *)
Definition I (s : string) : tt := TI s.
Definition closure : list tt := [TP "|" false; I "x"; TP "|" false; PJ "-"; TP ">" false; I "T"; TG DBrace [I "x"]].

(* the chain   a |> |x| -> T {x} ~=> >>> ?? f <<< ^@ i, g =>[] <-> ?|>@ h   followed by  `, b` *)
Definition ex_items : list item :=
  [ mkItem (mkAction Map false NoMove [closure]) [PJ "|"; TP ">" false] false;
    mkItem (mkAction AndThen true Wrap [wrapper_placeholder]) [PJ "="; TP ">" false] false;
    mkItem (mkAction Inspect false NoMove [[I "f"]]) [PJ "?"; TP "?" false] false;
    mkItem (mkAction UNWRAP false Unwrap []) [PJ "<"; PJ "<"; TP "<" false] false;
    mkItem (mkAction Fold false NoMove [[I "i"]; [I "g"]]) [PJ "^"; TP "@" false] false;
    mkItem (mkAction Collect false NoMove []) (collect_spelling true []) false;
    mkItem (mkAction Unzip false NoMove []) [PJ "<"; PJ "-"; TP ">" true] false;
    mkItem (mkAction FindMap false NoMove [[I "h"]]) [PJ "?"; PJ "|"; PJ ">"; TP "@" false] false ].
Definition ex_sep : list tt := [COMMA; I "b"].

Example ex_items_ok : items_ok toy ex_items ex_sep.
Proof.
  assert (Hs : forall j n s c, nth_error (spellings j) n = Some (s, c) -> documented s c).
  { intros j n s c H. left. exists j. exact (nth_error_In _ _ H). }
  apply items_okb_sound; [|vm_compute; reflexivity].
  unfold ex_items. repeat apply Forall_cons; [..|apply Forall_nil].
  all: split; [|split; [reflexivity|first [discriminate|intros _; reflexivity]]].
  - exact (Hs false 0 _ _ eq_refl).                                   (* |> closure *)
  - exact (Hs false 2 _ _ eq_refl).                                   (* ~=> >>> *)
  - exact (Hs false 9 _ _ eq_refl).                                   (* ?? f *)
  - exact (Hs false 21 _ _ eq_refl).                                  (* <<< *)
  - exact (Hs false 16 _ _ eq_refl).                                  (* ^@ i, g *)
  - right. split; [reflexivity|]. exists true, []. reflexivity.        (* =>[] *)
  - exact (Hs true 20 _ _ eq_refl).                                   (* <-> *)
  - exact (Hs false 11 _ _ eq_refl).                                  (* ?|>@ h *)
Qed.

Example ex_initial_atomic : atomic toy KExpr [I "a"] (render_items ex_items ex_sep).
Proof. apply atomicb_sound. vm_compute. reflexivity. Qed.

(* the closure operand really contains an operator look-alike (`->` = Then) at an incomplete prefix *)
Example ex_closure_has_lookalike : any_det (skipn 3 closure ++ [I "z"]) = true /\ toy_expr (firstn 3 closure) = false.
Proof. split; reflexivity. Qed.

(* the conclusion of chain_roundtrip on this input, computed through the theorem *)
Example ex_chain_roundtrip :
  build toy ([I "a"] ++ render_items ex_items ex_sep) =
  POk (mkBranch None (mkAction Initial false NoMove [[I "a"]] :: map it_m ex_items), [I "b"]).
Proof.
  rewrite (chain_roundtrip toy [I "a"] ex_items ex_sep ex_initial_atomic ex_items_ok).
  - reflexivity.
  - right; left. exists COMMA, [I "b"]. split; reflexivity.
Qed.

(* C15 witnesses, through the whole parser *)
Definition OP (a b : string) : list tt := [PJ a; TP b false].
Definition W3 : list tt := [PJ ">"; PJ ">"; TP ">" false].
Definition U3 : list tt := [PJ "<"; PJ "<"; TP "<" false].

(* `a |> >>> |> f ~|> g <<< |> h`: the `<<<` stands in a step that has no open `>>>` *)
Example ex_cross_step_unwrap :
  parse toy ([I "a"] ++ OP "|" ">" ++ W3 ++ OP "|" ">" ++ [I "f"] ++ [TILDE] ++ OP "|" ">" ++ [I "g"] ++ U3 ++ OP "|" ">" ++ [I "h"])
  = PErr EUnexpectedUnwrap.
Proof. vm_compute. reflexivity. Qed.

Example ex_per_step_balanced :
  exists i, parse toy ([I "a"] ++ OP "|" ">" ++ W3 ++ OP "|" ">" ++ [I "f"] ++ U3 ++ [TILDE] ++ OP "|" ">" ++ W3
                       ++ OP "|" ">" ++ [I "g"] ++ U3 ++ OP "|" ">" ++ [I "h"]) = POk i.
Proof. eexists. vm_compute. reflexivity. Qed.

Example ex_wrap_after_nonwrapper : parse toy ([I "a"] ++ OP "-" ">" ++ W3 ++ OP "|" ">" ++ [I "f"]) = PErr ECantBeWrapper.
Proof. vm_compute. reflexivity. Qed.
Example ex_unwrap_wrap : parse toy ([I "a"] ++ OP "|" ">" ++ W3 ++ U3 ++ W3) = PErr EWrapAndUnwrap.
Proof. vm_compute. reflexivity. Qed.
Example ex_bad_let : parse toy [I "let"; TG DParen [I "p"; COMMA; I "q"]; TP "=" false; I "v"] = PErr EIncorrectLet.
Proof. vm_compute. reflexivity. Qed.
Example ex_good_let :
  parse toy ([I "let"; I "x"; TP "=" false; I "v"] ++ OP "|" ">" ++ [I "f"]) =
  POk (mkInput [mkBranch (Some ([I "x"], "x")) [mkAction Initial false NoMove [[I "v"]]; mkAction Map false NoMove [[I "f"]]]]
               None None None None None).
Proof. vm_compute. reflexivity. Qed.
Example ex_double_comma : parse toy [I "a"; COMMA; COMMA; I "b"] = PErr (EInvalidOperand KExpr).
Proof. vm_compute. reflexivity. Qed.
Example ex_two_handlers :
  parse toy ([I "a"; COMMA; I "map"; PJ "="; TP ">" false; I "f"; COMMA; I "then"; PJ "="; TP ">" false; I "g"])
  = PErr EMultipleHandlers.
Proof. vm_compute. reflexivity. Qed.

Example toy_no_comma_expr : no_comma_expr toy.
Proof.
  split; [discriminate|]. intros t ts Ht. destruct t; cbn [tmatches] in Ht; try discriminate.
  apply String.eqb_eq in Ht. subst c. cbn [valid_expr toy]. intros H. injection H as H. revert H.
  destruct ts as [|t1 [|t2 [|t3 [|t4 [|t5 [|t6 [|t7 ts]]]]]]]; try discriminate.
  (* `toy_expr` looks at the tokens from left to right; every leaf is `false`, with seven tokens because "," is not "|" *)
  all: destruct t1; try discriminate.
  all: destruct t2; try discriminate.
  all: destruct t3 as [? []| | |]; try discriminate.
  all: destruct t4; try discriminate.
  all: destruct t5; try discriminate.
  all: destruct t6 as [| | |[]]; try discriminate.
Qed.

(* the two inputs on which the definitions of `Parse.Pinned` go wrong (part I), run through `parse` *)
Definition p1_tokens : list tt :=
  [I "a"] ++ OP "|" ">" ++ closure ++ collect_spelling false [] ++ OP "|" ">" ++ [I "f"].

(* `a |> |x| -> T {x} =>[] |> f`: `=>[]` after a closure with a return type is Collect *)
Example collect_after_arrow_closure :
  parse toy p1_tokens =
  POk (mkInput [mkBranch None [mkAction Initial false NoMove [[I "a"]]; mkAction Map false NoMove [closure];
                               mkAction Collect false NoMove []; mkAction Map false NoMove [[I "f"]]]]
               None None None None None).
Proof. vm_compute. reflexivity. Qed.

(* .. and the closure is atomic in front of `=>[]` *)
Example closure_atomic_before_collect :
  atomic toy KExpr closure (collect_spelling false [] ++ OP "|" ">" ++ [I "f"]).
Proof. apply atomicb_sound. vm_compute. reflexivity. Qed.

Definition opt (k : string) (c : list tt) : list tt := [I k; TG DParen c].
Definition p2_tokens : list tt :=
  opt "lazy_branches" [I "true"] ++ opt "transpose_results" [I "true"] ++ opt "custom_joiner" [I "j"]
  ++ opt "futures_crate_path" [I "f"] ++ opt "futures_crate_path" [I "f"] ++ [COMMA; I "a"].

(* the fifth option, a repeated `futures_crate_path(..)`, is rejected *)
Example fifth_option_rejected : parse toy p2_tokens = PErr (EOptionTwice OFcp).
Proof. vm_compute. reflexivity. Qed.
Example duplicate_rejected_example :
  parse toy (opt "lazy_branches" [I "true"] ++ opt "futures_crate_path" [I "f"] ++ opt "lazy_branches" [I "false"] ++ [I "a"])
  = PErr (EOptionTwice OLazy).
Proof. vm_compute. reflexivity. Qed.

(* hypotheses of options_any_order / duplicate_option_rejected *)
Example ex_options :
  let ois := [mkOItem OLazy [I "true"]; mkOItem OFcp [TP ":" true; TP ":" false; I "futures"]; mkOItem OJoiner [I "j"]] in
  distinct (keys ois) = true /\ Forall (payload_ok toy) ois /\ not_opt_start [I "a"].
Proof. repeat split; try reflexivity. repeat constructor; cbn; auto. Qed.

(* hypotheses of `ex_parse_roundtrip`: `a,` is a branch segment, `map => f,` a handler segment *)
Example ex_branch_seg : branch_seg toy [I "a"; COMMA] (mkBranch None [mkAction Initial false NoMove [[I "a"]]]).
Proof.
  split; [discriminate|]. intros X. split; [reflexivity|].
  change ([I "a"; COMMA] ++ X) with ([I "a"] ++ render_items [] (COMMA :: X)).
  rewrite chain_roundtrip.
  - reflexivity.
  - apply atomicb_sound. vm_compute. reflexivity.
  - exact Logic.I.
  - right; left. exists COMMA, X. split; reflexivity.
Qed.
Example ex_handler_seg : handler_seg toy [I "map"; PJ "="; TP ">" false; I "f"; COMMA] (HMap, [I "f"]).
Proof. intros X. exists HMap. split; reflexivity. Qed.

Example ex_parse_roundtrip :
  let seg := [I "a"; COMMA] in
  let b := mkBranch None [mkAction Initial false NoMove [[I "a"]]] in
  let hs := [I "map"; PJ "="; TP ">" false; I "f"; COMMA] in
  parse toy (render_opts [mkOItem OLazy [I "true"]; mkOItem OJoiner [I "j"]] ++ List.concat [seg] ++ hs ++ List.concat [seg; seg])
  = POk (mkInput [b; b; b] (Some (HMap, [I "f"])) None (Some [I "j"]) None (Some true)).
Proof.
  intros seg b hs.
  rewrite (parse_roundtrip toy _ [seg] [seg; seg] [b] [b; b] hs (HMap, [I "f"])).
  - reflexivity.
  - reflexivity.
  - repeat constructor; cbn; auto.
  - reflexivity.
  - repeat constructor; apply ex_branch_seg.
  - repeat constructor; apply ex_branch_seg.
  - apply ex_handler_seg.
  - discriminate.
Qed.

(** * I. Regression documentation: the two definitions of the PINNED tree (Parse.Pinned) and their defects *)

Module PinnedProps.
Import Pinned.

(* P1 (C14): in the pinned tree the rotated determiner cycle defeats "longest operator wins".
   `|x| -> T {x} =>[] |> f` as the operand of a preceding operator: the closure is a complete operand only at its end
   (it is `atomic`), its `->` is an operator look-alike inside a not yet complete operand - and yet the PINNED
   parse_until ended the unit with `=>` (AndThen, leaving `[]` as the next operand), because the search that followed the
   rejected `->` (table row 4) started at row 5 (`=>`), before it wrapped around to row 2 (`=>[]`). *)
Definition p1_unit : list tt := closure ++ collect_spelling false [] ++ OP "|" ">" ++ [I "f"].

Theorem rotation_defeats_longest_match :
  parse_until_pinned toy KExpr false p1_unit =
  POk (mkUnit closure (Some (mkGroup AndThen false NoMove)) ([TG DBracket []] ++ OP "|" ">" ++ [I "f"])).
Proof. vm_compute. reflexivity. Qed.

(* the fixed parse_until on the same tokens: Collect, the bracket group belongs to the operator *)
Theorem rotation_fixed :
  parse_until toy KExpr false p1_unit =
  POk (mkUnit closure (Some (mkGroup Collect false NoMove)) (OP "|" ">" ++ [I "f"])).
Proof. vm_compute. reflexivity. Qed.

(* without a look-alike in the operand the two definitions agree *)
Example no_rotation_collect_pinned :
  parse_until_pinned toy KExpr false ([I "c"] ++ collect_spelling false [] ++ OP "|" ">" ++ [I "f"]) =
  parse_until toy KExpr false ([I "c"] ++ collect_spelling false [] ++ OP "|" ">" ++ [I "f"]).
Proof. vm_compute. reflexivity. Qed.

(* P2 (C15/C16): the four-pass option loop of the pinned tree *)
(* the option loop on rendered options, step by step, without the oracle *)
Definition astep (k : optk) (cfg : presult (opts * list oitem)) : presult (opts * list oitem) :=
  match cfg with
  | PErr e => PErr e
  | POk (st, []) => POk (st, [])
  | POk (st, oi :: r) =>
      if optk_eqb k (oi_k oi) then
        if opt_is_set k st then PErr (EOptionTwice k) else POk (set_opt st oi, r)
      else POk (st, oi :: r)
  end.

Definition lift_cfg (rest : list tt) (cfg : presult (opts * list oitem)) : presult (opts * list tt) :=
  match cfg with
  | PErr e => PErr e
  | POk (st, ois) => POk (st, render_opts ois ++ rest)
  end.

Lemma parse_opt_sim o rest k st ois :
  Forall (payload_ok o) ois -> not_opt_start rest ->
  parse_opt o k st (render_opts ois ++ rest) = lift_cfg rest (astep k (POk (st, ois))).
Proof.
  intros Hp Hr. destruct ois as [|oi r]; cbn [render_opts flat_map app astep lift_cfg].
  - unfold parse_opt. destruct rest as [|t rest']; [reflexivity|].
    cbn [not_opt_start] in Hr. now rewrite (which_opt_none t Hr).
  - unfold parse_opt, render_opt. cbn [app tmatches]. rewrite opt_kw_eqb.
    destruct (optk_eqb k (oi_k oi)) eqn:Ek; [|reflexivity].
    apply optk_eqb_eq in Ek. subst k.
    destruct (opt_is_set (oi_k oi) st); [reflexivity|].
    inversion Hp; subst. rewrite (opt_payload_ok o oi st H1). reflexivity.
Qed.

Definition cfg_ok (o : oracle) (cfg : presult (opts * list oitem)) : Prop :=
  match cfg with POk (_, ois) => Forall (payload_ok o) ois | PErr _ => True end.

Lemma astep_ok o k cfg : cfg_ok o cfg -> cfg_ok o (astep k cfg).
Proof.
  destruct cfg as [[st [|oi r]]|e]; cbn; auto. intros Hp.
  destruct (optk_eqb k (oi_k oi)); [|exact Hp]. destruct (opt_is_set k st); [exact Logic.I|]. now inversion Hp.
Qed.

Lemma opt_seq_sim o rest : not_opt_start rest ->
  forall ks cfg, cfg_ok o cfg ->
  fold_left (fun acc k => match acc with
                          | PErr e => PErr e
                          | POk (st, inp) => parse_opt o k st inp
                          end) ks (lift_cfg rest cfg)
  = lift_cfg rest (fold_left (fun cfg k => astep k cfg) ks cfg).
Proof.
  intros Hr. induction ks as [|k ks IH]; intros cfg Hc; [reflexivity|]. cbn [fold_left].
  rewrite <- (IH (astep k cfg) (astep_ok o k cfg Hc)). f_equal.
  destruct cfg as [[st ois]|e]; [exact (parse_opt_sim o rest k st ois Hc Hr)|reflexivity].
Qed.

Definition arun (ois : list oitem) : presult (opts * list oitem) :=
  fold_left (fun cfg k => astep k cfg) four_passes (POk (empty_opts, ois)).

Lemma parse_options_pinned_sim o rest ois :
  not_opt_start rest -> Forall (payload_ok o) ois ->
  parse_options_pinned o (render_opts ois ++ rest) = lift_cfg rest (arun ois).
Proof. intros Hr Hp. exact (opt_seq_sim o rest Hr four_passes (POk (empty_opts, ois)) Hp). Qed.

(* `astep` looks at the keys only.  The same loop on keys: `seen` are the keys consumed so far, `todo` those left. *)
Definition kstep (k : optk) (cfg : presult (list optk * list optk)) : presult (list optk * list optk) :=
  match cfg with
  | POk (seen, k' :: todo) =>
      if optk_eqb k k' then
        if existsb (optk_eqb k) seen then PErr (EOptionTwice k) else POk (seen ++ [k'], todo)
      else cfg
  | _ => cfg
  end.

Definition krun (ks : list optk) : presult (list optk * list optk) :=
  fold_left (fun cfg k => kstep k cfg) four_passes (POk ([], ks)).

Definition ksim (ois : list oitem) (ci : presult (opts * list oitem)) (ck : presult (list optk * list optk)) : Prop :=
  match ci, ck with
  | POk (st, post), POk (seen, todo) =>
      exists pre, ois = pre ++ post /\ st = opts_of pre /\ seen = keys pre /\ todo = keys post
  | PErr e, PErr e' => e = e'
  | _, _ => False
  end.

Lemma astep_sim ois k ci ck : ksim ois ci ck -> ksim ois (astep k ci) (kstep k ck).
Proof.
  destruct ci as [[st post]|e], ck as [[seen todo]|e']; cbn [ksim]; try contradiction; [|auto].
  intros (pre & Ho & -> & -> & ->). destruct post as [|oi r]; cbn [astep kstep keys map].
  - exists pre. auto.
  - destruct (optk_eqb k (oi_k oi)); [|exists pre; auto].
    rewrite opt_is_set_opts_of. destruct (existsb (optk_eqb k) (keys pre)); [reflexivity|].
    exists (pre ++ [oi]). unfold opts_of, keys. rewrite <- app_assoc, fold_left_app, map_app. auto.
Qed.

Lemma arun_sim ois : ksim ois (arun ois) (krun (keys ois)).
Proof.
  unfold arun, krun.
  assert (H : ksim ois (POk (empty_opts, ois)) (POk ([], keys ois))) by (exists []; auto).
  revert H. generalize (POk (empty_opts, ois)) (POk ([] : list optk, keys ois)).
  induction four_passes as [|k ks IH]; intros ci ck H; [exact H|]. apply IH, astep_sim, H.
Qed.

Lemma distinct_NoDup ks : distinct ks = true -> NoDup ks.
Proof.
  induction ks as [|k r IH]; intros H; [constructor|]. cbn in H. apply andb_true_iff in H as [H1 H2].
  constructor; [|auto]. intros Hin. apply existsb_optk in Hin. rewrite Hin in H1. discriminate.
Qed.

Lemma distinct_length ks : distinct ks = true -> List.length ks <= 4.
Proof.
  intros H. apply distinct_NoDup in H.
  apply (NoDup_incl_length (l' := pass_order) H).
  intros k _. destruct k; cbn; auto.
Qed.

(* all key lists of length <= n *)
Fixpoint key_lists (n : nat) : list (list optk) :=
  [] :: match n with
        | 0 => []
        | S n' => flat_map (fun ks => map (fun k => k :: ks) pass_order) (key_lists n')
        end.

Lemma in_key_lists n : forall ks, List.length ks <= n -> In ks (key_lists n).
Proof.
  induction n as [|n IH]; intros [|k ks] H; try (left; reflexivity); cbn [List.length] in H; [lia|].
  right. apply in_flat_map. exists ks. split; [apply IH; lia|].
  apply (in_map (fun k0 => k0 :: ks) pass_order k). destruct k; cbn; auto.
Qed.

Definition optk_eq_dec (a b : optk) : {a = b} + {a <> b}.
Proof. decide equality. Defined.

(* the one shape of a duplicated option that the four passes do not notice (finding P2) *)
Definition escaping (ks : list optk) (k : optk) : Prop :=
  ks = [OLazy; OTranspose; OJoiner; OFcp] /\ k = OFcp.

(* the two outcomes of a run that matter: everything consumed; stopped at a second occurrence of kd *)
Definition consumed (r : presult (list optk * list optk)) : bool :=
  match r with POk (_, []) => true | _ => false end.
Definition twice (kd : optk) (r : presult (list optk * list optk)) : bool :=
  match r with PErr (EOptionTwice k) => optk_eqb k kd | _ => false end.
Definition escapingb (ks : list optk) (kd : optk) : bool :=
  if list_eq_dec optk_eq_dec ks [OLazy; OTranspose; OJoiner; OFcp] then optk_eqb kd OFcp else false.

Lemma consumed_true r : consumed r = true -> exists seen, r = POk (seen, []).
Proof. destruct r as [[seen [|? ?]]|]; try discriminate. exists seen. reflexivity. Qed.

Lemma twice_true kd r : twice kd r = true -> r = PErr (EOptionTwice kd).
Proof. destruct r as [?|[]]; try discriminate. intros H. apply optk_eqb_eq in H. now subst. Qed.

Lemma escapingb_true ks kd : escapingb ks kd = true -> escaping ks kd.
Proof.
  unfold escapingb. destruct (list_eq_dec optk_eq_dec ks _) as [->|]; [|discriminate].
  intros H. split; [reflexivity|apply optk_eqb_eq, H].
Qed.

(* A finite fact, checked by running the loop: a list of distinct keys has at most four elements, and of the
   1 + 4 + 16 + 64 + 256 = 341 key lists of length <= 4 the 65 distinct ones are run, alone and followed by a
   repetition of each of their keys. *)
Definition four_passes_ok : bool :=
  forallb (fun ks => consumed (krun ks) && forallb (fun kd => twice kd (krun (ks ++ [kd])) || escapingb ks kd) ks)
          (filter distinct (key_lists 4)).

Lemma four_passes_ok_true : four_passes_ok = true.
Proof. vm_compute. reflexivity. Qed.

(* `krun ks` stays folded throughout (hence `consumed_true`, `twice_true` about a variable): were it unfolded in a
   hypothesis, the kernel would have to compare two stuck 16-step runs on the open list, which is exponential. *)
Lemma krun_distinct ks :
  distinct ks = true ->
  (exists seen, krun ks = POk (seen, [])) /\
  (forall kd, In kd ks -> ~ escaping ks kd -> krun (ks ++ [kd]) = PErr (EOptionTwice kd)).
Proof.
  intros Hd. pose proof four_passes_ok_true as T. unfold four_passes_ok in T.
  rewrite forallb_forall in T. specialize (T ks).
  apply andb_true_iff in T as [Tc Tn]; [|apply filter_In; split; [apply in_key_lists, distinct_length, Hd|exact Hd]].
  split; [exact (consumed_true _ Tc)|].
  intros kd Hin Hesc. rewrite forallb_forall in Tn. apply Tn, orb_true_iff in Hin as [Tk|Tk].
  - exact (twice_true _ _ Tk).
  - destruct (Hesc (escapingb_true _ _ Tk)).
Qed.

(* every permutation of every subset of the four options (65 sequences), arbitrary payloads *)
Lemma arun_distinct ois : distinct (keys ois) = true -> arun ois = POk (opts_of ois, []).
Proof.
  intros H. pose proof (arun_sim ois) as S. destruct (krun_distinct _ H) as [[seen Hk] _]. rewrite Hk in S.
  destruct (arun ois) as [[st post]|]; [|contradiction]. destruct S as (pre & -> & -> & _ & Hp).
  destruct post; [|discriminate Hp]. now rewrite app_nil_r.
Qed.

(* `parse_options_pinned` accepts every permutation of every subset as well *)
Theorem options_any_order_pinned o ois rest :
  distinct (keys ois) = true -> Forall (payload_ok o) ois -> not_opt_start rest ->
  parse_options_pinned o (render_opts ois ++ rest) = POk (opts_of ois, rest).
Proof.
  intros Hd Hp Hr. rewrite (parse_options_pinned_sim o rest ois Hr Hp), (arun_distinct ois Hd). reflexivity.
Qed.

Print Assumptions options_any_order_pinned.

Lemma arun_duplicate ois dup :
  distinct (keys ois) = true -> In (oi_k dup) (keys ois) -> ~ escaping (keys ois) (oi_k dup) ->
  arun (ois ++ [dup]) = PErr (EOptionTwice (oi_k dup)).
Proof.
  intros H Hin Hesc. pose proof (arun_sim (ois ++ [dup])) as S. unfold keys in *. rewrite map_app in S.
  destruct (krun_distinct _ H) as [_ Hk]. cbn [map] in S. rewrite (Hk _ Hin Hesc) in S.
  destruct (arun (ois ++ [dup])) as [[? ?]|e]; [contradiction|]. now rewrite S.
Qed.

(* the pinned loop rejects a duplicated option behind distinct ones - with exactly one exception *)
Theorem duplicate_option_rejected_pinned o ois dup rest :
  distinct (keys ois) = true -> In (oi_k dup) (keys ois) -> ~ escaping (keys ois) (oi_k dup) ->
  Forall (payload_ok o) (ois ++ [dup]) -> not_opt_start rest ->
  parse_options_pinned o (render_opts (ois ++ [dup]) ++ rest) = PErr (EOptionTwice (oi_k dup)).
Proof.
  intros Hd Hin Hesc Hp Hr.
  rewrite (parse_options_pinned_sim o rest _ Hr Hp), (arun_duplicate ois dup Hd Hin Hesc). reflexivity.
Qed.

(* ... and the exception: `lazy_branches(..) transpose_results(..) custom_joiner(..) futures_crate_path(..)` use up
   the four passes; a second `futures_crate_path(..)` is then NOT seen by the option loop and is left in the input,
   where it is parsed as the first branch (a call expression).  The full C15/C16 statement "each duplicate is
   rejected" is therefore refuted for the model of the pinned code (see also `duplicate_accepted_example_pinned`). *)
Theorem duplicate_option_escapes o cl ct cj cf cf' rest :
  let ois := [mkOItem OLazy cl; mkOItem OTranspose ct; mkOItem OJoiner cj; mkOItem OFcp cf] in
  Forall (payload_ok o) (ois ++ [mkOItem OFcp cf']) -> not_opt_start rest ->
  parse_options_pinned o (render_opts (ois ++ [mkOItem OFcp cf']) ++ rest) =
  POk (opts_of ois, render_opt (mkOItem OFcp cf') ++ rest).
Proof.
  intros ois Hp Hr. rewrite (parse_options_pinned_sim o rest _ Hr Hp). reflexivity.
Qed.

Print Assumptions duplicate_option_rejected_pinned.
Print Assumptions duplicate_option_escapes.


(* the pinned loop on the witness: the repeated option is left in the input (where `main_loop` reads it as a branch) *)
Example duplicate_accepted_example_pinned :
  parse_options_pinned toy p2_tokens =
  POk (mkOpts (Some [I "f"]) (Some [I "j"]) (Some true) (Some true) false, opt "futures_crate_path" [I "f"] ++ [COMMA; I "a"]).
Proof. vm_compute. reflexivity. Qed.

End PinnedProps.

Print Assumptions PinnedProps.rotation_defeats_longest_match.
