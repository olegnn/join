(* A thread-spawning macro gives the caller what its plain counterpart gives, under EVERY schedule.

   `join_spawn!` / `try_join_spawn!` (Spec.v: `is_spawn = true`, sync kinds) run every step with more
   than one active branch as: one `thread_builder` per branch, the captures, one named thread per
   branch, `.join().unwrap()` in branch order.  `join!` / `try_join!` run the chains in place.
   This file proves, for the WHOLE computation `spec` assigns to a program, run on the thread machine
   of Threads.v under an arbitrary schedule:

      if the caller (thread 0) is finished, its outcome is the outcome of the plain program,
      evaluated sequentially on the caller by the structural big-step evaluator `eval`.

   World.  User code is deterministic and does not communicate between branches:
   the answer to an event depends on the event only (`stateless`, below).  The world may have any
   state it likes (a log, a counter, ...) as long as ANSWERS do not read it.
   Why this is the weakest natural hypothesis: if an answer may depend on a state that another
   branch's event changed, the branches of the thread kind race on that state while the plain kind
   runs them left to right; `ThreadsProps.ExBlock` is such a world (a shared counter): two
   schedules give two different results there, so no schedule-independent statement can hold.
   (With one state component per thread NAME, `ThreadsProps.pw_handle`, runs are schedule
   independent, but the plain program runs every branch on the CALLER's component, so the thread
   kind and the plain kind differ as soon as two branches touch "their" state.)
   Likewise a user expression that reads `thread::current().name()` sees "<caller>_join_<i>" in the
   thread kind and the caller's name in the plain kind: user code must not make `EThreadName`
   events (`ucode`).

   Proof idea.  Children of a flat program (`flatc`: bodies of spawned threads contain no thread
   operation) never spawn, so the caller is the only spawner and handles are deterministic: thread
   i is the i-th thread the caller spawned.  `evalT` evaluates caller code against the list `rs` of
   the outcomes its children WILL have (`eval` of their bodies: nobody can influence them).
   `option_map fst (evalT nm code_0 rs)` is an invariant of every machine step (section Machine).
   The rest is equational: `evalT` of the thread step = `eval` of the plain step (`sim_thread_step`),
   lifted through `steps` / `run_body` / `spec` by one structural walk (`sim`; the walk itself is
   `SpecCode.walk_program`, shared with SpecSpawnNested.v where user code may spawn threads itself). *)
From Coq Require Import ZArith Lia.
From Join Require Import Tok Ast Comp Std Spec Leaves SpecProps Threads ThreadsProps SpecCode.
Import ListNotations.

Local Notation top := (fun _ => True).

Fixpoint ucode {A} (Q : A -> Prop) (c : comp A) : Prop :=
  match c with
  | Ret a => Q a
  | Panic _ => True
  | Vis e k => e <> EThreadName /\ forall v, ucode Q (k v)
  | Spawn _ _ _ | Join _ _ => False
  end.

Fixpoint nothr {A} (c : comp A) : Prop :=
  match c with
  | Ret _ | Panic _ => True
  | Vis _ k => forall v, nothr (k v)
  | Spawn _ _ _ | Join _ _ => False
  end.

Fixpoint flatc {A} (Q : A -> Prop) (c : comp A) : Prop :=
  match c with
  | Ret a => Q a
  | Panic _ => True
  | Vis _ k => forall v, flatc Q (k v)
  | Spawn _ t k => ucode top t /\ forall h, flatc Q (k h)
  | Join _ k => forall r, flatc Q (k r)
  end.

Lemma ucode_weaken {A} (Q R : A -> Prop) (c : comp A) : (forall a, Q a -> R a) -> ucode Q c -> ucode R c.
Proof.
  intros HQ. induction c as [A a|A n|A e k IH|A name t IHt k IH|A h k IH]; cbn; auto.
  intros [He Hk]. split; eauto.
Qed.

Lemma ucode_bind {A B} (Q : A -> Prop) (R : B -> Prop) (c : comp A) (f : A -> comp B) :
  ucode Q c -> (forall a, Q a -> ucode R (f a)) -> ucode R (bind c f).
Proof.
  intros Hc Hf. induction c as [A a|A n|A e k IH|A name t IHt k IH|A h k IH]; cbn in *; auto; try contradiction.
  destruct Hc as [He Hk]. split; eauto.
Qed.

(* `ucode` is a class of code in the sense of SpecCode.v: every piece of a sync program outside
   the thread step is `ucode` when the user's code is (lemmas `SpecCode.cls_*`) *)
Lemma ucode_class : code_class (@ucode).
Proof.
  split.
  - intros A Q a Ha. exact Ha.
  - intros A Q n. exact I.
  - intros A Q e k He Hk. split; assumption.
  - intros A B Q R c f. apply ucode_bind.
Qed.

Lemma ucode_least cls (CC : code_class cls) {A} (c : comp A) : forall Q, ucode Q c -> cls A Q c.
Proof.
  induction c as [A a|A n|A e k IH|A name t IHt k IH|A h k IH]; cbn; intros Q Hc; try contradiction.
  - apply (cc_ret _ CC), Hc.
  - apply (cc_panic _ CC).
  - destruct Hc as [He Hk]. apply (cc_vis _ CC); auto.
Qed.

Lemma ucode_mapM {A B} (Q : B -> Prop) (f : A -> comp B) (l : list A) :
  (forall x, In x l -> ucode Q (f x)) -> ucode (Forall Q) (mapM f l).
Proof. apply c_mapM, code_call_class, ucode_class. Qed.

Lemma ucode_nothr {A} (Q : A -> Prop) (c : comp A) : ucode Q c -> nothr c.
Proof. induction c as [A a|A n|A e k IH|A name t IHt k IH|A h k IH]; cbn; auto. intros [_ Hk] v. eauto. Qed.

Lemma ucode_leaves {A} (Q : A -> Prop) (c : comp A) : ucode Q c -> leaves c Q.
Proof. induction c as [A a|A n|A e k IH|A name t IHt k IH|A h k IH]; cbn; auto; try tauto. intros [_ Hk] v. eauto. Qed.

Lemma ucode_tstep (c c' : comp val) : ucode top c -> tstep c c' -> ucode top c'.
Proof.
  intros Hu Hst. destruct Hst as [e k r|name t k h|h k r]; cbn in Hu; try contradiction.
  destruct Hu as [_ Hk]. destruct r; cbn; auto.
Qed.

Lemma nothr_bind {A B} (c : comp A) (f : A -> comp B) : nothr c -> (forall a, nothr (f a)) -> nothr (bind c f).
Proof. intros Hc Hf. induction c as [A a|A n|A e k IH|A name t IHt k IH|A h k IH]; cbn in *; eauto. Qed.

Lemma nothr_builders acts : nothr (mapM (fun b => thread_builder (Z.of_nat b)) acts).
Proof.
  induction acts as [|b acts IH]; cbn [mapM]; [exact I|].
  apply nothr_bind; [|intros; apply nothr_bind; [exact IH|intros; exact I]].
  cbn. intros v. destruct (tb_name v (Z.of_nat b)); exact I.
Qed.

Lemma flat_weaken {A} (Q R : A -> Prop) (c : comp A) : (forall a, Q a -> R a) -> flatc Q c -> flatc R c.
Proof.
  intros HQ. induction c as [A a|A n|A e k IH|A name t IHt k IH|A h k IH]; cbn; eauto.
  intros [Ht Hk]. split; eauto.
Qed.

Lemma flat_bind {A B} (Q : A -> Prop) (R : B -> Prop) (c : comp A) (f : A -> comp B) :
  flatc Q c -> (forall a, Q a -> flatc R (f a)) -> flatc R (bind c f).
Proof.
  intros Hc Hf. induction c as [A a|A n|A e k IH|A name t IHt k IH|A h k IH]; cbn in *; eauto.
  destruct Hc as [Ht Hk]. split; eauto.
Qed.

Lemma flatc_class : code_class (@flatc).
Proof. split; cbn; auto. intros A B Q R c f. apply flat_bind. Qed.

Lemma ucode_flat {A} (Q : A -> Prop) (c : comp A) : ucode Q c -> flatc Q c.
Proof. apply ucode_least, flatc_class. Qed.

Lemma flat_mapM {A B} (Q : B -> Prop) (f : A -> comp B) (l : list A) :
  (forall x, In x l -> flatc Q (f x)) -> flatc (Forall Q) (mapM f l).
Proof. apply c_mapM, code_call_class, flatc_class. Qed.

Lemma nothr_flat {A} (c : comp A) : nothr c -> flatc top c.
Proof. induction c as [A a|A n|A e k IH|A name t IHt k IH|A h k IH]; cbn; eauto; contradiction. Qed.

(* well-scoped joins (`ThreadsProps.ws`, for any result type, with the handles that are in scope at
   the end): needed only for "a fair schedule finishes" *)
Fixpoint wsq {A} (Q : A -> list nat -> Prop) (c : comp A) (H : list nat) : Prop :=
  match c with
  | Ret a => Q a H
  | Panic _ => True
  | Vis _ k => forall v, wsq Q (k v) H
  | Spawn _ t k => ws t [] /\ forall i, wsq Q (k i) (i :: H)
  | Join i k => In i H /\ forall r, wsq Q (k r) H
  end.
Definition wsd {A} (Q : A -> Prop) (c : comp A) : Prop :=
  forall H, wsq (fun a H' => Q a /\ incl H H') c H.

Lemma wsq_weaken {A} (Q R : A -> list nat -> Prop) (c : comp A) :
  (forall a H, Q a H -> R a H) -> forall H, wsq Q c H -> wsq R c H.
Proof.
  intros HQ. induction c as [A a|A n|A e k IH|A name t IHt k IH|A i k IH]; cbn; intros H Hc; eauto.
  - destruct Hc as [Ht Hk]. split; eauto.
  - destruct Hc as [Hi Hk]. split; eauto.
Qed.

Lemma wsq_bind {A B} (Q : A -> list nat -> Prop) (R : B -> list nat -> Prop) (c : comp A) (f : A -> comp B) :
  (forall a H, Q a H -> wsq R (f a) H) -> forall H, wsq Q c H -> wsq R (bind c f) H.
Proof.
  intros Hf. induction c as [A a|A n|A e k IH|A name t IHt k IH|A i k IH]; cbn; intros H Hc; eauto.
  - destruct Hc as [Ht Hk]. split; eauto.
  - destruct Hc as [Hi Hk]. split; eauto.
Qed.

Lemma wsd_bind {A B} (Q : A -> Prop) (R : B -> Prop) (c : comp A) (f : A -> comp B) :
  wsd Q c -> (forall a, Q a -> wsd R (f a)) -> wsd R (bind c f).
Proof.
  intros Hc Hf H. eapply wsq_bind; [|apply Hc]. intros a H' [Qa Hi].
  eapply wsq_weaken; [|apply (Hf a Qa H')]. intros b H'' [Rb Hi']. split; [exact Rb|].
  eapply incl_tran; eauto.
Qed.

Lemma nothr_wsd {A} (Q : A -> Prop) (c : comp A) : nothr c -> leaves c Q -> wsd Q c.
Proof.
  intros Hn Hl H. induction c as [A a|A n|A e k IH|A name t IHt k IH|A i k IH]; cbn in *; eauto; try contradiction.
  split; [exact Hl|apply incl_refl].
Qed.

Lemma ucode_wsd {A} (Q : A -> Prop) (c : comp A) : ucode Q c -> wsd Q c.
Proof. intros Hc. apply nothr_wsd; [eapply ucode_nothr; eauto|apply ucode_leaves, Hc]. Qed.

Lemma wsq_ws (c : comp val) : forall H, wsq (fun _ _ => True) c H -> ws c H.
Proof.
  induction c as [v|n|e k IH|name t k IHt IH|i k IH] using comp_val_ind; cbn; intros H Hc; auto.
  - destruct Hc as [Ht Hk]. split; auto.
  - destruct Hc as [Hi Hk]. split; auto.
Qed.

Lemma ucode_ws (Q : val -> Prop) (c : comp val) H : ucode Q c -> ws c H.
Proof.
  intros Hc. apply wsq_ws. eapply wsq_weaken; [|apply (ucode_wsd Q c Hc H)]. auto.
Qed.

Definition handle_in (H : list nat) (v : val) : Prop := match v with VHandle i => In i H | _ => True end.

Lemma wsq_spawn_all (child : nat -> comp val) (l : list (dval * nat)) :
  (forall b, ws (child b) []) ->
  forall H, wsq (fun ds H' => incl H H' /\ Forall (fun d => match d with DV v => handle_in H' v | _ => True end) ds)
                (mapM (std_spawn_one child) l) H.
Proof.
  intros Hch. induction l as [|[d b] l IH]; intros H; cbn [mapM].
  - cbn. split; [apply incl_refl|constructor].
  - unfold std_spawn_one at 1. cbn [fst snd]. destruct d; try exact I.
    cbn. split; [apply Hch|]. intros i.
    eapply wsq_bind; [|apply IH]. intros ds H' [Hi Hds]. cbn. split.
    + intros x Hx. apply Hi. now right.
    + constructor; [cbn; apply Hi; now left|exact Hds].
Qed.

Lemma wsq_join_all (l : list val) H :
  Forall (handle_in H) l -> wsq (fun _ H' => H' = H) (mapM std_join_one l) H.
Proof.
  induction 1 as [|v l Hv _ IH]; cbn [mapM]; [reflexivity|].
  eapply wsq_bind with (Q := fun _ H' => H' = H).
  - intros y H' ->. eapply wsq_bind; [|exact IH]. intros ys H' ->. reflexivity.
  - unfold std_join_one. destruct v; try exact I. cbn. split; [exact Hv|].
    intros [w|]; cbn; [reflexivity|exact I].
Qed.

Lemma wsd_thread_step {C} (Q : dval -> Prop) acts (caps : comp C) (child : C -> nat -> comp val) :
  ucode top caps -> (forall cp b, ucode top (child cp b)) -> (forall v, Q (DV v)) ->
  wsd Q (std_thread_step acts caps child).
Proof.
  intros Hcaps Hchild HQ. unfold std_thread_step.
  eapply wsd_bind with (Q := top).
  { apply nothr_wsd; [apply nothr_builders|apply leaves_true]. }
  intros builders _. eapply wsd_bind; [apply ucode_wsd, Hcaps|]. intros cp _ H.
  unfold std_spawn_join.
  eapply wsq_bind; [|apply wsq_spawn_all; intros b; eapply ucode_ws, Hchild].
  intros handles H' [Hi Hall].
  eapply wsq_bind with (Q := fun hs H'' => H'' = H' /\ Forall (handle_in H') (match hs with DV (VTuple l) => l | _ => [] end)).
  2:{ unfold vals_tuple. destruct (all_vals handles) as [vs|] eqn:E; [|exact I]. cbn. split; [reflexivity|].
      apply all_vals_map in E. subst handles. rewrite Forall_forall in Hall |- *. intros v Hv.
      apply (Hall (DV v)). now apply in_map. }
  intros hs H'' [-> Hf].
  eapply wsq_bind; [|apply wsq_join_all, Hf]. intros vs H3 ->. cbn. split; [apply HQ|exact Hi].
Qed.

Notation dval_ok := (dval_okC (@ucode)).

(* THE HYPOTHESIS ON USER CODE (`SpecCode.user_codeC` at the class `ucode`): methods, field/method
   tokens, calls and awaits are events only (no thread operation, no look at the thread's name) and
   hand back such values, provided the closures they are given are.  Instance: `ExSpawn.user_code_ex`. *)
Notation user_code := (user_codeC (@ucode)).

Lemma ucode_std_map d f : dval_ok d -> (forall vs, ucode top (f vs)) -> ucode dval_ok (std_map d f).
Proof. apply cls_std_map, code_call_class, ucode_class. Qed.

Section World.
  (* the stateless world: the answer of user code to an event (None = the user code panics) *)
  Variable h : ev -> option val.

  Definition ans (nm : option string) (e : ev) : option val :=
    match e with EThreadName => Some (name_val nm) | _ => h e end.

  (* THE REFERENCE: sequential evaluation on one thread named nm; None = panic.
     Thread operations have no sequential meaning (None); they do not occur in plain programs. *)
  Fixpoint eval {A} (nm : option string) (c : comp A) : option A :=
    match c with
    | Ret a => Some a
    | Panic _ => None
    | Vis e k => match ans nm e with Some v => eval nm (k v) | None => None end
    | Spawn _ _ _ | Join _ _ => None
    end.

  (* caller code with thread operations, against the outcomes rs of the threads spawned so far
     (index = handle; entry 0 stands for the caller itself) *)
  Fixpoint evalT {A} (nm : option string) (c : comp A) (rs : list (option val)) : option (A * list (option val)) :=
    match c with
    | Ret a => Some (a, rs)
    | Panic _ => None
    | Vis e k => match ans nm e with Some v => evalT nm (k v) rs | None => None end
    | Spawn name t k => evalT nm (k (List.length rs)) (rs ++ [eval (Some name) t])
    | Join i k => match nth_error rs i with Some r => evalT nm (k r) rs | None => None end
    end.

  Lemma eval_bind {A B} nm (c : comp A) (f : A -> comp B) :
    eval nm (bind c f) = match eval nm c with Some a => eval nm (f a) | None => None end.
  Proof.
    induction c as [A a|A n|A e k IH|A name t IHt k IH|A i k IH]; cbn; auto.
    destruct (ans nm e); auto.
  Qed.

  Lemma evalT_bind {A B} nm (c : comp A) (f : A -> comp B) : forall rs,
    evalT nm (bind c f) rs = match evalT nm c rs with Some (a, rs') => evalT nm (f a) rs' | None => None end.
  Proof.
    induction c as [A a|A n|A e k IH|A name t IHt k IH|A i k IH]; cbn; intros rs; auto.
    - destruct (ans nm e); auto.
    - destruct (nth_error rs i); auto.
  Qed.

  Lemma evalT_nothr {A} nm (c : comp A) rs :
    nothr c -> evalT nm c rs = option_map (fun a => (a, rs)) (eval nm c).
  Proof.
    induction c as [A a|A n|A e k IH|A name t IHt k IH|A i k IH]; cbn; intros Hc; auto; try contradiction.
    destruct (ans nm e); auto.
  Qed.

  Lemma eval_name {A} (Q : A -> Prop) nm nm' (c : comp A) : ucode Q c -> eval nm c = eval nm' c.
  Proof.
    induction c as [A a|A n|A e k IH|A name t IHt k IH|A i k IH]; cbn; intros Hc; auto.
    destruct Hc as [He Hk]. destruct e; try congruence; cbn; destruct (h _); eauto.
  Qed.

  Lemma eval_post {A} (Q : A -> Prop) nm (c : comp A) a : leaves c Q -> eval nm c = Some a -> Q a.
  Proof.
    induction c as [A a'|A n|A e k IH|A name t IHt k IH|A i k IH]; cbn; intros Hc E; try discriminate.
    - injection E as <-. exact Hc.
    - destruct (ans nm e) as [v|]; [|discriminate]. apply (IH v Q a (Hc v) E).
  Qed.

  Lemma eval_mapM {A B} nm (f : A -> comp B) (l : list A) :
    eval nm (mapM f l) = all_some (map (fun x => eval nm (f x)) l).
  Proof.
    induction l as [|x l IH]; cbn [mapM map all_some]; [reflexivity|].
    rewrite eval_bind. destruct (eval nm (f x)) as [y|]; [|reflexivity].
    rewrite eval_bind, IH. destruct (all_some _); reflexivity.
  Qed.

  Lemma eval_vis_next nm e (k : val -> comp val) : eval nm (Vis e k) = eval nm (vis_next k (ans nm e)).
  Proof. cbn. destruct (ans nm e); reflexivity. Qed.

  Lemma evalT_vis_next nm e (k : val -> comp val) rs : evalT nm (Vis e k) rs = evalT nm (vis_next k (ans nm e)) rs.
  Proof. cbn. destruct (ans nm e); reflexivity. Qed.

  Section Machine.
    Variable W : Type.
    Variable handle : option string -> ev -> W -> option val * W.
    Definition stateless : Prop := forall nm e w, fst (handle nm e w) = h e.
    Hypothesis Hstateless : stateless.
    Variable nm : option string.

    Lemma answer_ans n e w : fst (answer handle n e w) = ans n e.
    Proof. destruct e; cbn; auto. Qed.

    Definition minv (R : option val) (s : Threads.state W) : Prop :=
      exists th0 rs,
        nth_error (pool s) 0 = Some th0 /\ th_name th0 = nm /\ flatc top (th_code th0) /\
        List.length rs = List.length (pool s) /\
        option_map fst (evalT nm (th_code th0) rs) = R /\
        forall i th, i <> 0 -> nth_error (pool s) i = Some th ->
                     ucode top (th_code th) /\ nth_error rs i = Some (eval (th_name th) (th_code th)).

    Lemma step_frame i s s' x thx :
      step_rel W handle i s s' -> List.length (pool s') = List.length (pool s) -> x <> i ->
      nth_error (pool s') x = Some thx -> nth_error (pool s) x = Some thx.
    Proof.
      intros Hst El Hx Hthx. rewrite <- Hthx. symmetry. apply (step_other W handle i s s' x Hst Hx).
      rewrite <- El. eapply nth_error_Some_lt, Hthx.
    Qed.

    Lemma answer_fst n e w r w' : answer handle n e w = (r, w') -> r = ans n e.
    Proof. intros Ha. rewrite <- (answer_ans n e w), Ha. reflexivity. Qed.

    Lemma minv_intro R i s s' th0 rs :
      step_rel W handle i s s' -> List.length (pool s') = List.length (pool s) ->
      nth_error (pool s') 0 = Some th0 -> th_name th0 = nm -> flatc top (th_code th0) ->
      List.length rs = List.length (pool s) -> option_map fst (evalT nm (th_code th0) rs) = R ->
      (forall x th, x <> 0 -> nth_error (pool s) x = Some th ->
                    ucode top (th_code th) /\ nth_error rs x = Some (eval (th_name th) (th_code th))) ->
      (i <> 0 -> forall th, nth_error (pool s') i = Some th ->
                    ucode top (th_code th) /\ nth_error rs i = Some (eval (th_name th) (th_code th))) ->
      minv R s'.
    Proof.
      intros Hst El E0 Hnm Hfl Hlen HR Hch Hi. exists th0, rs. rewrite El.
      split; [exact E0|]. split; [exact Hnm|]. split; [exact Hfl|]. split; [exact Hlen|]. split; [exact HR|].
      intros x thx Hx Hthx. destruct (Nat.eq_dec x i) as [->|Hne]; [exact (Hi Hx thx Hthx)|].
      apply (Hch x thx Hx), (step_frame i s s' x thx Hst El Hne Hthx).
    Qed.

    Lemma minv_step R i s s' : minv R s -> step_rel W handle i s s' -> minv R s'.
    Proof.
      intros (th0 & rs & H0 & Hnm & Hfl & Hlen & HR & Hch) Hst.
      destruct (Nat.eq_dec i 0) as [->|Hi].
      - pose proof (step_inv W handle 0 s s' th0 Hst H0) as Hinv.
        destruct (th_code th0) as [v|m|e k|name t k|j k] eqn:Hc; try contradiction.
        + (* an event: `evalT` reads the same answer *)
          destruct Hinv as (r & w' & Ha & Es). apply answer_fst in Ha. rewrite Hnm in Ha. subst r.
          destruct (thr_upd W s s' 0 th0 _ (f_equal (@pool W) Es) H0) as [E0 El].
          apply (minv_intro R 0 s s' _ rs Hst El E0 Hnm); cbn [set_code th_code]; [|exact Hlen| |exact Hch|congruence].
          * destruct (ans nm e); [apply Hfl|exact I].
          * rewrite <- evalT_vis_next. exact HR.
        + (* a spawn: the new thread's outcome is predicted by `eval` of its body *)
          destruct (thr_upd_app W s s' 0 th0 _ _ (f_equal (@pool W) Hinv) H0) as (E0 & Enew & El).
          destruct Hfl as [Ht Hk]. cbn [evalT] in HR. rewrite Hlen in HR.
          exists (set_code th0 (k (List.length (pool s)))), (rs ++ [eval (Some name) t]).
          rewrite El, app_length, Hlen.
          split; [exact E0|]. split; [exact Hnm|]. split; [apply Hk|]. split; [cbn; lia|]. split; [exact HR|].
          intros x thx Hx Hthx.
          destruct (step_thr_inv W handle 0 s s' x thx Hst Hthx) as [(th & Hth & _ & _ & Hsame & _)|[-> _]].
          * rewrite (Hsame Hx). destruct (Hch _ _ Hx Hth) as [Hu Hr]. split; [exact Hu|].
            rewrite nth_error_app1 by (eapply nth_error_Some_lt; exact Hr). exact Hr.
          * unfold thr_of in Enew. rewrite Enew in Hthx. injection Hthx as <-.
            split; [exact Ht|]. rewrite <- Hlen. apply nth_error_app_new.
        + (* a join: the joined child is finished, so it holds `eval` of its body *)
          destruct Hinv as (r & (th' & Hth' & Ho) & Es).
          destruct (thr_upd W s s' 0 th0 _ (f_equal (@pool W) Es) H0) as [E0 El].
          assert (Hj : nth_error rs j = Some r).
          { destruct (Nat.eq_dec j 0) as [->|Hj].
            - unfold thr_of in Hth'. rewrite H0 in Hth'. injection Hth' as <-. rewrite Hc in Ho. discriminate.
            - destruct (Hch _ _ Hj Hth') as [_ Hr]. rewrite Hr. f_equal.
              destruct (th_code th'); cbn in Ho |- *; congruence. }
          cbn [evalT] in HR. rewrite Hj in HR.
          apply (minv_intro R 0 s s' _ rs Hst El E0 Hnm (Hfl r) Hlen HR Hch). congruence.
      - (* a child: it can only make an event, and `eval` of its code reads the same answer *)
        destruct (step_unfinished W handle i s s' Hst) as (th & Hth & _).
        destruct (Hch _ _ Hi Hth) as [Hu Hr].
        pose proof (step_inv W handle i s s' th Hst Hth) as Hinv.
        destruct (th_code th) as [v|m|e k|name t k|j k]; cbn in Hu; try contradiction.
        destruct Hinv as (r & w' & Ha & Es). apply answer_fst in Ha. subst r.
        destruct (thr_upd W s s' i th _ (f_equal (@pool W) Es) Hth) as [Ei El].
        apply (minv_intro R i s s' th0 rs Hst El); try assumption.
        + apply (eq_trans (step_other W handle i s s' 0 Hst (not_eq_sym Hi) (nth_error_Some_lt _ _ _ H0))), H0.
        + intros _ thi Hthi. unfold thr_of in Ei. rewrite Ei in Hthi. injection Hthi as <-. cbn [set_code th_name th_code].
          rewrite <- eval_vis_next. split; [destruct (ans (th_name th) e); [apply Hu|exact I]|exact Hr].
    Qed.

    Theorem flat_run_is_evalT (c : comp val) w sched :
      flatc top c ->
      let s := run_thr handle sched (init nm c w) in
      thr_finished 0 s = true -> result_of 0 s = Some (option_map fst (evalT nm c [None])).
    Proof.
      intros Hc s Hfin.
      assert (Hinv : minv (option_map fst (evalT nm c [None])) s).
      { apply (run_thr_invariant W handle (minv (option_map fst (evalT nm c [None])))).
        - intros i s1 s2. apply minv_step.
        - exists (mkThread nm None c), [None]. cbn.
          split; [reflexivity|]. split; [reflexivity|]. split; [exact Hc|]. split; [reflexivity|]. split; [reflexivity|].
          intros [|[|i]] th Hi Hth; cbn in Hth; [congruence|discriminate|discriminate]. }
      destruct Hinv as (th0 & rs & H0 & _ & _ & _ & HR & _).
      unfold thr_finished in Hfin. unfold result_of. rewrite H0 in *.
      destruct (th_code th0); cbn in *; try discriminate; rewrite <- HR; reflexivity.
    Qed.
  End Machine.

  Definition agrees {A} (nm : option string) (c1 c2 : comp A) : Prop :=
    forall rs, option_map fst (evalT nm c1 rs) = eval nm c2.

  Definition sim {A} (nm : option string) (Q : A -> Prop) (c1 c2 : comp A) : Prop :=
    flatc Q c1 /\ wsd Q c1 /\ ucode Q c2 /\ agrees nm c1 c2.

  Lemma sim_refl {A} nm (Q : A -> Prop) (c : comp A) : ucode Q c -> sim nm Q c c.
  Proof.
    intros Hc. split; [now apply ucode_flat|]. split; [now apply ucode_wsd|]. split; [exact Hc|].
    intros rs. rewrite evalT_nothr by (eapply ucode_nothr; eauto). destruct (eval nm c); reflexivity.
  Qed.

  Lemma sim_bind {A B} nm (Q : A -> Prop) (R : B -> Prop) (c1 c2 : comp A) (f1 f2 : A -> comp B) :
    sim nm Q c1 c2 -> (forall a, Q a -> sim nm R (f1 a) (f2 a)) -> sim nm R (bind c1 f1) (bind c2 f2).
  Proof.
    intros (Hfl & Hws & Hu & Hag) Hf. split; [|split; [|split]].
    - eapply flat_bind; [exact Hfl|]. intros a Ha. apply (Hf a Ha).
    - eapply wsd_bind; [exact Hws|]. intros a Ha. apply (Hf a Ha).
    - eapply ucode_bind; [exact Hu|]. intros a Ha. apply (Hf a Ha).
    - intros rs. rewrite evalT_bind, eval_bind. specialize (Hag rs).
      destruct (evalT nm c1 rs) as [[a rs']|]; cbn in Hag; rewrite <- Hag; [|reflexivity].
      assert (Ha : Q a) by (eapply eval_post; [apply ucode_leaves, Hu|symmetry; exact Hag]).
      apply (Hf a Ha).
  Qed.

  Lemma evalT_builders nm acts rs :
    evalT nm (mapM (fun b => thread_builder (Z.of_nat b)) acts) rs =
    Some (map (fun b => DBuilder (child_name nm b)) acts, rs).
  Proof.
    induction acts as [|b acts IH]; cbn [mapM map]; [reflexivity|].
    rewrite evalT_bind. unfold thread_builder at 1. cbn [evalT ans]. rewrite tb_name_child_name. cbn [evalT].
    rewrite evalT_bind, IH. reflexivity.
  Qed.

  Lemma evalT_spawn_all nm (name : nat -> string) (child : nat -> comp val) acts : forall rs,
    evalT nm (mapM (std_spawn_one child) (combine (map (fun b => DBuilder (name b)) acts) acts)) rs =
    Some (map (fun i => DV (VHandle i)) (seq (List.length rs) (List.length acts)),
          rs ++ map (fun b => eval (Some (name b)) (child b)) acts).
  Proof.
    induction acts as [|b acts IH]; intros rs; cbn [mapM map combine List.length seq].
    - now rewrite app_nil_r.
    - rewrite evalT_bind. unfold std_spawn_one at 1. cbn [fst snd]. unfold std_spawn. cbn [bind evalT std_unwrap].
      rewrite evalT_bind, IH. rewrite app_length. cbn [List.length]. rewrite Nat.add_1_r.
      cbn [evalT]. rewrite <- app_assoc. reflexivity.
  Qed.

  Lemma evalT_join_all nm rs hs outs :
    Forall2 (fun i r => nth_error rs i = Some r) hs outs ->
    evalT nm (mapM std_join_one (map VHandle hs)) rs = option_map (fun vs => (vs, rs)) (all_some outs).
  Proof.
    induction 1 as [|i r hs outs Hi _ IH]; cbn [mapM map all_some]; [reflexivity|].
    rewrite evalT_bind. unfold std_join_one at 1. unfold std_join. cbn [bind evalT]. rewrite Hi.
    destruct r as [v|]; cbn [evalT std_unwrap bind to_val]; [|reflexivity].
    rewrite evalT_bind, IH. destruct (all_some outs); reflexivity.
  Qed.

  Lemma all_some_vals (l : list (option dval)) :
    all_some (map (fun o => match o with Some (DV v) => Some v | _ => None end) l) =
    match all_some l with Some ds => all_vals ds | None => None end.
  Proof.
    induction l as [|[d|] l IH]; cbn [map all_some all_vals]; [reflexivity| |reflexivity].
    destruct d as [v|g|g|c|name| |]; try (destruct (all_some l); reflexivity).
    rewrite IH. destruct (all_some l) as [ds|]; [|reflexivity]. cbn [all_vals]. reflexivity.
  Qed.

  (* THE STEP: spawn one named thread per branch and join them in order = run the chains in place *)
  Lemma sim_thread_step {C} nm acts (caps : comp C) (child : C -> nat -> comp dval) :
    ucode top caps -> (forall cp b, ucode dval_ok (child cp b)) ->
    sim nm dval_ok
        (std_thread_step acts caps (fun cp b => let! d := child cp b in to_val d))
        (let! cp := caps in let! ds := mapM (child cp) acts in Spec.vals_tuple ds).
  Proof.
    intros Hcaps Hchild.
    assert (Hcv : forall cp b, ucode top (let! d := child cp b in to_val d)).
    { intros cp b. apply (cls_val _ (code_call_class _ ucode_class) dval_ok), Hchild. }
    split; [|split; [|split]].
    -
      unfold std_thread_step.
      eapply flat_bind with (Q := top).
      { apply nothr_flat, nothr_builders. }
      intros builders _. eapply flat_bind; [apply ucode_flat, Hcaps|]. intros cp _.
      unfold std_spawn_join.
      eapply flat_bind; [apply flat_mapM with (Q := top)|].
      { intros [d b] _. unfold std_spawn_one. cbn [fst snd]. destruct d; try exact I.
        cbn. split; [apply Hcv|]. intros i. exact I. }
      intros handles _. eapply flat_bind with (Q := top).
      { unfold vals_tuple. destruct (all_vals handles); exact I. }
      intros hs _. eapply flat_bind; [apply flat_mapM with (Q := top)|intros; exact I].
      intros v _. unfold std_join_one. destruct v; try exact I. cbn. intros [v|]; exact I.
    -
      apply wsd_thread_step; [exact Hcaps|exact Hcv|intros v; exact I].
    -
      eapply ucode_bind; [exact Hcaps|]. intros cp _.
      eapply ucode_bind; [apply ucode_mapM; intros b _; apply Hchild|]. intros ds _.
      unfold Spec.vals_tuple. destruct (all_vals ds); exact I.
    -
      intros rs. unfold std_thread_step.
      rewrite evalT_bind, evalT_builders, evalT_bind, eval_bind.
      rewrite evalT_nothr by (eapply ucode_nothr; eauto).
      destruct (eval nm caps) as [cp|]; cbn [option_map]; [|reflexivity].
      unfold std_spawn_join.
      rewrite evalT_bind, (evalT_spawn_all nm (child_name nm) (fun b => let! d := child cp b in to_val d)).
      rewrite evalT_bind. unfold vals_tuple at 1. rewrite all_vals_handles. cbn [evalT].
      rewrite evalT_bind.
      rewrite (evalT_join_all nm _ _ (map (fun b => eval (Some (child_name nm b)) (let! d := child cp b in to_val d)) acts)).
      2:{ pose proof (CompLaws.nth_error_seq_app (map (fun b => eval (Some (child_name nm b)) (let! d := child cp b in to_val d)) acts) rs) as H.
          rewrite map_length in H. exact H. }
      rewrite eval_bind, eval_mapM.
      assert (E : map (fun b => eval (Some (child_name nm b)) (let! d := child cp b in to_val d)) acts =
                  map (fun o => match o with Some (DV v) => Some v | _ => None end) (map (fun b => eval nm (child cp b)) acts)).
      { rewrite map_map. apply map_ext. intros b.
        rewrite (eval_name top _ nm) by apply Hcv. rewrite eval_bind.
        destruct (eval nm (child cp b)) as [d|]; [|reflexivity]. destruct d; reflexivity. }
      rewrite E, all_some_vals.
      destruct (all_some (map (fun b => eval nm (child cp b)) acts)) as [ds|]; cbn [option_map]; [|reflexivity].
      unfold Spec.vals_tuple. destruct (all_vals ds); reflexivity.
  Qed.

  Lemma sim_eq {A} nm (Q : A -> Prop) (c1 c2 : comp A) : c1 = c2 -> ucode Q c2 -> sim nm Q c1 c2.
  Proof. intros ->. apply sim_refl. Qed.

  Lemma sim_program msem dotsem callsem awaitsem (HU : user_code msem dotsem callsem awaitsem)
        (p : sprog) (Hsync : is_async (sp_cfg p) = false) (nm : option string) :
    sim nm top (let! d := spec msem dotsem callsem awaitsem (with_spawn true p) in to_val d)
               (let! d := spec msem dotsem callsem awaitsem (with_spawn false p) in to_val d).
  Proof.
    apply (walk_program (@ucode) ucode_class (fun A => @sim A nm)) with (okacts := top); try assumption.
    - intros A Q c. apply sim_refl.
    - intros A B Q R c1 c2 f1 f2. apply sim_bind.
    - intros C acts caps child _. apply sim_thread_step.
    - intros k. exact I.
  Qed.
End World.

(* neither world nor name is involved: `sim` is read at arbitrary ones *)
Lemma spec_spawn_ws msem dotsem callsem awaitsem (p : sprog) :
  user_code msem dotsem callsem awaitsem -> is_async (sp_cfg p) = false ->
  ws (let! d := spec msem dotsem callsem awaitsem (with_spawn true p) in to_val d) [].
Proof.
  intros HU Hsync.
  destruct (sim_program (fun _ => None) msem dotsem callsem awaitsem HU p Hsync None) as (_ & Hws & _ & _).
  apply wsq_ws. eapply wsq_weaken; [|apply (Hws [])]. auto.
Qed.

(* MAIN THEOREM.  p: any program of a sync kind; `with_spawn true p` is the thread-spawning macro
   (`join_spawn!` / `try_join_spawn!`), `with_spawn false p` its plain counterpart (`join!` /
   `try_join!`): same `is_try`, names, trees, handler.  The caller (thread 0, named nm) runs the
   macro and wants a value.  In a world whose answers depend on the event only, with user code
   that is events-only, under EVERY schedule: if the caller is finished, its outcome is the outcome
   of the plain program evaluated sequentially on the caller
   (`Some v` = returned v, `None` = panicked; compared are outcomes, not events or panic payloads). *)
Theorem spawn_macro_agrees_with_plain :
  forall (h : ev -> option val)
         (W : Type) (handle : option string -> ev -> W -> option val * W)
         msem dotsem callsem awaitsem (p : sprog) (nm : option string) (w : W) (sched : list nat),
    stateless h W handle ->
    user_code msem dotsem callsem awaitsem ->
    is_async (sp_cfg p) = false ->
    let spawn_prog := (let! d := spec msem dotsem callsem awaitsem (with_spawn true p) in to_val d) in
    let plain_prog := (let! d := spec msem dotsem callsem awaitsem (with_spawn false p) in to_val d) in
    let s := run_thr handle sched (init nm spawn_prog w) in
    thr_finished 0 s = true ->
    result_of 0 s = Some (eval h nm plain_prog).
Proof.
  intros h W handle msem dotsem callsem awaitsem p nm w sched Hw HU Hsync spawn_prog plain_prog s Hfin.
  destruct (sim_program h msem dotsem callsem awaitsem HU p Hsync nm) as (Hfl & _ & _ & Hag).
  unfold s. rewrite (flat_run_is_evalT h W handle Hw nm spawn_prog w sched Hfl Hfin).
  exact (f_equal Some (Hag [None])).
Qed.
Print Assumptions spawn_macro_agrees_with_plain.

(* A FAIR SCHEDULE FINISHES (`ThreadsProps.fair_schedule_finishes` applies: the macro's joins are
   well-scoped) - in ANY world: the round-robin, given enough fuel, ends with every thread finished. *)
Theorem spawn_macro_fair_run_finishes :
  forall (W : Type) (handle : option string -> ev -> W -> option val * W)
         msem dotsem callsem awaitsem (p : sprog) (nm : option string) (w : W),
    user_code msem dotsem callsem awaitsem ->
    is_async (sp_cfg p) = false ->
    let spawn_prog := (let! d := spec msem dotsem callsem awaitsem (with_spawn true p) in to_val d) in
    exists fuel, finished (run_fuel handle fuel (init nm spawn_prog w)) = true.
Proof.
  intros W handle msem dotsem callsem awaitsem p nm w HU Hsync spawn_prog.
  apply fair_schedule_finishes, ws_init, spec_spawn_ws; assumption.
Qed.
Print Assumptions spawn_macro_fair_run_finishes.

(* hence the statement is not vacuous for any program: some schedule (the round-robin) finishes
   the caller, and there - as under every other finishing schedule - it holds the plain outcome *)
Corollary spawn_macro_some_run_finishes_with_plain_outcome :
  forall (h : ev -> option val)
         (W : Type) (handle : option string -> ev -> W -> option val * W)
         msem dotsem callsem awaitsem (p : sprog) (nm : option string) (w : W),
    stateless h W handle ->
    user_code msem dotsem callsem awaitsem ->
    is_async (sp_cfg p) = false ->
    let spawn_prog := (let! d := spec msem dotsem callsem awaitsem (with_spawn true p) in to_val d) in
    let plain_prog := (let! d := spec msem dotsem callsem awaitsem (with_spawn false p) in to_val d) in
    exists sched,
      let s := run_thr handle sched (init nm spawn_prog w) in
      finished s = true /\ result_of 0 s = Some (eval h nm plain_prog).
Proof.
  intros h W handle msem dotsem callsem awaitsem p nm w Hw HU Hsync spawn_prog plain_prog.
  destruct (spawn_macro_fair_run_finishes W handle msem dotsem callsem awaitsem p nm w HU Hsync) as [fuel Hfin].
  fold spawn_prog in Hfin.
  destruct (run_fuel_is_a_schedule W handle fuel (init nm spawn_prog w)) as [sched Hs]. rewrite Hs in Hfin.
  exists sched. split; [exact Hfin|].
  apply (spawn_macro_agrees_with_plain h W handle msem dotsem callsem awaitsem p nm w sched Hw HU Hsync).
  fold spawn_prog.
  (* every thread is finished, and the caller is one of them *)
  pose proof (run_thr_length W handle sched (init nm spawn_prog w)) as Hlen. cbn in Hlen.
  unfold thr_finished. unfold finished in Hfin. rewrite forallb_forall in Hfin.
  destruct (nth_error (pool (run_thr handle sched (init nm spawn_prog w))) 0) as [th|] eqn:E.
  - apply Hfin. eapply nth_error_In; eauto.
  - apply nth_error_None in E. lia.
Qed.

Corollary spawn_macro_outcomes :
  forall (h : ev -> option val)
         (W : Type) (handle : option string -> ev -> W -> option val * W)
         msem dotsem callsem awaitsem (p : sprog) (nm : option string) (w : W) (sched : list nat),
    stateless h W handle ->
    user_code msem dotsem callsem awaitsem ->
    is_async (sp_cfg p) = false ->
    let spawn_prog := (let! d := spec msem dotsem callsem awaitsem (with_spawn true p) in to_val d) in
    let plain_prog := (let! d := spec msem dotsem callsem awaitsem (with_spawn false p) in to_val d) in
    let s := run_thr handle sched (init nm spawn_prog w) in
    thr_finished 0 s = true ->
    (forall v, result_of 0 s = Some (Some v) <-> eval h nm plain_prog = Some v) /\
    (result_of 0 s = Some None <-> eval h nm plain_prog = None).
Proof.
  intros h W handle msem dotsem callsem awaitsem p nm w sched Hw HU Hsync spawn_prog plain_prog s Hfin.
  pose proof (spawn_macro_agrees_with_plain h W handle msem dotsem callsem awaitsem p nm w sched Hw HU Hsync Hfin) as E.
  fold spawn_prog plain_prog s in E. rewrite E. split; [intros v|]; split; congruence.
Qed.

(* C07 for the whole macro: the caller's outcome does not depend on the schedule *)
Corollary spawn_macro_any_two_schedules_agree :
  forall (h : ev -> option val)
         (W : Type) (handle : option string -> ev -> W -> option val * W)
         msem dotsem callsem awaitsem (p : sprog) (nm : option string) (w : W) (sched1 sched2 : list nat),
    stateless h W handle ->
    user_code msem dotsem callsem awaitsem ->
    is_async (sp_cfg p) = false ->
    let spawn_prog := (let! d := spec msem dotsem callsem awaitsem (with_spawn true p) in to_val d) in
    let s1 := run_thr handle sched1 (init nm spawn_prog w) in
    let s2 := run_thr handle sched2 (init nm spawn_prog w) in
    thr_finished 0 s1 = true -> thr_finished 0 s2 = true ->
    result_of 0 s1 = result_of 0 s2.
Proof.
  intros h W handle msem dotsem callsem awaitsem p nm w sched1 sched2 Hw HU Hsync spawn_prog s1 s2 H1 H2.
  unfold s1, s2, spawn_prog.
  rewrite (spawn_macro_agrees_with_plain h W handle msem dotsem callsem awaitsem p nm w sched1 Hw HU Hsync H1).
  rewrite (spawn_macro_agrees_with_plain h W handle msem dotsem callsem awaitsem p nm w sched2 Hw HU Hsync H2).
  reflexivity.
Qed.
Print Assumptions spawn_macro_any_two_schedules_agree.

Lemma result_of_finished {W} (s : Threads.state W) i r : result_of i s = Some r -> thr_finished i s = true.
Proof. intros H. apply fin_thr_finished. exists r. apply fin_result_of, H. Qed.

(* THE TRANSPORT: whatever holds of every value the plain program can return holds of the value
   the caller of the thread kind gets, under every schedule *)
Lemma spawn_value_post (h : ev -> option val) (W : Type) handle msem dotsem callsem awaitsem
      (p : sprog) (nm : option string) (w : W) sched (Q : val -> Prop) v :
  stateless h W handle -> user_code msem dotsem callsem awaitsem -> is_async (sp_cfg p) = false ->
  leaves (let! d := spec msem dotsem callsem awaitsem (with_spawn false p) in to_val d) Q ->
  result_of 0 (run_thr handle sched
                 (init nm (let! d := spec msem dotsem callsem awaitsem (with_spawn true p) in to_val d) w))
  = Some (Some v) -> Q v.
Proof.
  intros Hw HU Hsync Hl Hres. pose proof (result_of_finished _ _ _ Hres) as Hfin.
  rewrite (spawn_macro_agrees_with_plain h W handle msem dotsem callsem awaitsem p nm w sched Hw HU Hsync Hfin) in Hres.
  injection Hres as Hres. exact (eval_post h Q nm _ _ Hl Hres).
Qed.

(* C04 transported to the thread kind: under every schedule, the value the caller of `join_spawn!`
   (no handler) gets lists branch b's LAST step value at position b (`SpecProps.ResultOK`), for an
   arbitrary description T of what the chains compute.  Only the chains a step runs are asked about:
   those of its active branches. *)
Lemma spawn_result_positions_active (h : ev -> option val) (W : Type) handle msem dotsem callsem awaitsem
      (p : sprog) (nm : option string) (w : W) sched (T : nat -> nat -> dval -> Prop) :
  stateless h W handle -> user_code msem dotsem callsem awaitsem ->
  is_async (sp_cfg p) = false -> is_try (sp_cfg p) = false -> sp_handler p = None ->
  (forall sn cp k st b, b < List.length (sp_trees p) -> k < depth p b ->
                        leaves (chain msem dotsem callsem p sn cp k st b) (T b k)) ->
  (forall b, b < List.length (sp_trees p) -> 1 <= depth p b) ->
  forall v, result_of 0 (run_thr handle sched
                           (init nm (let! d := spec msem dotsem callsem awaitsem (with_spawn true p) in to_val d) w))
            = Some (Some v) -> ResultOK p T (DV v).
Proof.
  intros Hw HU Hsync Htry Hnoh HT Hdepth v.
  apply (spawn_value_post h W handle msem dotsem callsem awaitsem p nm w sched
                          (fun v => ResultOK p T (DV v)) v Hw HU Hsync).
  set (pp := with_spawn false p).
  apply leaves_bind. apply leaves_weaken with (Q := ResultOK pp T); [intros d Hd; destruct d; cbn; auto|].
  rewrite spec_no_handler by exact Hnoh. cbn [pp with_spawn sp_cfg is_async]. rewrite Hsync.
  apply (result_positions_sync msem dotsem callsem awaitsem pp T Hdepth HT Hsync eq_refl Htry (max_depth pp) 0); [lia|].
  split; [apply map_length|]. intros b _ Hk. lia.
Qed.

Corollary spawn_result_positions :
  forall (h : ev -> option val)
         (W : Type) (handle : option string -> ev -> W -> option val * W)
         msem dotsem callsem awaitsem (p : sprog) (nm : option string) (w : W) (sched : list nat)
         (T : nat -> nat -> dval -> Prop),
    stateless h W handle ->
    user_code msem dotsem callsem awaitsem ->
    is_async (sp_cfg p) = false -> is_try (sp_cfg p) = false -> sp_handler p = None ->
    (forall sn cp k st b, leaves (chain msem dotsem callsem p sn cp k st b) (T b k)) ->
    (forall b, b < List.length (sp_trees p) -> 1 <= depth p b) ->
    let spawn_prog := (let! d := spec msem dotsem callsem awaitsem (with_spawn true p) in to_val d) in
    let s := run_thr handle sched (init nm spawn_prog w) in
    forall v, result_of 0 s = Some (Some v) -> ResultOK p T (DV v).
Proof.
  intros h W handle msem dotsem callsem awaitsem p nm w sched T Hw HU Hsync Htry Hnoh HT.
  exact (spawn_result_positions_active h W handle msem dotsem callsem awaitsem p nm w sched T Hw HU Hsync Htry Hnoh
           (fun sn cp k st b _ _ => HT sn cp k st b)).
Qed.
Print Assumptions spawn_result_positions.

Module ExSpawn.
  (* user code: `.map(f)` calls its closure, `recv.<tokens>` is an event that shows the receiver,
     awaiting a value is the value *)
  Definition msemE (m : string) (tys : option (list operand)) (recv : dval) (args : list dval) : comp dval :=
    if String.eqb m "map" then
      match args with
      | [DF g] => std_map recv g
      | [DV fv] => std_map recv (fun vs => Vis (ECall fv vs) (fun w => Ret w))
      | _ => Panic P_ILLTYPED
      end
    else Panic P_STUCK.
  Definition dotsemE (o : operand) (sn : list (string * option val)) (recv : dval) : comp dval :=
    match recv with
    | DV v => Vis (EEval o (("self", Some v) :: sn)) (fun w => Ret (DV w))
    | _ => Panic P_ILLTYPED
    end.
  Definition callsemE (f : val) (args : list dval) : comp dval := Panic P_ILLTYPED.
  Definition awaitsemE (v : val) : comp val := Ret v.

  Lemma user_code_ex_cls cls : code_class cls -> user_codeC cls msemE dotsemE callsemE awaitsemE.
  Proof.
    intros CC. split.
    - intros m tys recv args Hrecv Hargs. unfold msemE. destruct (String.eqb m "map"); [|apply (cc_panic _ CC)].
      destruct args as [|[fv|g|g|c|name| |] [|]]; try apply (cc_panic _ CC).
      + apply (cls_std_map _ (code_call_class _ CC)); [exact Hrecv|].
        intros vs. apply (cc_vis _ CC); [discriminate|]. intros w. apply (cc_ret _ CC). exact I.
      + apply (cls_std_map _ (code_call_class _ CC)); [exact Hrecv|]. inversion Hargs; assumption.
    - intros o sn recv Hrecv. destruct recv; try apply (cc_panic _ CC).
      apply (cc_vis _ CC); [discriminate|]. intros w. apply (cc_ret _ CC). exact I.
    - intros f args _. apply (cc_panic _ CC).
    - intros v. apply (cc_ret _ CC). exact I.
  Qed.
  Lemma user_code_ex : user_code msemE dotsemE callsemE awaitsemE.
  Proof. apply user_code_ex_cls, ucode_class. Qed.

  (* a stateless world: an interpreter of the user's expressions *)
  Definition h (e : ev) : option val :=
    match e with
    | EEval [TI x] sn =>
        if String.eqb x "one" then Some (VInt 1)
        else if String.eqb x "two" then Some (VInt 2)
        else if String.eqb x "some1" then Some (VSome (VInt 1))
        else if String.eqb x "none" then Some VNone
        else if String.eqb x "f" then Some (VOpq 7)      (* a user closure *)
        else match sn with
             | (_, Some (VInt z)) :: _ =>
                 if String.eqb x "inc" then Some (VInt (z + 1))
                 else if String.eqb x "dbl" then Some (VInt (2 * z))
                 else None                            (* e.g. "boom": the user code panics *)
             | _ => None
             end
    | ECall (VOpq 7) [VInt z] => Some (VInt (z + 10))    (* what the closure does *)
    | _ => None
    end.
  (* the machine's world: it counts the events, but no answer reads the counter *)
  Definition handleE (nm : option string) (e : ev) (w : nat) : option val * nat := (h e, S w).
  Lemma stateless_ex : stateless h nat handleE.
  Proof. intros nm e w. reflexivity. Qed.

  (* the program: 2 branches, 2 steps, branch 1 is shorter
       join_spawn! { one -> inc ~-> dbl,  two -> inc }   (`->` = `.`-chains on the model's operands) *)
  Definition ini (x : string) : action := mkAction Initial false NoMove [[TI x]].
  Definition dot (deferred : bool) (x : string) : action := mkAction Dot deferred NoMove [[TI x]].
  Definition trees2 (last0 : string) : list (list (list node)) :=
    [ [ [NAct 0 (ini "one"); NAct 1 (dot false "inc")]; [NAct 0 (dot true last0)] ];
      [ [NAct 0 (ini "two"); NAct 1 (dot false "inc")] ] ].
  Definition prog2 (try_ : bool) (last0 : string) : sprog :=
    mkSprog (mkConfig false try_ false) [None; None] (trees2 last0) None.

  Definition spawn_prog (p : sprog) : comp val :=
    let! d := spec msemE dotsemE callsemE awaitsemE (with_spawn true p) in to_val d.
  Definition plain_prog (p : sprog) : comp val :=
    let! d := spec msemE dotsemE callsemE awaitsemE (with_spawn false p) in to_val d.

  Definition sched_a : list nat := List.concat (repeat [0; 1; 2] 30).          (* round-robin *)
  Definition sched_b : list nat := repeat 0 20 ++ repeat 2 5 ++ repeat 1 5 ++ repeat 0 20.
                                                                          (* caller first, children in reverse *)
  Definition runE (sched : list nat) (p : sprog) := run_thr handleE sched (init (Some "main") (spawn_prog p) 0).

  Definition expected : val := VTuple [VInt 4; VInt 3].

  Example plain_value : eval h (Some "main") (plain_prog (prog2 false "dbl")) = Some expected.
  Proof. vm_compute. reflexivity. Qed.
  Example spawn_sched_a : result_of 0 (runE sched_a (prog2 false "dbl")) = Some (Some expected).
  Proof. vm_compute. reflexivity. Qed.
  Example spawn_sched_b : result_of 0 (runE sched_b (prog2 false "dbl")) = Some (Some expected).
  Proof. vm_compute. reflexivity. Qed.
  (* the two runs are different interleavings: three threads exist, named by `__tb`, and the traces differ *)
  Example spawn_names :
    map th_name (pool (runE sched_a (prog2 false "dbl"))) = [Some "main"; Some "main_join_0"; Some "main_join_1"].
  Proof. vm_compute. reflexivity. Qed.
  Example spawn_traces_differ :
    map fst (trace (runE sched_a (prog2 false "dbl"))) <> map fst (trace (runE sched_b (prog2 false "dbl"))).
  Proof. vm_compute. discriminate. Qed.

  (* a panicking branch: the plain program panics; in the thread kind the sibling still runs to its
     end and the caller panics at `.join().unwrap()` *)
  Example plain_panics : eval h (Some "main") (plain_prog (prog2 false "boom")) = None.
  Proof. vm_compute. reflexivity. Qed.
  Example spawn_panics_a : result_of 0 (runE sched_a (prog2 false "boom")) = Some None.
  Proof. vm_compute. reflexivity. Qed.
  Example spawn_panics_b : result_of 0 (runE sched_b (prog2 false "boom")) = Some None.
  Proof. vm_compute. reflexivity. Qed.

  (* try_join_spawn! { some1 |> f ~|> f,  <x> }  with `|>` = `.map(..)`: x = some1 succeeds, x = none fails step 0 *)
  Definition mapf (deferred : bool) : action := mkAction Map deferred NoMove [[TI "f"]].
  Definition progT (x : string) : sprog :=
    mkSprog (mkConfig false true false) [None; None]
            [ [ [NAct 0 (ini "some1"); NAct 1 (mapf false)]; [NAct 0 (mapf true)] ]; [ [NAct 0 (ini x)] ] ] None.
  Example try_plain_ok : eval h None (plain_prog (progT "some1")) = Some (VSome (VTuple [VInt 21; VInt 1])).
  Proof. vm_compute. reflexivity. Qed.
  Example try_spawn_ok_a :
    result_of 0 (run_thr handleE sched_a (init None (spawn_prog (progT "some1")) 0)) = Some (Some (VSome (VTuple [VInt 21; VInt 1]))).
  Proof. vm_compute. reflexivity. Qed.
  Example try_spawn_ok_b :
    result_of 0 (run_thr handleE sched_b (init None (spawn_prog (progT "some1")) 0)) = Some (Some (VSome (VTuple [VInt 21; VInt 1]))).
  Proof. vm_compute. reflexivity. Qed.
  Example try_plain_fail : eval h None (plain_prog (progT "none")) = Some VNone.
  Proof. vm_compute. reflexivity. Qed.
  Example try_spawn_fail_b :
    result_of 0 (run_thr handleE sched_b (init None (spawn_prog (progT "none")) 0)) = Some (Some VNone).
  Proof. vm_compute. reflexivity. Qed.

  Example spawn_all_schedules sched :
    thr_finished 0 (runE sched (prog2 false "dbl")) = true ->
    result_of 0 (runE sched (prog2 false "dbl")) = Some (Some expected).
  Proof.
    (* unfolded and brought to the theorem's form first, so that nothing is evaluated here *)
    unfold runE, spawn_prog. intros Hfin. rewrite <- plain_value.
    exact (spawn_macro_agrees_with_plain h nat handleE msemE dotsemE callsemE awaitsemE (prog2 false "dbl")
             (Some "main") 0 sched stateless_ex user_code_ex eq_refl Hfin).
  Qed.
End ExSpawn.
