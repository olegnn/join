(* C16 on the reference semantics with options (SpecOpts.v): what custom_joiner / lazy_branches /
   transpose_results(false) mean, for every program, every macro kind, every abstract user-code semantics
   and every world.  Equation form: each theorem exhibits the shape of a step / of the step sequencing;
   `transpose_on_step_flow` is the sequencing under transpose_results(true), and a step with at most one
   active branch ignores the options (`single_branch_step_independent_of_options`).
   Non-vacuity examples (concrete programs under the world of Concrete.v) at the end. *)
From Coq Require Import Lia ZArith.
From Join Require Import Tok Ast Comp Std Denote Spec SpecOpts CompLaws Leaves SpecProps.
Local Open Scope nat_scope.

Lemma leaves_mapM_len {A B} (f : A -> comp B) (l : list A) :
  leaves (mapM f l) (fun ys => List.length ys = List.length l).
Proof.
  eapply leaves_weaken; [|apply (leaves_mapM f (fun _ _ => True)); intros; apply leaves_true].
  intros ys H. symmetry. exact (Forall2_length _ _ _ H).
Qed.

Lemma Forall2_combine_snd {A B C} (R : B -> C -> Prop) : forall (xs : list A) (ys : list B) (zs : list C),
  List.length xs = List.length ys ->
  Forall2 (fun xy z => R (snd xy) z) (combine xs ys) zs -> Forall2 R ys zs.
Proof.
  induction xs as [|x xs IH]; intros [|y ys] zs Hl H; cbn in *; try discriminate.
  - inversion H. constructor.
  - inversion H; subst. constructor; [assumption|]. apply IH; [lia|assumption].
Qed.

(* calling the closure of a lazy branch runs the chain - every time it is called *)
Lemma thunk_call (c : comp dval) :
  match thunk_of c with DF f => f [] = (let! d := c in to_val d) | _ => False end.
Proof. reflexivity. Qed.

(* `builder.spawn(move || chain).unwrap()`: the chain is the body of the new thread *)
Lemma spawn_thread_thunk name (c : comp dval) :
  spawn_thread (DBuilder name) (thunk_of c)
  = Spawn name (let! d := c in to_val d) (fun h => Ret (DV (VHandle h))).
Proof. reflexivity. Qed.

(* lazy_branches(false) in a thread kind: `Builder::spawn` gets something that is not a closure *)
Lemma spawn_thread_value name v : spawn_thread (DBuilder name) (DV v) = Panic P_ILLTYPED.
Proof. reflexivity. Qed.

Section Props.
  Variable msem : string -> option (list operand) -> dval -> list dval -> comp dval.
  Variable dotsem : operand -> list (string * option val) -> dval -> comp dval.
  Variable callsem : val -> list dval -> comp dval.
  Variable awaitsem : val -> comp val.
  Variable so : sopts.
  Variable p : sprog.
  Let cfg := sp_cfg p.
  Notation n := (List.length (sp_trees p)).

  Notation step_result_opts := (step_result_opts msem dotsem callsem awaitsem so p).
  Notation steps_opts := (steps_opts msem dotsem callsem awaitsem so p).
  Notation branch_arg := (branch_arg msem dotsem callsem so p).
  Notation chain := (chain msem dotsem callsem p).


  (* everything a step with several active branches does BEFORE the joiner is applied: thread builders (thread
     kinds), the captures, the joiner expression, one argument per active branch in branch order (a value, a
     thunk, a spawned handle / task); it returns the joiner and the argument list *)
  Definition joiner_input (jt : operand) (k : nat) (st : state) : comp (dval * list dval) :=
    let sn := snap_of p st in
    let acts := actives p k in
    if is_async cfg then
      let! cp := captures p sn k acts in
      let! jv := Vis (EEval jt sn) (fun v => Ret (DV v)) in
      let! ds := mapM (fun b => let! d := branch_arg sn cp k st b in
                                if is_spawn cfg then spawn_task d else Ret d) acts in
      Ret (jv, ds)
    else if is_spawn cfg then
      let! builders := mapM (fun b => thread_builder (Z.of_nat b)) acts in
      let! cp := captures p sn k acts in
      let! jv := Vis (EEval jt sn) (fun v => Ret (DV v)) in
      let! hs := mapM (fun nb => let! a := branch_arg sn cp k st (snd nb) in spawn_thread (fst nb) a)
                      (combine builders acts) in
      Ret (jv, hs)
    else
      let! cp := captures p sn k acts in
      let! jv := Vis (EEval jt sn) (fun v => Ret (DV v)) in
      let! ds := mapM (branch_arg sn cp k st) acts in
      Ret (jv, ds).

  (* .. and AFTER it: nothing - except in the thread kinds, where the handles of its output are joined *)
  Definition joiner_post (k : nat) (r : dval) : comp dval :=
    if negb (is_async cfg) && is_spawn cfg then join_handles (List.length (actives p k)) r else Ret r.

  Lemma eval_joiner_some jt sn A (K : option dval -> comp A) : so_joiner so = Some jt ->
    bind (eval_joiner so sn) K = bind (Vis (EEval jt sn) (fun v => Ret (DV v))) (fun jv => K (Some jv)).
  Proof. intros H. unfold eval_joiner. rewrite H. reflexivity. Qed.

  (* C16: in a step with more than one active branch the joiner is applied exactly ONCE, to one argument per
     active branch *)
  Theorem joiner_called_once_per_multi_step k st jt :
    so_joiner so = Some jt -> 1 < List.length (actives p k) ->
    step_result_opts k st =
    (let! jd := joiner_input jt k st in
     let! r := apply callsem (fst jd) (snd jd) in
     joiner_post k r).
  Proof.
    intros Hj Hm. apply Nat.ltb_lt in Hm.
    unfold SpecOpts.step_result_opts, joiner_input, joiner_post. fold cfg. rewrite Hm.
    destruct (is_async cfg); cbn [negb andb].
    - nb. apply bind_ext. intros cp. rewrite (eval_joiner_some jt _ _ _ Hj). nb.
      apply Vis_ext. intros v. nb. apply bind_ext. intros ds. nb. cbn [fst snd]. symmetry. apply bind_ret_r.
    - destruct (is_spawn cfg); cbn [andb].
      + nb. apply bind_ext. intros bs. nb. apply bind_ext. intros cp. rewrite (eval_joiner_some jt _ _ _ Hj). nb.
        apply Vis_ext. intros v. nb. apply bind_ext. intros hs. nb. reflexivity.
      + nb. apply bind_ext. intros cp. rewrite (eval_joiner_some jt _ _ _ Hj). nb.
        apply Vis_ext. intros v. nb. apply bind_ext. intros ds. nb. cbn [fst snd]. symmetry. apply bind_ret_r.
  Qed.

  (* what the joiner is handed for branch b, in every kind (bd: the branch's thread builder, thread kinds only) *)
  Definition handed (bd : dval) sn cp k st b : comp dval :=
    let! a := branch_arg sn cp k st b in
    if is_async cfg then (if is_spawn cfg then spawn_task a else Ret a)
    else if is_spawn cfg then spawn_thread bd a else Ret a.

  (* .. in branch order: the i-th argument is what the i-th active branch hands over (R is an ARBITRARY
     description of that, e.g. "the thunk of b's chain", "a value of b's chain", "the handle of b's thread") *)
  Theorem joiner_arguments_in_branch_order_all k st jt (R : nat -> dval -> Prop) :
    (forall bd sn cp b, In b (actives p k) -> leaves (handed bd sn cp k st b) (R b)) ->
    leaves (joiner_input jt k st) (fun jd => Forall2 R (actives p k) (snd jd)).
  Proof.
    intros HR. unfold joiner_input. unfold handed in HR.
    destruct (is_async cfg); [|destruct (is_spawn cfg)].
    - apply leaves_bind_any. intros cp. cbn [bind leaves]. intros v. apply leaves_bind.
      apply (leaves_mapM _ R). intros b Hb. apply (HR (DV VUnit)), Hb.
    - apply leaves_bind. eapply leaves_weaken; [|apply leaves_mapM_len]. intros bs Hb.
      apply leaves_bind_any. intros cp. cbn [bind leaves]. intros v. apply leaves_bind.
      eapply leaves_weaken; [|apply (leaves_mapM _ (fun nb d => R (snd nb) d))].
      + intros hs H. cbn [leaves snd]. exact (Forall2_combine_snd R _ _ _ Hb H).
      + intros [bd b] Hin. apply HR. exact (in_combine_r _ _ _ _ Hin).
    - apply leaves_bind_any. intros cp. cbn [bind leaves]. intros v. apply leaves_bind.
      apply (leaves_mapM _ R). intros b Hb. exact (leaves_bind_inv _ _ _ (HR (DV VUnit) (snap_of p st) cp b Hb)).
  Qed.

  Theorem joiner_arguments_in_branch_order k st jt (R : nat -> dval -> Prop) :
    is_spawn cfg = false ->
    (forall sn cp b, In b (actives p k) -> leaves (branch_arg sn cp k st b) (R b)) ->
    leaves (joiner_input jt k st) (fun jd => Forall2 R (actives p k) (snd jd)).
  Proof.
    intros Hs HR. apply joiner_arguments_in_branch_order_all. intros bd sn cp b Hb. unfold handed.
    rewrite Hs. destruct (is_async cfg); rewrite bind_ret_r; apply HR, Hb.
  Qed.

  (* .. exactly `length (actives k)` of them *)
  Theorem joiner_receives_one_argument_per_active_branch k st jt :
    leaves (joiner_input jt k st) (fun jd => List.length (snd jd) = List.length (actives p k)).
  Proof.
    eapply leaves_weaken; [|apply (joiner_arguments_in_branch_order_all k st jt (fun _ _ => True)); intros; apply leaves_true].
    intros jd H. symmetry. exact (Forall2_length _ _ _ H).
  Qed.


  (* what the macro does with the result of step k (fuel' = number of steps after k) *)
  Definition after_step (fuel' k : nat) (st : state) (sr : dval) : comp dval :=
    let last := Nat.eqb fuel' 0 in
    let acts := actives p k in
    if negb (is_try cfg) then
      let! ds := extract acts sr in
      let st' := set_all st acts ds in
      if last then final_tuple p st' else steps_opts fuel' (S k) st'
    else if so_transpose so then
      let! ds := extract acts sr in
      let st' := set_all st acts ds in
      if last then transpose awaitsem p (seq 0 n) st'
      else
        let! oks := mapM classify ds in
        match first_false oks ds with
        | Some d => std_map d (fun _ => Panic P_UNREACHABLE)
        | None => steps_opts fuel' (S k) st'
        end
    else
      match sr with
      | DV (VErr e) => Ret (DV (VErr e))
      | DV (VOk w) =>
          if last then
            if Nat.ltb 1 n then
              let! ds := extract acts (DV w) in
              let st' := set_all st acts ds in
              match filter (fun b => negb (active p k b)) (seq 0 n) with
              | [] => let! t := final_tuple p st' in let! tv := to_val t in Ret (DV (VOk tv))
              | inactive => transpose awaitsem p inactive st'
              end
            else Ret (DV (VOk w))
          else
            let! d := (if is_async cfg
                       then let! rew := rewrap acts w in
                            Ret (match rew with
                                 | [d] => d
                                 | _ => DV (VTuple (match all_vals rew with Some l => l | None => [] end))
                                 end)
                       else Ret (DV w)) in
            let! ds := extract acts d in
            steps_opts fuel' (S k) (set_all st acts ds)
      | _ => Panic P_ILLTYPED
      end.

  (* every step is run once, and everything after it depends on it only through its result *)
  Lemma steps_opts_step fuel k st :
    steps_opts (S fuel) k st = let! sr := step_result_opts k st in after_step fuel k st sr.
  Proof. reflexivity. Qed.

  (* C16: what the joiner returns is used as the step result (thread kinds: after joining its handles) *)
  Theorem joiner_output_is_step_result fuel k st jt :
    so_joiner so = Some jt -> 1 < List.length (actives p k) ->
    steps_opts (S fuel) k st =
    (let! jd := joiner_input jt k st in
     let! r := apply callsem (fst jd) (snd jd) in
     let! sr := joiner_post k r in
     after_step fuel k st sr).
  Proof.
    intros Hj Hm. rewrite steps_opts_step, (joiner_called_once_per_multi_step k st jt Hj Hm).
    rewrite bind_assoc. apply bind_ext. intros jd. rewrite bind_assoc. reflexivity.
  Qed.

  Lemma joiner_post_id k r : negb (is_async cfg) && is_spawn cfg = false -> joiner_post k r = Ret r.
  Proof. intros H. unfold joiner_post. rewrite H. reflexivity. Qed.

  (* .. as it is, in every kind but the thread kinds *)
  Corollary joiner_output_is_step_result_as_is fuel k st jt :
    so_joiner so = Some jt -> 1 < List.length (actives p k) -> negb (is_async cfg) && is_spawn cfg = false ->
    steps_opts (S fuel) k st =
    (let! jd := joiner_input jt k st in
     let! r := apply callsem (fst jd) (snd jd) in
     after_step fuel k st r).
  Proof.
    intros Hj Hm Hk. rewrite (joiner_output_is_step_result fuel k st jt Hj Hm).
    apply bind_ext. intros jd. apply bind_ext. intros r. rewrite (joiner_post_id k r Hk). reflexivity.
  Qed.

  (* .. non-try kinds: it is destructured over the active branches *)
  Lemma after_step_nontry fuel k st sr : is_try cfg = false ->
    after_step fuel k st sr =
    (let! ds := extract (actives p k) sr in
     let st' := set_all st (actives p k) ds in
     if Nat.eqb fuel 0 then final_tuple p st' else steps_opts fuel (S k) st').
  Proof. intros Ht. unfold after_step. rewrite Ht. reflexivity. Qed.


  (* C16: a step with one active branch is the step of the macro without options: no joiner, no thunk *)
  Theorem single_branch_step_ignores_joiner k st :
    List.length (actives p k) <= 1 ->
    step_result_opts k st = step_result msem dotsem callsem awaitsem p k st.
  Proof.
    intros Hl. assert (Hm : Nat.ltb 1 (List.length (actives p k)) = false) by (apply Nat.ltb_ge; lia).
    unfold SpecOpts.step_result_opts, step_result. fold cfg. rewrite Hm.
    destruct (is_async cfg); [reflexivity|]. rewrite andb_false_r. reflexivity.
  Qed.


  (* C16: with lazy_branches(true) the joiner's arguments are zero-argument closures, one per active branch, in
     branch order; the chains occur nowhere else in the step *)
  Theorem lazy_branches_are_thunks k st jt :
    so_joiner so = Some jt -> so_lazy so = true -> 1 < List.length (actives p k) -> is_spawn cfg = false ->
    step_result_opts k st =
    (let sn := snap_of p st in
     let! cp := captures p sn k (actives p k) in
     let! jv := Vis (EEval jt sn) (fun v => Ret (DV v)) in
     apply callsem jv (map (fun b => thunk_of (chain sn cp k st b)) (actives p k))).
  Proof.
    intros Hj Hl Hm Hs. rewrite (joiner_called_once_per_multi_step k st jt Hj Hm).
    unfold joiner_input, joiner_post, SpecOpts.branch_arg. rewrite Hs, Hl, andb_false_r. cbv zeta.
    destruct (is_async cfg).
    - nb. apply bind_ext. intros cp. nb. apply Vis_ext. intros v.
      rewrite mapM_ret. nb. cbn [fst snd]. apply bind_ret_r.
    - nb. apply bind_ext. intros cp. nb. apply Vis_ext. intros v.
      rewrite mapM_ret. nb. cbn [fst snd]. apply bind_ret_r.
  Qed.

  Lemma all_vals_thunks {A} (f : A -> comp dval) (l : list A) : l <> [] -> all_vals (map (fun b => thunk_of (f b)) l) = None.
  Proof. destruct l; [congruence|reflexivity]. Qed.

  (* C16: the events of a lazy branch happen when the joiner calls the closure, not before: with a joiner that does
     not call its arguments (whatever closures it is given, it makes no P-event) the step makes no P-event -
     WHATEVER the chains of the step would do (P is an arbitrary class of events, e.g. all events of the chains) *)
  Theorem lazy_branch_runs_only_when_called k st jt (P : ev -> Prop) :
    so_joiner so = Some jt -> so_lazy so = true -> 1 < List.length (actives p k) -> is_spawn cfg = false ->
    no_event P (captures p (snap_of p st) k (actives p k)) ->       (* the block operands, evaluated ahead of the step *)
    ~ P (EEval jt (snap_of p st)) ->                                  (* the joiner expression *)
    (forall jv ds, no_event P (callsem jv ds)) ->                     (* the joiner: it does not call its arguments *)
    no_event P (step_result_opts k st).
  Proof.
    intros Hj Hl Hm Hs Hcap Hjt Hcall. rewrite (lazy_branches_are_thunks k st jt Hj Hl Hm Hs). cbv zeta.
    apply no_event_bind; [exact Hcap|]. intros cp. cbn [bind no_event]. split; [exact Hjt|]. intros v.
    unfold apply. rewrite all_vals_thunks; [apply Hcall|].
    destruct (actives p k); [cbn in Hm; lia|discriminate].
  Qed.

  (* thread kinds (lazy by default): the chain is the body of the spawned thread; the joiner gets the handles *)
  Theorem lazy_thread_branches_run_in_their_threads k st jt :
    so_joiner so = Some jt -> so_lazy so = true -> 1 < List.length (actives p k) ->
    is_async cfg = false -> is_spawn cfg = true ->
    step_result_opts k st =
    (let sn := snap_of p st in
     let acts := actives p k in
     let! builders := mapM (fun b => thread_builder (Z.of_nat b)) acts in
     let! cp := captures p sn k acts in
     let! jv := Vis (EEval jt sn) (fun v => Ret (DV v)) in
     let! hs := mapM (fun nb => spawn_thread (fst nb) (thunk_of (chain sn cp k st (snd nb)))) (combine builders acts) in
     let! r := apply callsem jv hs in
     join_handles (List.length acts) r).
  Proof.
    intros Hj Hl Hm Ha Hs. rewrite (joiner_called_once_per_multi_step k st jt Hj Hm).
    unfold joiner_input, joiner_post, SpecOpts.branch_arg. rewrite Ha, Hs, Hl. cbv zeta. cbn [negb andb].
    nb. apply bind_ext. intros bs. nb. apply bind_ext. intros cp. nb. apply Vis_ext. intros v. nb.
    apply bind_ext. intros hs. nb. reflexivity.
  Qed.


  Definition last_result_no_transpose (k : nat) (st : state) (w : val) : comp dval :=
    if Nat.ltb 1 n then
      let! ds := extract (actives p k) (DV w) in
      let st' := set_all st (actives p k) ds in
      match filter (fun b => negb (active p k b)) (seq 0 n) with
      | [] => let! t := final_tuple p st' in let! tv := to_val t in Ret (DV (VOk tv))     (* Ok(tuple) *)
      | inactive => transpose awaitsem p inactive st'        (* transposition over the already finished branches *)
      end
    else Ret (DV (VOk w)).

  (* C16: transpose_results(false) - in EVERY step of a try macro the step result (with a custom joiner: the
     joiner's output) is matched as a whole: `Err e` ends the macro with `Err e` at once; `Ok w` is
     destructured over the active branches (async: payloads re-wrapped in Ok) and the next step goes on; the
     last step returns `Ok(tuple)` resp. the transposition over the finished branches *)
  Theorem transpose_off_step_flow fuel k st :
    is_try cfg = true -> so_transpose so = false ->
    steps_opts (S fuel) k st =
    (let! sr := step_result_opts k st in
     match sr with
     | DV (VErr e) => Ret (DV (VErr e))
     | DV (VOk w) =>
         if Nat.eqb fuel 0 then last_result_no_transpose k st w
         else
           let! d := (if is_async cfg
                      then let! rew := rewrap (actives p k) w in
                           Ret (match rew with
                                | [d] => d
                                | _ => DV (VTuple (match all_vals rew with Some l => l | None => [] end))
                                end)
                      else Ret (DV w)) in
           let! ds := extract (actives p k) d in
           steps_opts fuel (S k) (set_all st (actives p k) ds)
     | _ => Panic P_ILLTYPED
     end).
  Proof.
    intros Ht HT. cbn [SpecOpts.steps_opts]. fold cfg. rewrite Ht, HT. reflexivity.
  Qed.

  (* .. the Err case: nothing of a later step, and no transposition, is part of the computation *)
  Corollary transpose_off_err_ends_macro fuel k st e :
    is_try cfg = true -> so_transpose so = false ->
    after_step fuel k st (DV (VErr e)) = Ret (DV (VErr e)).
  Proof. intros Ht HT. unfold after_step. rewrite Ht, HT. reflexivity. Qed.

  (* .. the Ok case of a sync try macro, not the last step *)
  Corollary transpose_off_ok_goes_on fuel k st w :
    is_try cfg = true -> so_transpose so = false -> is_async cfg = false ->
    after_step (S fuel) k st (DV (VOk w)) =
    (let! ds := extract (actives p k) (DV w) in steps_opts (S fuel) (S k) (set_all st (actives p k) ds)).
  Proof. intros Ht HT Ha. unfold after_step. rewrite Ht, HT, Ha. reflexivity. Qed.

  (* .. together with a custom joiner: the joiner's output is the already transposed Result *)
  Corollary transpose_off_joiner_output_is_the_result fuel k st jt :
    is_try cfg = true -> so_transpose so = false -> so_joiner so = Some jt ->
    1 < List.length (actives p k) -> negb (is_async cfg) && is_spawn cfg = false ->
    steps_opts (S fuel) k st =
    (let! jd := joiner_input jt k st in
     let! r := apply callsem (fst jd) (snd jd) in
     match r with
     | DV (VErr e) => Ret (DV (VErr e))
     | _ => after_step fuel k st r
     end).
  Proof.
    intros Ht HT Hj Hm Hk. rewrite (joiner_output_is_step_result_as_is fuel k st jt Hj Hm Hk).
    apply bind_ext. intros jd. apply bind_ext. intros r.
    destruct r as [[]| | | | | |]; try reflexivity. apply transpose_off_err_ends_macro; assumption.
  Qed.

  (* transpose_results(true) in any try macro (for the async kinds it is not the default) is the per-branch
     check of the sync kinds *)
  Theorem transpose_on_step_flow fuel k st :
    is_try cfg = true -> so_transpose so = true ->
    steps_opts (S fuel) k st =
    (let! sr := step_result_opts k st in
     let! ds := extract (actives p k) sr in
     let st' := set_all st (actives p k) ds in
     if Nat.eqb fuel 0 then transpose awaitsem p (seq 0 n) st'
     else
       let! oks := mapM classify ds in
       match first_false oks ds with
       | Some d => std_map d (fun _ => Panic P_UNREACHABLE)
       | None => steps_opts fuel (S k) st'
       end).
  Proof. intros Ht HT. cbn [SpecOpts.steps_opts]. fold cfg. rewrite Ht, HT. reflexivity. Qed.
End Props.

(* a step with one active branch does not depend on the options at all *)
Corollary single_branch_step_independent_of_options msem dotsem callsem awaitsem so so' p k st :
  List.length (actives p k) <= 1 ->
  step_result_opts msem dotsem callsem awaitsem so p k st = step_result_opts msem dotsem callsem awaitsem so' p k st.
Proof.
  intros H. rewrite !single_branch_step_ignores_joiner by exact H. reflexivity.
Qed.

Print Assumptions joiner_called_once_per_multi_step.
Print Assumptions joiner_output_is_step_result.
Print Assumptions single_branch_step_ignores_joiner.
Print Assumptions lazy_branch_runs_only_when_called.
Print Assumptions transpose_off_step_flow.

(* Concrete programs under the concrete world of Concrete.v (rule-table world, sequential runner with a log;
   `Check.run_top`): the premises of the theorems above are satisfiable, the flows they describe are taken, and the
   generated code does the same (RefineOpts.gen_refines_spec_opts applies: `wf_opts`, `gen`, `prepare` succeed). *)
From Join Require Import Ir Gen Concrete Check RefineProg RefineOpts.

Module Examples.
  Local Open Scope Z_scope.

  (* the user's operands: x0 = 1, y0 = 2, z0 = 7;  g = |x| if x % 7 == 0 { Err(99) } else { Ok(x + 10) };
     ga = |x| x + 10, ha = |x| x + 20;  jn = |a, b, ..| Ok((a, b, ..)) (logs the `let` names it sees);  jt = |a, b, ..| (a, b, ..);
     jc = the constant (100, 200): the rule is `|| (100, 200)`, and the call semantics of ex5 apply the joiner to
     no arguments whatever it is handed *)
  Definition tbl : list opinfo :=
    [ mkOp ["x0"] 1 (KConst (VInt 1)) false; mkOp ["y0"] 2 (KConst (VInt 2)) false; mkOp ["z0"] 9 (KConst (VInt 7)) false;
      mkOp ["g"] 3 (KResIf 7 0 10 99) false; mkOp ["ga"] 7 (KAdd 10) false; mkOp ["ha"] 8 (KAdd 20) false;
      mkOp ["jn"] 5 KTupleOk true; mkOp ["jt"] 6 KTuple false;
      mkOp ["jc"] 4 (KOrElseOpt (VTuple [VInt 100; VInt 200])) false ].

  Definition run_opts_with (callsem : val -> list dval -> comp dval) (cfg : config) (inp : input) : list string :=
    match prepare cfg inp with
    | Some sp => run_show tbl (Some "main"%string) (run_top cfg (spec_opts c_msem c_dotsem callsem c_await (resolve cfg inp) sp))
    | None => ["<NoSpec>"%string]
    end.
  Definition run_opts := run_opts_with c_callsem.

  Definition refines (cfg : config) (inp : input) : Prop :=
    wf_opts inp /\
    exists e sp, gen cfg inp = Ok e /\ prepare cfg inp = Some sp /\
      den (user_names inp) c_msem c_dotsem c_callsem c_await e empty_env
      = spec_opts c_msem c_dotsem c_callsem c_await (resolve cfg inp) sp.

  Ltac wf_opts_tac :=
    constructor; cbn;
    [ repeat constructor; cbn; intuition discriminate
    | repeat constructor
    | repeat constructor
    | repeat constructor; cbn; try reflexivity; try discriminate ].
  Lemma refines_intro cfg inp e sp :
    wf_opts inp -> gen cfg inp = Ok e -> prepare cfg inp = Some sp -> refines cfg inp.
  Proof.
    intros Hwf Hg Hp. split; [exact Hwf|]. exists e, sp. split; [exact Hg|split; [exact Hp|]].
    exact (gen_refines_spec_opts c_msem c_dotsem c_callsem c_await cfg inp e sp Hwf Hg Hp).
  Qed.
  (* `gen` and `prepare` are evaluated *)
  Ltac refines_tac := eapply refines_intro; [wf_opts_tac|vm_compute; reflexivity|vm_compute; reflexivity].

  Definition cfg_join := mkConfig false false false.
  Definition cfg_try := mkConfig false true false.
  Definition cfg_spawn := mkConfig false false true.

  (* try_join! { let a = x0 ~-> ga, y0 ~-> ha, custom_joiner(jn) lazy_branches(true) transpose_results(false) }:
     two steps with two active branches each: the joiner is applied twice, each time to the two branches in
     order, AFTER which (lazy) the branches' events happen inside the joiner call; its output Ok((..)) is the
     step result and, in the last step, the macro's result *)
  Definition ex1 : input :=
    mkInput
      [ mkBranch (Some ([TI "a"], "a"%string))
          [ mkAction Initial false NoMove [[TI "x0"]]; mkAction Then true NoMove [[TI "ga"]] ];
        mkBranch None [ mkAction Initial false NoMove [[TI "y0"]]; mkAction Then true NoMove [[TI "ha"]] ] ]
      None None (Some [TI "jn"]) (Some false) (Some true).

  Example ex1_run :
    run_opts cfg_try ex1 =
    ["Ok((11,22))"; "E5{a=?}"; "E1"; "E2"; "C5(1,2)"; "E5{a=1}"; "E7"; "C7(1)"; "E8"; "C8(2)"; "C5(11,22)"]%string.
  Proof. vm_compute. reflexivity. Qed.
  Example ex1_generated_code_agrees : model_run cfg_try ex1 tbl = run_opts cfg_try ex1.
  Proof. vm_compute. reflexivity. Qed.
  Example ex1_refines : refines cfg_try ex1.
  Proof. refines_tac. Qed.
  (* the premises of joiner_called_once_per_multi_step / lazy_branches_are_thunks / transpose_off_step_flow hold in
     both steps *)
  Example ex1_premises : exists sp, prepare cfg_try ex1 = Some sp /\
    so_joiner (resolve cfg_try ex1) = Some [TI "jn"] /\ so_lazy (resolve cfg_try ex1) = true /\
    so_transpose (resolve cfg_try ex1) = false /\ is_try (sp_cfg sp) = true /\ is_spawn (sp_cfg sp) = false /\
    (1 < List.length (actives sp 0))%nat /\ (1 < List.length (actives sp 1))%nat /\ max_depth sp = 2%nat.
  Proof. eexists. split; [vm_compute; reflexivity|]. cbn. repeat split; lia. Qed.

  (* try_join! { z0 -> g ~-> g, transpose_results(false) }: the first step's result is Err(99); the macro
     returns it at once - nothing of step 1 (a second E3 / C3) happens.  With x0 instead: Ok(11), destructured, step 1 runs *)
  Definition ex2 (first : string) : input :=
    mkInput
      [ mkBranch None [ mkAction Initial false NoMove [[TI first]]; mkAction Then false NoMove [[TI "g"]];
                        mkAction Then true NoMove [[TI "g"]] ] ]
      None None None (Some false) None.
  Example ex2_err_run : run_opts cfg_try (ex2 "z0") = ["Err(99)"; "E3"; "E9"; "C3(7)"]%string.
  Proof. vm_compute. reflexivity. Qed.
  Example ex2_ok_run : run_opts cfg_try (ex2 "x0") = ["Ok(21)"; "E3"; "E1"; "C3(1)"; "E3"; "C3(11)"]%string.
  Proof. vm_compute. reflexivity. Qed.
  Example ex2_refines : refines cfg_try (ex2 "z0") /\ refines cfg_try (ex2 "x0").
  Proof. split; refines_tac. Qed.

  (* join_spawn! { x0 ~-> ga, y0 ~-> ha, z0, custom_joiner(jt) } (lazy by default): step 0 has three active
     branches, step 1 two: the joiner gets the JoinHandles (3, then 2); the chains run in their threads *)
  Definition ex3 : input :=
    mkInput
      [ mkBranch None [ mkAction Initial false NoMove [[TI "x0"]]; mkAction Then true NoMove [[TI "ga"]] ];
        mkBranch None [ mkAction Initial false NoMove [[TI "y0"]]; mkAction Then true NoMove [[TI "ha"]] ];
        mkBranch None [ mkAction Initial false NoMove [[TI "z0"]] ] ]
      None None (Some [TI "jt"]) None None.
  Example ex3_spawn_run :
    run_opts cfg_spawn ex3 =
    ["(11,22,7)"; "E6"; "C6(<handle>,<handle>,<handle>)"; "E6"; "C6(<handle>,<handle>)";
     "main_join_0@E1"; "main_join_0@E7"; "main_join_0@C7(1)"; "main_join_1@E2"; "main_join_1@E8"; "main_join_1@C8(2)";
     "main_join_2@E9"]%string.
  Proof. vm_compute. reflexivity. Qed.
  (* the same program as join! (not lazy): the branches run BEFORE the joiner is applied to their values *)
  Example ex3_join_run :
    run_opts cfg_join ex3 =
    ["(11,22,7)"; "E6"; "E1"; "E2"; "E9"; "C6(1,2,7)"; "E6"; "E7"; "C7(1)"; "E8"; "C8(2)"; "C6(11,22)"]%string.
  Proof. vm_compute. reflexivity. Qed.
  Example ex3_refines : refines cfg_spawn ex3 /\ refines cfg_join ex3.
  Proof. split; refines_tac. Qed.

  (* join! { x0 ~-> ga ~-> ha, y0, custom_joiner(jt) }: only step 0 has two active branches - one joiner
     application; steps 1 and 2 have one active branch and never see the joiner *)
  Definition ex4 : input :=
    mkInput
      [ mkBranch None [ mkAction Initial false NoMove [[TI "x0"]]; mkAction Then true NoMove [[TI "ga"]];
                        mkAction Then true NoMove [[TI "ha"]] ];
        mkBranch None [ mkAction Initial false NoMove [[TI "y0"]] ] ]
      None None (Some [TI "jt"]) None None.
  Example ex4_run : run_opts cfg_join ex4 = ["(31,2)"; "E6"; "E1"; "E2"; "C6(1,2)"; "E7"; "C7(1)"; "E8"; "C8(11)"]%string.
  Proof. vm_compute. reflexivity. Qed.
  Example ex4_refines : refines cfg_join ex4.
  Proof. refines_tac. Qed.
  Example ex4_premises : exists sp, prepare cfg_join ex4 = Some sp /\
    (1 < List.length (actives sp 0))%nat /\ (List.length (actives sp 1) <= 1)%nat /\ (List.length (actives sp 2) <= 1)%nat.
  Proof. eexists. split; [vm_compute; reflexivity|]. cbn. repeat split; lia. Qed.

  (* join! { x0, y0, custom_joiner(jc) lazy_branches(true) } with a joiner that does NOT call the closures
     it is given: no event of a branch (E1, E2) happens at all; a joiner that calls them: they happen, inside *)
  Definition ex5 : input :=
    mkInput
      [ mkBranch None [ mkAction Initial false NoMove [[TI "x0"]] ];
        mkBranch None [ mkAction Initial false NoMove [[TI "y0"]] ] ]
      None None (Some [TI "jc"]) None (Some true).
  Definition callsem_nocall (f : val) (ds : list dval) : comp dval := Vis (ECall f []) (fun v => Ret (DV v)).
  Example ex5_nocall_run : run_opts_with callsem_nocall cfg_join ex5 = ["(100,200)"; "E4"; "C4()"]%string.
  Proof. vm_compute. reflexivity. Qed.
  Definition callsem_callall (f : val) (ds : list dval) : comp dval :=
    let! _ := mapM (fun d => match d with DF g => g [] | _ => Panic P_ILLTYPED end) ds in
    Vis (ECall f []) (fun v => Ret (DV v)).
  Example ex5_call_run : run_opts_with callsem_callall cfg_join ex5 = ["(100,200)"; "E4"; "E1"; "E2"; "C4()"]%string.
  Proof. vm_compute. reflexivity. Qed.
  Example ex5_refines : refines cfg_join ex5.
  Proof. refines_tac. Qed.
  (* lazy_branch_runs_only_when_called applies: P = "an operand of a branch is evaluated" *)
  Definition branch_event (e : ev) : Prop :=
    match e with EEval o _ => o = [TI "x0"] \/ o = [TI "y0"] | _ => False end.
  Example ex5_no_branch_event : exists sp, prepare cfg_join ex5 = Some sp /\
    forall st, no_event branch_event
                 (step_result_opts c_msem c_dotsem callsem_nocall c_await (resolve cfg_join ex5) sp 0 st).
  Proof.
    eexists. split; [vm_compute; reflexivity|]. intros st.
    apply (lazy_branch_runs_only_when_called c_msem c_dotsem callsem_nocall c_await _ _ 0 st [TI "jc"]); try reflexivity.
    - cbn. lia.
    - cbn. intros [H|H]; discriminate H.
    - intros jv ds. cbn. split; [exact (fun H => H)|]. intros v. exact I.
  Qed.
End Examples.

Print Assumptions Examples.ex1_refines.
Print Assumptions Examples.ex5_no_branch_event.
