(** * AsyncProps.v -- theorems about the poll-level machine [Join.Async].

    The theorems about reachable states are for ARBITRARY scripts / program shapes and for EVERY
    action list (flips in any order and batch, spurious polls, task runs at any time); those of
    section 7, [poll_leaf_progress] and [task_completion_notifies] are about a single call of a
    machine function; section 9 evaluates examples.  No axioms.
    See ASYNC_NOTES.md for the list with one line each. *)

From Coq Require Import List NArith Bool Arith Lia.
Import ListNotations.
Require Import Join.Async.


(** * 0. Preliminaries *)

(** ** Lists *)

Lemma memN_true_iff : forall g l, memN g l = true <-> In g l.
Proof.
  intros g l. unfold memN. rewrite existsb_exists. split.
  - intros [x [Hin Heq]]. apply N.eqb_eq in Heq. subst x. exact Hin.
  - intros Hin. exists g. split; [exact Hin | apply N.eqb_refl].
Qed.

Lemma memn_true_iff : forall t l, memn t l = true <-> In t l.
Proof.
  intros t l. unfold memn. rewrite existsb_exists. split.
  - intros [x [Hin Heq]]. apply Nat.eqb_eq in Heq. subst x. exact Hin.
  - intros Hin. exists t. split; [exact Hin | apply Nat.eqb_refl].
Qed.

Lemma memN_cons_true : forall g g' l, memN g l = true -> memN g (g' :: l) = true.
Proof. intros g g' l H. apply memN_true_iff. right. apply memN_true_iff. exact H. Qed.

Lemma memN_cons_same : forall g l, memN g (g :: l) = true.
Proof. intros g l. apply memN_true_iff. left. reflexivity. Qed.

Lemma memN_cons_other : forall g g' l, g <> g' -> memN g (g' :: l) = memN g l.
Proof.
  intros g g' l Hne. unfold memN. cbn [existsb].
  destruct (N.eqb g g') eqn:E; [apply N.eqb_eq in E; congruence | reflexivity].
Qed.

Lemma memn_app_l : forall t l l', memn t l = true -> memn t (l ++ l') = true.
Proof. intros t l l' H. apply memn_true_iff. apply in_or_app. left. apply memn_true_iff. exact H. Qed.

Lemma memn_app_last : forall t l, memn t (l ++ [t]) = true.
Proof. intros t l. apply memn_true_iff. apply in_or_app. right. left. reflexivity. Qed.

Lemma Forall2_In_r : forall (A B : Type) (R : A -> B -> Prop) l l' y,
  Forall2 R l l' -> In y l' -> exists x, In x l /\ R x y.
Proof.
  intros A B R l l' y H. induction H as [|a b l l' Hab H IH]; intros Hin; [destruct Hin|].
  destruct Hin as [<-|Hin]; [exists a; split; [left; reflexivity | exact Hab]|].
  destruct (IH Hin) as [x [H1 H2]]. exists x. split; [right; exact H1 | exact H2].
Qed.

Lemma Forall2_In_l : forall (A B : Type) (R : A -> B -> Prop) l l' x,
  Forall2 R l l' -> In x l -> exists y, In y l' /\ R x y.
Proof.
  intros A B R l l' x H. induction H as [|a b l l' Hab H IH]; intros Hin; [destruct Hin|].
  destruct Hin as [<-|Hin]; [exists b; split; [left; reflexivity | exact Hab]|].
  destruct (IH Hin) as [y [H1 H2]]. exists y. split; [right; exact H1 | exact H2].
Qed.

(** ** Reachable states

    Every theorem about "every action list" is an invariant carried through [run_async_ind]
    (state and trace so far) or, when the trace does not matter, [run_async_ind_state]. *)

Lemma run_async_app : forall a1 a2 st,
  run_async (a1 ++ a2) st =
  let (st1, o1) := run_async a1 st in
  let (st2, o2) := run_async a2 st1 in (st2, o1 ++ o2).
Proof.
  induction a1 as [|a a1 IH]; intros a2 st; cbn [run_async app].
  - destruct (run_async a2 st) as [st2 o2]. reflexivity.
  - destruct (step a st) as [st1 o1]. rewrite IH.
    destruct (run_async a1 st1) as [st2 o2]. destruct (run_async a2 st2) as [st3 o3].
    rewrite app_assoc. reflexivity.
Qed.

Lemma run_async_cons : forall a acts st,
  fst (run_async (a :: acts) st) = fst (run_async acts (fst (step a st))).
Proof.
  intros a acts st. cbn [run_async]. destruct (step a st) as [st1 o1]. cbn [fst].
  destruct (run_async acts st1). reflexivity.
Qed.

Lemma run_async_snoc : forall acts a st,
  fst (run_async (acts ++ [a]) st) = fst (step a (fst (run_async acts st))).
Proof.
  intros acts a st. rewrite run_async_app. destruct (run_async acts st) as [st1 o1]. cbn [run_async fst].
  destruct (step a st1) as [st2 o2]. reflexivity.
Qed.

Lemma run_async_ind : forall (I : state -> list obs -> Prop),
  (forall st tr a, I st tr -> I (fst (step a st)) (tr ++ snd (step a st))) ->
  forall acts st tr, I st tr -> I (fst (run_async acts st)) (tr ++ snd (run_async acts st)).
Proof.
  intros I Hstep. induction acts as [|a acts IH]; intros st tr HI; cbn [run_async].
  - cbn [fst snd]. rewrite app_nil_r. exact HI.
  - specialize (Hstep st tr a HI). destruct (step a st) as [st1 o1]. specialize (IH st1 _ Hstep).
    destruct (run_async acts st1) as [st2 o2]. cbn [fst snd] in *. rewrite app_assoc. exact IH.
Qed.

Lemma run_async_ind_state : forall (I : state -> Prop) st0,
  I st0 -> (forall st a, I st -> I (fst (step a st))) ->
  forall acts, I (fst (run_async acts st0)).
Proof.
  intros I st0 H0 Hstep acts. apply (run_async_ind (fun st _ => I st) (fun st _ a => Hstep st a) acts st0 [] H0).
Qed.

(** ** The three actions, without their tuples *)

Inductive flipped (g : N) (st : state) : state -> list obs -> Prop :=
| flipped_again : memN g (s_ready st) = true -> flipped g st st []
| flipped_new : forall rq o, memN g (s_ready st) = false ->
    wake_all (s_tasks st) (map r_w (filter (on_gate g) (s_regs st))) (s_runq st) = (rq, o) ->
    flipped g st (mkState (s_try st) (g :: s_ready st) (filter (fun r => negb (on_gate g r)) (s_regs st))
                          (s_tasks st) rq (s_root st)) o.

Lemma do_flip_cases : forall g st, flipped g st (fst (do_flip g st)) (snd (do_flip g st)).
Proof.
  intros g st. unfold do_flip. destruct (memN g (s_ready st)) eqn:Eg; [exact (flipped_again _ _ Eg)|].
  destruct (wake_all _ _ _) as [rq o] eqn:Ew. exact (flipped_new _ _ _ _ Eg Ew).
Qed.

Inductive polled (st : state) : state -> list obs -> Prop :=
| polled_gone : forall r, s_root st = RFin r -> polled st st [OGone]
| polled_run : forall n cs rest rt regs tasks runq o, s_root st = RRun n cs rest ->
    poll_steps (s_try st) (s_ready st) n cs rest (s_regs st) (s_tasks st) (s_runq st) = (rt, regs, tasks, runq, o) ->
    polled st (mkState (s_try st) (s_ready st) regs tasks runq rt) o.

Lemma do_poll_cases : forall st, polled st (fst (do_poll st)) (snd (do_poll st)).
Proof.
  intros st. unfold do_poll. destruct (s_root st) as [n cs rest|r] eqn:Er; [|exact (polled_gone _ _ Er)].
  destruct (poll_steps _ _ _ _ _ _ _ _) as [[[[rt regs] tasks] runq] o] eqn:Ep. exact (polled_run _ _ _ _ _ _ _ _ _ Er Ep).
Qed.

Lemma do_run_tasks_eq : forall st, exists tasks regs o,
  run_queue (s_runq st) (s_ready st) (s_tasks st) (s_regs st) = (tasks, regs, o) /\
  do_run_tasks st = (mkState (s_try st) (s_ready st) regs tasks [] (s_root st), o).
Proof.
  intros st. unfold do_run_tasks. destruct (run_queue _ _ _ _) as [[tasks regs] o]. exists tasks, regs, o. auto.
Qed.

Lemma ready_do_poll : forall st, s_ready (fst (do_poll st)) = s_ready st.
Proof. intros st. destruct (do_poll_cases st); reflexivity. Qed.

Lemma ready_do_run_tasks : forall st, s_ready (fst (do_run_tasks st)) = s_ready st.
Proof. intros st. destruct (do_run_tasks_eq st) as [tasks [regs [o [_ ->]]]]. reflexivity. Qed.

Lemma root_do_run_tasks : forall st, s_root (fst (do_run_tasks st)) = s_root st.
Proof. intros st. destruct (do_run_tasks_eq st) as [tasks [regs [o [_ ->]]]]. reflexivity. Qed.

Lemma runq_do_run_tasks : forall st, s_runq (fst (do_run_tasks st)) = [].
Proof. intros st. destruct (do_run_tasks_eq st) as [tasks [regs [o [_ ->]]]]. reflexivity. Qed.

(** * 1. (a) Lazy: nothing at all happens before the first [Poll] *)

Definition no_poll (acts : list action) : Prop := forall a, In a acts -> a <> Poll.

Definition untouched (t : tree) (st : state) : Prop :=
  s_regs st = [] /\ s_tasks st = [] /\ s_runq st = [] /\ s_root st = RRun 0 [] (tr_steps t) /\ s_try st = tr_try t.

Lemma untouched_step : forall t st a,
  untouched t st -> a <> Poll -> untouched t (fst (step a st)) /\ snd (step a st) = [].
Proof.
  intros t st a [Hr [Ht [Hq [Hroot Htry]]]] Ha. destruct a as [g| |]; [|congruence|]; cbn [step].
  - destruct (do_flip_cases g st) as [_|rq o _ Ew]; [repeat split; assumption|].
    rewrite Hr, Hq in Ew. injection Ew as <- <-. unfold untouched. cbn. rewrite Hr. repeat split; assumption.
  - destruct (do_run_tasks_eq st) as [tasks [regs [o [Er ->]]]]. rewrite Hq, Hr, Ht in Er. injection Er as <- <- <-.
    unfold untouched. cbn. repeat split; assumption.
Qed.

Lemma untouched_run : forall t acts st,
  untouched t st -> no_poll acts ->
  snd (run_async acts st) = [] /\ untouched t (fst (run_async acts st)).
Proof.
  intros t. induction acts as [|a acts IH]; intros st Hu Hnp; cbn [run_async].
  - cbn. auto.
  - destruct (untouched_step _ _ _ Hu (Hnp a (or_introl eq_refl))) as [Hu1 Ho1].
    destruct (step a st) as [st1 o1]. cbn [fst snd] in Hu1, Ho1. subst o1.
    assert (Hnp' : no_poll acts) by (intros a' Hin; apply Hnp; right; exact Hin).
    specialize (IH st1 Hu1 Hnp'). destruct (run_async acts st1) as [st2 o2]. exact IH.
Qed.

(** (a) For every action list without [Poll] (flips in any order, [RunTasks] at any time):
    no observation at all, no task, no waker slot, the root still unstarted. *)
Theorem lazy_until_polled : forall t acts,
  no_poll acts ->
  snd (run_async acts (init t)) = [] /\ untouched t (fst (run_async acts (init t))).
Proof.
  intros t acts Hnp. apply untouched_run; [| exact Hnp].
  unfold untouched, init; cbn. repeat split; reflexivity.
Qed.

Corollary lazy_shape : forall p acts, no_poll acts -> run_shape p acts = [].
Proof. intros p acts H. unfold run_shape. apply (lazy_until_polled (skeleton p) acts H). Qed.

(** * 2. Building blocks: what one poll of a script / leaf does *)

Definition ev_obs (k b : nat) (x : obs) : Prop :=
  (exists e, x = OEv k b e) \/ (exists g r, x = OChk k b g r).

Definition gates_ready (ready : list N) (s : list atom) : Prop :=
  forall g, In (AGate g) s -> memN g ready = true.

Lemma run_script_spec : forall ready k b s r o,
  run_script ready k b s = (r, o) ->
  Forall (ev_obs k b) o /\
  match r with
  | SFin => gates_ready ready s
  | SPark g s' => memN g ready = false /\ exists pre s'', s = pre ++ s' /\ s' = AGate g :: s''
  end.
Proof.
  intros ready k b. induction s as [|a s IH]; intros r o E; cbn [run_script] in E.
  - injection E as <- <-. split; [constructor | intros g []].
  - (* an atom that lets the script go on: an event, or a ready gate *)
    assert (Hgo : forall x r1 o1, run_script ready k b s = (r1, o1) -> ev_obs k b x ->
                  (forall g, a = AGate g -> memN g ready = true) ->
                  Forall (ev_obs k b) (x :: o1) /\
                  match r1 with
                  | SFin => gates_ready ready (a :: s)
                  | SPark g s' => memN g ready = false /\ exists pre s'', a :: s = pre ++ s' /\ s' = AGate g :: s''
                  end).
    { intros x r1 o1 E1 Hx Ha. destruct (IH _ _ E1) as [Hf Hr]. split; [constructor; assumption|].
      destruct r1 as [|g' s'].
      - intros g [Heq|Hg]; [exact (Ha g Heq) | exact (Hr g Hg)].
      - destruct Hr as [Hm [pre [s'' [-> Hs']]]]. split; [exact Hm|]. exists (a :: pre), s''. auto. }
    destruct a as [e|g].
    + destruct (run_script ready k b s) as [r1 o1] eqn:E1. injection E as <- <-.
      apply (Hgo _ _ _ eq_refl); [left; eauto | discriminate].
    + destruct (memN g ready) eqn:Em.
      * destruct (run_script ready k b s) as [r1 o1] eqn:E1. injection E as <- <-.
        apply (Hgo _ _ _ eq_refl); [right; eauto | intros g0 [= <-]; exact Em].
      * injection E as <- <-. split; [constructor; [right; eauto | constructor]|].
        split; [exact Em|]. exists [], s. auto.
Qed.

Definition leaf_suffix (l l' : leaf) : Prop :=
  l_k l' = l_k l /\ l_b l' = l_b l /\ l_ok l' = l_ok l /\ exists pre, l_script l = pre ++ l_script l'.

Lemma leaf_suffix_refl : forall l, leaf_suffix l l.
Proof. intros l. repeat split. exists []. reflexivity. Qed.

Lemma leaf_suffix_trans : forall a b c, leaf_suffix a b -> leaf_suffix b c -> leaf_suffix a c.
Proof.
  intros a b c [H1 [H2 [H3 [p1 H4]]]] [K1 [K2 [K3 [p2 K4]]]].
  split; [congruence|]. split; [congruence|]. split; [congruence|].
  exists (p1 ++ p2). rewrite H4, K4. apply app_assoc.
Qed.

Lemma leaf_suffix_set_script : forall l pre s, l_script l = pre ++ s -> leaf_suffix l (set_script l s).
Proof. intros l pre s H. repeat split. exists pre. exact H. Qed.

Lemma poll_leaf_spec : forall ready l r o,
  poll_leaf ready l = (r, o) ->
  exists o', Forall (ev_obs (l_k l) (l_b l)) o' /\
  match r with
  | LFin ok => ok = l_ok l /\ o = (OPoll (l_k l) (l_b l) :: o') ++ [ODone (l_k l) (l_b l) (l_ok l)] /\
               gates_ready ready (l_script l)
  | LPark l' g => o = OPoll (l_k l) (l_b l) :: o' /\ leaf_suffix l l' /\ memN g ready = false /\
                  exists s, l_script l' = AGate g :: s
  end.
Proof.
  intros ready l r o E. unfold poll_leaf in E.
  destruct (run_script ready (l_k l) (l_b l) (l_script l)) as [r1 o1] eqn:E1.
  destruct (run_script_spec _ _ _ _ _ _ E1) as [Hf Hr]. exists o1. split; [exact Hf|].
  destruct r1 as [|g s']; injection E as <- <-.
  - auto.
  - destruct Hr as [Hm [pre [s'' [Hs ->]]]]. split; [reflexivity|].
    split; [exact (leaf_suffix_set_script _ _ _ Hs)|]. split; [exact Hm|]. exists s''. reflexivity.
Qed.

Lemma poll_leaf_obs : forall (P : obs -> Prop) ready l r o,
  poll_leaf ready l = (r, o) ->
  P (OPoll (l_k l) (l_b l)) -> (forall x, ev_obs (l_k l) (l_b l) x -> P x) ->
  match r with
  | LFin _ => exists o1, o = o1 ++ [ODone (l_k l) (l_b l) (l_ok l)] /\ Forall P o1
  | LPark _ _ => Forall P o
  end.
Proof.
  intros P ready l r o E Hp He. destruct (poll_leaf_spec _ _ _ _ E) as [o' [Hf Hr]].
  assert (Ho : Forall P (OPoll (l_k l) (l_b l) :: o'))
    by (constructor; [exact Hp | exact (Forall_impl P He Hf)]).
  destruct r as [ok|l' g].
  - destruct Hr as [_ [-> _]]. eauto.
  - destruct Hr as [-> _]. exact Ho.
Qed.

Definition parked (ready : list N) (regs : list reg) (l : leaf) (w : wk) : Prop :=
  exists g s, l_script l = AGate g :: s /\ memN g ready = false /\ In (mkReg g (l_k l) (l_b l) w) regs.

Lemma poll_leaf_parked : forall ready l l' g o w,
  poll_leaf ready l = (LPark l' g, o) -> leaf_suffix l l' /\ parked ready [mkReg g (l_k l) (l_b l) w] l' w.
Proof.
  intros ready l l' g o w E. destruct (poll_leaf_spec _ _ _ _ E) as [_ [_ [_ [Hs [Hm [s Hl']]]]]].
  split; [exact Hs|]. destruct Hs as [Hk [Hb _]]. exists g, s. rewrite Hk, Hb. cbn. auto.
Qed.

Lemma ev_obs_step : forall k b x, ev_obs k b x -> obs_step x = Some k.
Proof. intros k b x [[e H]|[g [r H]]]; subst; reflexivity. Qed.

Lemma ev_obs_not_done : forall k b x k' b' ok, ev_obs k b x -> x <> ODone k' b' ok.
Proof. intros k b x k' b' ok [[e H]|[g [r H]]]; subst; discriminate. Qed.

Lemma ev_obs_not_root : forall k b x r, ev_obs k b x -> x <> ORoot r.
Proof. intros k b x r [[e H]|[g [r' H]]]; subst; discriminate. Qed.

(** ** Lists: [upd] *)

Lemma length_upd : forall (A : Type) (l : list A) n x, length (upd l n x) = length l.
Proof. induction l as [|y l IH]; intros [|n] x; cbn; auto. Qed.

Lemma nth_error_upd_same : forall (A : Type) (l : list A) n x,
  n < length l -> nth_error (upd l n x) n = Some x.
Proof.
  induction l as [|y l IH]; intros [|n] x H; cbn in *; try lia; auto. apply IH. lia.
Qed.

Lemma nth_error_upd_other : forall (A : Type) (l : list A) n m x,
  n <> m -> nth_error (upd l n x) m = nth_error l m.
Proof.
  induction l as [|y l IH]; intros [|n] [|m] x H; cbn; auto; try congruence.
Qed.

Lemma nth_error_Some_lt : forall (A : Type) (l : list A) n x, nth_error l n = Some x -> n < length l.
Proof. intros A l n x H. apply nth_error_Some. congruence. Qed.

Lemma nth_error_upd_inv : forall (A : Type) (l : list A) n m x y,
  nth_error (upd l n x) m = Some y ->
  (m = n /\ y = x /\ n < length l) \/ (m <> n /\ nth_error l m = Some y).
Proof.
  intros A l n m x y H. destruct (Nat.eq_dec m n) as [->|Hne].
  - left. assert (Hlt : n < length l).
    { apply nth_error_Some_lt in H. rewrite length_upd in H. exact H. }
    rewrite nth_error_upd_same in H by exact Hlt. inversion H. auto.
  - right. rewrite nth_error_upd_other in H by congruence. auto.
Qed.

Lemma map_upd_same : forall (A B : Type) (f : A -> B) l n x y,
  nth_error l n = Some y -> f x = f y -> map f (upd l n x) = map f l.
Proof.
  intros A B f. induction l as [|z l IH]; intros [|n] x y Hn Hf; cbn in *; try discriminate.
  - inversion Hn; subst. rewrite Hf. reflexivity.
  - rewrite (IH _ _ _ Hn Hf). reflexivity.
Qed.

(** ** Waker slots: [add_reg] is set insertion *)

Lemma wk_eqb_eq : forall a b, wk_eqb a b = true -> a = b.
Proof.
  intros [|t] [|u]; cbn; intros H; try discriminate; auto. apply Nat.eqb_eq in H. congruence.
Qed.

Lemma same_slot_eq : forall a b, same_slot a b = true -> a = b.
Proof.
  intros [g k b w] [g' k' b' w']. unfold same_slot. cbn [r_g r_k r_b r_w]. intros H.
  apply andb_true_iff in H. destruct H as [H Hw]. apply andb_true_iff in H. destruct H as [H Hb].
  apply andb_true_iff in H. destruct H as [Hg Hk].
  apply N.eqb_eq in Hg. apply Nat.eqb_eq in Hk. apply Nat.eqb_eq in Hb. apply wk_eqb_eq in Hw.
  subst. reflexivity.
Qed.

Lemma In_add_reg_old : forall r regs x, In x regs -> In x (add_reg r regs).
Proof.
  intros r regs x H. unfold add_reg. destruct (existsb (same_slot r) regs); [exact H|].
  apply in_or_app. left. exact H.
Qed.

Lemma In_add_reg_new : forall r regs, In r (add_reg r regs).
Proof.
  intros r regs. unfold add_reg. destruct (existsb (same_slot r) regs) eqn:E.
  - apply existsb_exists in E. destruct E as [x [Hin Hs]]. apply same_slot_eq in Hs. subst. exact Hin.
  - apply in_or_app. right. left. reflexivity.
Qed.

Lemma In_add_reg_inv : forall r regs x, In x (add_reg r regs) -> x = r \/ In x regs.
Proof.
  intros r regs x H. unfold add_reg in H. destruct (existsb (same_slot r) regs); [auto|].
  apply in_app_or in H. destruct H as [H|[H|[]]]; auto.
Qed.

Lemma In_add_regs_old : forall rs regs x, In x regs -> In x (add_regs rs regs).
Proof.
  induction rs as [|r rs IH]; intros regs x H; cbn [add_regs]; [exact H|].
  apply IH. apply In_add_reg_old. exact H.
Qed.

Lemma In_add_regs_new : forall rs regs x, In x rs -> In x (add_regs rs regs).
Proof.
  induction rs as [|r rs IH]; intros regs x H; cbn [add_regs]; [destruct H|].
  destruct H as [->|H]; [apply In_add_regs_old; apply In_add_reg_new | apply IH; exact H].
Qed.

Lemma In_add_regs_inv : forall rs regs x, In x (add_regs rs regs) -> In x rs \/ In x regs.
Proof.
  induction rs as [|r rs IH]; intros regs x H; cbn [add_regs] in H; [auto|].
  apply IH in H. destruct H as [H|H]; [left; right; exact H|].
  apply In_add_reg_inv in H. destruct H as [->|H]; [left; left; reflexivity | right; exact H].
Qed.

(** ** Join-handle slots *)

Definition tcore (tk : task) : leaf * bool := (t_leaf tk, t_fin tk).

(** [set_jw] and [drop_jw] change nothing but the join-waker bit. *)
Lemma core_set_jw : forall js tasks, map tcore (set_jw js tasks) = map tcore tasks.
Proof.
  induction js as [|j js IH]; intros tasks; cbn [set_jw]; [reflexivity|].
  rewrite IH. unfold set_jw1. destruct (nth_error tasks j) as [tk|] eqn:E; [|reflexivity].
  apply (map_upd_same _ _ tcore tasks j _ tk E). reflexivity.
Qed.

Lemma core_drop_jw : forall tasks, map tcore (drop_jw tasks) = map tcore tasks.
Proof. intros tasks. unfold drop_jw. rewrite map_map. reflexivity. Qed.

Lemma core_nth : forall tasks tasks' t tk',
  map tcore tasks' = map tcore tasks -> nth_error tasks' t = Some tk' ->
  exists tk, nth_error tasks t = Some tk /\ t_leaf tk' = t_leaf tk /\ t_fin tk' = t_fin tk.
Proof.
  intros tasks tasks' t tk' H Hn. apply (map_nth_error tcore) in Hn. rewrite H, nth_error_map in Hn.
  destruct (nth_error tasks t) as [tk|]; [|discriminate]. injection Hn as Hl Hf. eauto.
Qed.

Lemma set_jw1_spec : forall t tasks u tk',
  nth_error (set_jw1 t tasks) u = Some tk' ->
  exists tk, nth_error tasks u = Some tk /\ (t_jw tk = true -> t_jw tk' = true) /\ (u = t -> t_jw tk' = true).
Proof.
  intros t tasks u tk' H. unfold set_jw1 in H.
  destruct (nth_error tasks t) as [tk0|] eqn:E0.
  - apply nth_error_upd_inv in H. destruct H as [[-> [-> Hlt]]|[Hne H]].
    + exists tk0. cbn. auto.
    + exists tk'. split; [exact H|]. split; [auto|]. intros; congruence.
  - exists tk'. split; [exact H|]. split; [auto|]. intros ->. congruence.
Qed.

Lemma length_set_jw1 : forall t tasks, length (set_jw1 t tasks) = length tasks.
Proof. intros t tasks. unfold set_jw1. destruct (nth_error tasks t); [apply length_upd | reflexivity]. Qed.

Lemma length_set_jw : forall js tasks, length (set_jw js tasks) = length tasks.
Proof.
  induction js as [|j js IH]; intros tasks; cbn [set_jw]; [reflexivity|].
  rewrite IH. apply length_set_jw1.
Qed.

Lemma set_jw_spec : forall js tasks u tk',
  nth_error (set_jw js tasks) u = Some tk' ->
  exists tk, nth_error tasks u = Some tk /\ (t_jw tk = true -> t_jw tk' = true) /\ (In u js -> t_jw tk' = true).
Proof.
  induction js as [|j js IH]; intros tasks u tk' H; cbn [set_jw] in H.
  - exists tk'. split; [exact H|]. split; [auto|]. intros [].
  - apply IH in H. destruct H as [tk1 [H1 [Hm1 Hi1]]].
    apply set_jw1_spec in H1. destruct H1 as [tk [H0 [Hm0 Hi0]]].
    exists tk. split; [exact H0|]. split; [auto|]. intros [->|Hin]; auto.
Qed.

Lemma length_drop_jw : forall tasks, length (drop_jw tasks) = length tasks.
Proof. intros. unfold drop_jw. apply map_length. Qed.

(** ** Waking *)

Lemma wake_all_spec : forall tasks ws runq rq o,
  wake_all tasks ws runq = (rq, o) ->
  (forall t, memn t runq = true -> memn t rq = true) /\
  (forall t, In (WTask t) ws -> task_fin tasks t = false -> memn t rq = true) /\
  (In WRoot ws -> In ONotify o) /\
  Forall (fun x => x = ONotify) o.
Proof.
  intros tasks. induction ws as [|w ws IH]; intros runq rq o E; cbn [wake_all] in E.
  - inversion E; subst. split; [auto|]. split; [intros t []|]. split; [intros []|constructor].
  - destruct (wake tasks w runq) as [rq1 o1] eqn:E1.
    destruct (wake_all tasks ws rq1) as [rq2 o2] eqn:E2. inversion E; subst.
    destruct (IH _ _ _ E2) as [Hm [Ht [Hr Hf]]].
    (* the same four facts of the single [wake] *)
    assert (Hw : (forall t, memn t runq = true -> memn t rq1 = true) /\
                 (forall t, w = WTask t -> task_fin tasks t = false -> memn t rq1 = true) /\
                 (w = WRoot -> In ONotify o1) /\ Forall (fun x => x = ONotify) o1).
    { destruct w as [|t0]; cbn [wake] in E1.
      - inversion E1; subst. split; [auto|]. split; [intros; discriminate|].
        split; [intros; left; reflexivity|]. constructor; [reflexivity|constructor].
      - destruct (task_fin tasks t0 || memn t0 runq) eqn:Eb; inversion E1; subst.
        + split; [auto|]. split.
          * intros t Heq Hfin. inversion Heq; subst. rewrite Hfin in Eb. cbn in Eb. exact Eb.
          * split; [intros; discriminate|constructor].
        + split; [intros t Hin; apply memn_app_l; exact Hin|]. split.
          * intros t Heq _. inversion Heq; subst. apply memn_app_last.
          * split; [intros; discriminate|constructor]. }
    destruct Hw as [Hm1 [Ht1 [Hr1 Hf1]]]. split; [|split; [|split]].
    + intros t Hin. apply Hm. apply Hm1. exact Hin.
    + intros t [->|Hin] Hfin; [apply Hm; apply Ht1; auto | apply Ht; auto].
    + intros [->|Hin]; apply in_or_app; [left; auto | right; auto].
    + apply Forall_app. auto.
Qed.

(** ** One poll of a child *)

Inductive child_polled (try : bool) (ready : list N) (tasks : list task)
  : child -> child -> list obs -> list reg -> list nat -> cstat -> Prop :=
| cp_done : child_polled try ready tasks CDone CDone [] [] [] CFinOk
| cp_wait : forall t js,
    (forall tk, nth_error tasks t = Some tk -> t_fin tk = false) -> (t < length tasks -> js = [t]) ->
    child_polled try ready tasks (CHandle t) (CHandle t) [] [] js CPend
| cp_joined : forall t tk, nth_error tasks t = Some tk -> t_fin tk = true ->
    child_polled try ready tasks (CHandle t) CDone [] [] []
      (fin_stat try (l_ok (t_leaf tk)) (l_k (t_leaf tk)) (l_b (t_leaf tk)))
| cp_ran : forall l o, poll_leaf ready l = (LFin (l_ok l), o) ->
    child_polled try ready tasks (CLeaf l) CDone o [] [] (fin_stat try (l_ok l) (l_k l) (l_b l))
| cp_parked : forall l l' g o, poll_leaf ready l = (LPark l' g, o) ->
    leaf_suffix l l' -> parked ready [mkReg g (l_k l) (l_b l) WRoot] l' WRoot ->
    child_polled try ready tasks (CLeaf l) (CLeaf l') o [mkReg g (l_k l) (l_b l) WRoot] [] CPend.

Lemma poll_child_cases : forall try ready tasks c c' o rs js st,
  poll_child try ready tasks c = (c', o, rs, js, st) -> child_polled try ready tasks c c' o rs js st.
Proof.
  intros try ready tasks c c' o rs js st E. destruct c as [l|t|]; cbn [poll_child] in E.
  - destruct (poll_leaf ready l) as [[ok|l' g] ol] eqn:El; injection E as <- <- <- <- <-.
    + destruct (poll_leaf_spec _ _ _ _ El) as [_ [_ [-> _]]]. exact (cp_ran _ _ _ _ _ El).
    + apply (cp_parked _ _ _ _ _ _ _ El); apply (poll_leaf_parked _ _ _ _ _ WRoot El).
  - destruct (nth_error tasks t) as [tk|] eqn:En; [destruct (t_fin tk) eqn:Ef|]; injection E as <- <- <- <- <-.
    + exact (cp_joined _ _ _ _ _ En Ef).
    + apply cp_wait; [congruence | reflexivity].
    + apply cp_wait; [congruence | intros Hlt; apply nth_error_None in En; lia].
  - injection E as <- <- <- <- <-. apply cp_done.
Qed.

Lemma fin_stat_not_pend : forall try ok k b, fin_stat try ok k b <> CPend.
Proof. intros try ok k b. unfold fin_stat. destruct (try && negb ok); discriminate. Qed.

(** * 2a. The four loops of the machine, each with its induction done once

    Every invariant below has to be carried through [poll_children], [inst_children],
    [poll_steps] and [run_queue].  Each loop gets one rule here; an invariant then only says
    what it needs of a single iteration.  The instances for the main invariants carry a
    suffix: _W the wakers ([Winv], section 3), _G the gates ([state_gates_in], section 4), _E every
    gate ready (completion, section 5), _S structure and trace ([Sinv], section 6), _PT the try kinds
    without tasks ([PTinv], section 7a), _len the atoms left (section 8); smaller facts go through
    the same rules under names of their own.

    The rules for [poll_children] and [inst_children] are applied with [refine (rule .. _ _ _)]
    to a goal of the form [forall cs .., loop cs .. = (..) -> ..], from which [P] is found by
    unification; [run_queue_rule] is given [I] and the equation [(4 := E)]. *)

Definition jcomb (st : cstat) (st2 : jstat) : jstat :=
  match st2 with
  | JFail k b => JFail k b
  | JPend => JPend
  | JAll => match st with CPend => JPend | _ => JAll end
  end.

Section PollChildrenRule.
Variables (try : bool) (ready : list N) (tasks : list task).
Variable P : list child -> list child -> list obs -> list reg -> list nat -> jstat -> Prop.
Hypothesis Pnil : P [] [] [] [] [] JAll.
Hypothesis Pfail : forall c cs c' o rs js k b,
  poll_child try ready tasks c = (c', o, rs, js, CFail k b) -> P (c :: cs) (c' :: cs) o rs js (JFail k b).
Hypothesis Pcons : forall c cs c' o rs js st cs2 o2 rs2 js2 st2,
  poll_child try ready tasks c = (c', o, rs, js, st) -> (forall k b, st <> CFail k b) ->
  poll_children try ready tasks cs = (cs2, o2, rs2, js2, st2) -> P cs cs2 o2 rs2 js2 st2 ->
  P (c :: cs) (c' :: cs2) (o ++ o2) (rs ++ rs2) (js ++ js2) (jcomb st st2).

Lemma poll_children_rule : forall cs cs' o rs js st,
  poll_children try ready tasks cs = (cs', o, rs, js, st) -> P cs cs' o rs js st.
Proof.
  induction cs as [|c cs IH]; intros cs' o rs js st E; cbn [poll_children] in E.
  - injection E as <- <- <- <- <-. exact Pnil.
  - destruct (poll_child try ready tasks c) as [[[[c1 o1] rs1] js1] st1] eqn:Ec.
    destruct (poll_children try ready tasks cs) as [[[[cs2 o2] rs2] js2] st2] eqn:Ecs.
    specialize (IH _ _ _ _ _ eq_refl).
    destruct st1 as [| |k b]; injection E as <- <- <- <- <-.
    + apply (Pcons _ _ _ _ _ _ _ _ _ _ _ _ Ec); [discriminate | exact Ecs | exact IH].
    + apply (Pcons _ _ _ _ _ _ _ _ _ _ _ _ Ec); [discriminate | exact Ecs | exact IH].
    + exact (Pfail _ _ _ _ _ _ _ _ Ec).
Qed.
End PollChildrenRule.

Section InstChildrenRule.
Variable P : list cexpr -> list task -> list nat -> list child -> list task -> list nat -> list obs -> Prop.
Hypothesis Pnil : forall tasks runq, P [] tasks runq [] tasks runq [].
Hypothesis Pinline : forall l cs tasks runq ch tk rq o,
  inst_children cs tasks runq = (ch, tk, rq, o) -> P cs tasks runq ch tk rq o ->
  P (CInline l :: cs) tasks runq (CLeaf l :: ch) tk rq (ONew (l_k l) (l_b l) :: o).
Hypothesis Pspawn : forall l cs tasks runq ch tk rq o,
  inst_children cs (tasks ++ [mkTask l false false]) (runq ++ [length tasks]) = (ch, tk, rq, o) ->
  P cs (tasks ++ [mkTask l false false]) (runq ++ [length tasks]) ch tk rq o ->
  P (CSpawn l :: cs) tasks runq (CHandle (length tasks) :: ch) tk rq (ONew (l_k l) (l_b l) :: o).

Lemma inst_children_rule : forall cs tasks runq ch tk rq o,
  inst_children cs tasks runq = (ch, tk, rq, o) -> P cs tasks runq ch tk rq o.
Proof.
  induction cs as [|[l|l] cs IH]; intros tasks runq ch tk rq o E; cbn [inst_children] in E.
  - injection E as <- <- <- <-. apply Pnil.
  - destruct (inst_children cs tasks runq) as [[[ch1 tk1] rq1] o1] eqn:E1.
    injection E as <- <- <- <-. exact (Pinline _ _ _ _ _ _ _ _ E1 (IH _ _ _ _ _ _ E1)).
  - destruct (inst_children cs (tasks ++ [mkTask l false false]) (runq ++ [length tasks]))
      as [[[ch1 tk1] rq1] o1] eqn:E1.
    injection E as <- <- <- <-. exact (Pspawn _ _ _ _ _ _ _ _ E1 (IH _ _ _ _ _ _ E1)).
Qed.
End InstChildrenRule.

(** A lone [chain.await] is started like a one-child join. *)
Definition sexpr_cexprs (s : sexpr) : list cexpr :=
  match s with SAwait l => [CInline l] | SJoin cs => cs end.

Lemma inst_step_eq : forall s tasks runq, inst_step s tasks runq = inst_children (sexpr_cexprs s) tasks runq.
Proof. intros [l|cs] tasks runq; reflexivity. Qed.

(** One poll of the root: [I] holds whenever a round of the awaited step's children is about to
    be polled, [Q] is what is wanted of the result; [tr] is the trace so far ([[]] where [I] and
    [Q] ignore it).  [round_ok] is all an invariant has to show: one round keeps [I] or
    establishes [Q]. *)
Section PollStepsRule.
Variables (try : bool) (ready : list N).
Variable I : nat -> list child -> list sexpr -> list reg -> list task -> list nat -> list obs -> Prop.
Variable Q : root -> list reg -> list task -> list nat -> list obs -> Prop.
Definition round_ok : Prop := forall n cs rest regs tasks runq tr cs' o rs js st,
  I n cs rest regs tasks runq tr ->
  poll_children try ready tasks cs = (cs', o, rs, js, st) ->
  match st with
  | JPend => Q (RRun n cs' rest) (add_regs rs regs) (set_jw js tasks) runq (tr ++ o ++ [ORoot RPending])
  | JFail k b => Q (RFin (RErr k b)) (drop_regs (add_regs rs regs)) (drop_jw (set_jw js tasks)) runq
                   (tr ++ o ++ [ORoot (RErr k b)])
  | JAll =>
      match rest with
      | [] => Q (RFin ROk) (drop_regs (add_regs rs regs)) (drop_jw (set_jw js tasks)) runq (tr ++ o ++ [ORoot ROk])
      | s :: rest' => forall cs2 tasks2 runq2 o2,
          inst_children (sexpr_cexprs s) (set_jw js tasks) runq = (cs2, tasks2, runq2, o2) ->
          I (S n) cs2 rest' (add_regs rs regs) tasks2 runq2 (tr ++ o ++ o2)
      end
  end.

Lemma poll_steps_rule : round_ok -> forall rest n cs regs tasks runq tr rt regs' tasks' runq' o,
  I n cs rest regs tasks runq tr ->
  poll_steps try ready n cs rest regs tasks runq = (rt, regs', tasks', runq', o) ->
  Q rt regs' tasks' runq' (tr ++ o).
Proof.
  (* [poll_steps] unfolds only once [rest] is a constructor, though all but its [JAll] branch ignore [rest] *)
  intros Hround.
  induction rest as [|s rest IH]; intros n cs regs tasks runq tr rt regs' tasks' runq' o HI E;
    cbn [poll_steps] in E;
    destruct (poll_children try ready tasks cs) as [[[[cs1 o1] rs1] js1] st1] eqn:Ec;
    pose proof (Hround _ _ _ _ _ _ _ _ _ _ _ _ HI Ec) as H; destruct st1 as [| |k b]; cbn zeta in E.
  (* every case but [JAll] with a step to start returns at once *)
  1-4, 6: injection E as <- <- <- <- <-; exact H.
  rewrite inst_step_eq in E.
  destruct (inst_children (sexpr_cexprs s) (set_jw js1 tasks) runq) as [[[cs2 tasks2] runq2] o2] eqn:Ei.
  destruct (poll_steps try ready (S n) cs2 rest (add_regs rs1 regs) tasks2 runq2)
    as [[[[rt3 regs3] tasks3] runq3] o3] eqn:Ep.
  injection E as <- <- <- <- <-. rewrite !app_assoc, <- (app_assoc tr).
  exact (IH _ _ _ _ _ _ _ _ _ _ _ (H _ _ _ _ eq_refl) Ep).
Qed.
End PollStepsRule.
Arguments poll_steps_rule {try ready I Q} _ {rest n cs regs tasks runq} tr {rt regs' tasks' runq' o} _ _.

(** [RunTasks]: [I tasks regs q tr] with [q] the part of the queue still to be served and [tr]
    the trace so far ([[]] where [I] ignores it). *)
Section RunQueueRule.
Variable ready : list N.
Variable I : list task -> list reg -> list nat -> list obs -> Prop.
Hypothesis Hskip : forall tasks regs t q tr,
  I tasks regs (t :: q) tr -> (forall tk, nth_error tasks t = Some tk -> t_fin tk = true) -> I tasks regs q tr.
Hypothesis Hpoll : forall tasks regs t q tr tk tk' o rs,
  I tasks regs (t :: q) tr -> nth_error tasks t = Some tk -> t_fin tk = false ->
  poll_task ready t tk = (tk', o, rs) -> I (upd tasks t tk') (add_regs rs regs) q (tr ++ o).

Lemma run_queue_rule : forall q tasks regs tr tasks' regs' o,
  I tasks regs q tr -> run_queue q ready tasks regs = (tasks', regs', o) -> I tasks' regs' [] (tr ++ o).
Proof.
  induction q as [|t q IH]; intros tasks regs tr tasks' regs' o HI E; cbn [run_queue] in E.
  - injection E as <- <- <-. rewrite app_nil_r. exact HI.
  - destruct (nth_error tasks t) as [tk|] eqn:En; [destruct (t_fin tk) eqn:Ef|].
    + eapply IH; [|exact E]. apply (Hskip _ _ _ _ _ HI). congruence.
    + destruct (poll_task ready t tk) as [[tk1 o1] rs1] eqn:Ept.
      destruct (run_queue q ready (upd tasks t tk1) (add_regs rs1 regs)) as [[tasks2 regs2] o2] eqn:Er.
      injection E as <- <- <-. rewrite app_assoc.
      exact (IH _ _ _ _ _ _ (Hpoll _ _ _ _ _ _ _ _ _ HI En Ef Ept) Er).
    + eapply IH; [|exact E]. apply (Hskip _ _ _ _ _ HI). congruence.
Qed.
End RunQueueRule.

Definition child_suffix (c c' : child) : Prop :=
  c' = c \/ c' = CDone \/ exists l l', c = CLeaf l /\ c' = CLeaf l' /\ leaf_suffix l l'.

Lemma poll_children_suffix : forall try ready tasks cs cs' o rs js st,
  poll_children try ready tasks cs = (cs', o, rs, js, st) -> Forall2 child_suffix cs cs'.
Proof.
  intros try ready tasks.
  assert (H1 : forall c c' o rs js st, poll_child try ready tasks c = (c', o, rs, js, st) -> child_suffix c c').
  { intros c c' o rs js st E. unfold child_suffix.
    destruct (poll_child_cases _ _ _ _ _ _ _ _ _ E) as [|t js _ _|t tk _ _|l o _|l l' g o _ Hs _]; auto.
    right. right. exists l, l'. auto. }
  refine (poll_children_rule try ready tasks _ _ _ _).
  - constructor.
  - intros c cs c' o rs js k b Ec. constructor; [exact (H1 _ _ _ _ _ _ Ec)|].
    induction cs; constructor; [left; reflexivity | assumption].
  - intros c cs c' o rs js st cs2 o2 rs2 js2 st2 Ec _ _ IH. constructor; [exact (H1 _ _ _ _ _ _ Ec) | exact IH].
Qed.

Lemma poll_children_handles : forall try ready tasks cs cs' o rs js st t,
  poll_children try ready tasks cs = (cs', o, rs, js, st) -> In (CHandle t) cs' -> In (CHandle t) cs.
Proof.
  intros try ready tasks cs cs' o rs js st t E Hin.
  destruct (Forall2_In_r _ _ _ _ _ _ (poll_children_suffix _ _ _ _ _ _ _ _ _ E) Hin) as [c [Hc [H|[H|[l [l' [_ [H _]]]]]]]];
    try discriminate.
  rewrite H. exact Hc.
Qed.

Lemma poll_children_leaves : forall try ready tasks cs cs' o rs js st l',
  poll_children try ready tasks cs = (cs', o, rs, js, st) -> In (CLeaf l') cs' ->
  exists l, In (CLeaf l) cs /\ leaf_suffix l l'.
Proof.
  intros try ready tasks cs cs' o rs js st l' E Hin.
  destruct (Forall2_In_r _ _ _ _ _ _ (poll_children_suffix _ _ _ _ _ _ _ _ _ E) Hin)
    as [c [Hc [H|[H|[l [l0 [-> [[= <-] Hs]]]]]]]]; [|discriminate | eauto].
  exists l'. rewrite H. split; [exact Hc | apply leaf_suffix_refl].
Qed.

(** * 3. Wakers: the state invariant behind (c) and (d) *)

(** An inline child between two actions: it sits at a gate of its script, and either that
    gate has been flipped since (then the root was notified, see [flip_notifies_root]) or the
    ROOT's waker is in the child's slot on that gate. *)
Definition parked_root (ready : list N) (regs : list reg) (l : leaf) : Prop :=
  exists g s, l_script l = AGate g :: s /\
              (memN g ready = true \/ In (mkReg g (l_k l) (l_b l) WRoot) regs).

Definition task_ok (ready : list N) (regs : list reg) (runq : list nat) (t : nat) (tk : task) : Prop :=
  t_fin tk = false ->
  memn t runq = true \/
  exists g s, l_script (t_leaf tk) = AGate g :: s /\ memN g ready = false /\
              In (mkReg g (l_k (t_leaf tk)) (l_b (t_leaf tk)) (WTask t)) regs.

Definition tasks_ok (ready : list N) (regs : list reg) (runq : list nat) (tasks : list task) : Prop :=
  forall t tk, nth_error tasks t = Some tk -> task_ok ready regs runq t tk.

Definition handle_ok (tasks : list task) (t : nat) : Prop :=
  exists tk, nth_error tasks t = Some tk /\ (t_fin tk = false -> t_jw tk = true).

Definition Winv (st : state) : Prop :=
  tasks_ok (s_ready st) (s_regs st) (s_runq st) (s_tasks st) /\
  match s_root st with
  | RRun _ cs _ => (forall l, In (CLeaf l) cs -> parked_root (s_ready st) (s_regs st) l) /\
                   (forall t, In (CHandle t) cs -> handle_ok (s_tasks st) t)
  | RFin _ => True
  end.

(** Just after a poll the inline children are parked on UNREADY gates. *)
Definition root_W (ready : list N) (regs : list reg) (tasks : list task) (rt : root) : Prop :=
  match rt with
  | RRun _ cs _ => (forall l, In (CLeaf l) cs -> parked ready regs l WRoot) /\
                   (forall t, In (CHandle t) cs -> handle_ok tasks t)
  | RFin _ => True
  end.

Lemma parked_regs : forall ready regs regs' l w,
  parked ready regs l w ->
  (forall g, In (mkReg g (l_k l) (l_b l) w) regs -> In (mkReg g (l_k l) (l_b l) w) regs') ->
  parked ready regs' l w.
Proof. intros ready regs regs' l w [g [s [H1 [H2 H3]]]] H. exists g, s. auto. Qed.

Lemma poll_child_W : forall try ready tasks c c' o rs js st,
  poll_child try ready tasks c = (c', o, rs, js, st) ->
  (forall t, c = CHandle t -> t < length tasks) ->
  (forall t, c' = CHandle t -> js = [t]) /\ (forall l, c' = CLeaf l -> parked ready rs l WRoot).
Proof.
  intros try ready tasks c c' o rs js st E Hv.
  destruct (poll_child_cases _ _ _ _ _ _ _ _ _ E) as [|t js Hw Hjs| | |l l' g o El Hs Hp]; split; try discriminate.
  - intros t0 [= <-]. exact (Hjs (Hv t eq_refl)).
  - intros l0 [= <-]. exact Hp.
Qed.

Lemma poll_children_W : forall try ready tasks cs cs' o rs js st,
  poll_children try ready tasks cs = (cs', o, rs, js, st) ->
  (forall t, In (CHandle t) cs -> t < length tasks) -> (forall k b, st <> JFail k b) ->
  (forall l, In (CLeaf l) cs' -> parked ready rs l WRoot) /\ (forall t, In (CHandle t) cs' -> In t js).
Proof.
  intros try ready tasks. refine (poll_children_rule try ready tasks _ _ _ _).
  - intros _ _. split; intros ? [].
  - intros c cs c' o rs js k b _ _ Hnf. destruct (Hnf k b eq_refl).
  - intros c cs c' o rs js st cs2 o2 rs2 js2 st2 Ec _ _ IH Hv Hnf.
    destruct (poll_child_W _ _ _ _ _ _ _ _ _ Ec (fun t H => Hv t (or_introl H))) as [Hh Hl].
    destruct (IH (fun t H => Hv t (or_intror H))) as [IHl IHh]; [intros k b ->; exact (Hnf k b eq_refl)|]. split.
    + intros l [->|Hin]; [apply (parked_regs _ _ _ _ _ (Hl l eq_refl)) | apply (parked_regs _ _ _ _ _ (IHl l Hin))];
        intros g Hg; apply in_or_app; auto.
    + intros t [->|Hin]; apply in_or_app; [left | right; exact (IHh t Hin)].
      rewrite (Hh t eq_refl). left. reflexivity.
Qed.

Lemma tasks_ok_mono : forall ready regs runq tasks regs' runq' tasks',
  tasks_ok ready regs runq tasks ->
  (forall x, In x regs -> is_root_reg x = false -> In x regs') ->
  (forall t, memn t runq = true -> memn t runq' = true) ->
  map tcore tasks' = map tcore tasks ->
  tasks_ok ready regs' runq' tasks'.
Proof.
  intros ready regs runq tasks regs' runq' tasks' H Hr Hq Ht t tk' Hn Hfin.
  destruct (core_nth _ _ _ _ Ht Hn) as [tk [Hn0 [Hl Hf]]].
  destruct (H _ _ Hn0) as [Hm|Hp]; [congruence | left; apply Hq, Hm | right].
  rewrite Hl. apply (parked_regs _ _ _ _ _ Hp). intros g Hg. apply Hr; [exact Hg | reflexivity].
Qed.

Lemma tasks_ok_set_jw : forall ready regs runq tasks rs js,
  tasks_ok ready regs runq tasks -> tasks_ok ready (add_regs rs regs) runq (set_jw js tasks).
Proof.
  intros ready regs runq tasks rs js H. eapply tasks_ok_mono; [exact H | | auto | apply core_set_jw].
  intros x Hx _. apply In_add_regs_old. exact Hx.
Qed.

Lemma In_drop_regs : forall regs x, In x regs -> is_root_reg x = false -> In x (drop_regs regs).
Proof. intros regs x H Hr. unfold drop_regs. apply filter_In. split; [exact H|]. rewrite Hr. reflexivity. Qed.

Lemma tasks_ok_drop : forall ready regs runq tasks,
  tasks_ok ready regs runq tasks -> tasks_ok ready (drop_regs regs) runq (drop_jw tasks).
Proof.
  intros ready regs runq tasks H. eapply tasks_ok_mono; [exact H | apply In_drop_regs | auto | apply core_drop_jw].
Qed.

Lemma nth_error_app_inv : forall (A : Type) (l l' : list A) n x,
  nth_error (l ++ l') n = Some x ->
  nth_error l n = Some x \/ (length l <= n /\ nth_error l' (n - length l) = Some x).
Proof.
  intros A l l' n x H. destruct (Nat.lt_ge_cases n (length l)) as [Hlt|Hge].
  - left. rewrite nth_error_app1 in H by exact Hlt. exact H.
  - right. rewrite nth_error_app2 in H by exact Hge. auto.
Qed.

Lemma inst_children_W : forall ready regs cs tasks runq ch tk rq o,
  inst_children cs tasks runq = (ch, tk, rq, o) ->
  tasks_ok ready regs runq tasks ->
  tasks_ok ready regs rq tk /\ length tasks <= length tk /\
  (forall t, In (CHandle t) ch -> t < length tk).
Proof.
  intros ready regs. refine (inst_children_rule _ _ _ _).
  - intros tasks runq Hok. split; [exact Hok|]. split; [lia|]. intros t [].
  - intros l cs tasks runq ch tk rq o _ IH Hok. destruct (IH Hok) as [H1 [H2 H3]].
    split; [exact H1|]. split; [exact H2|]. intros t [Hd|Hin]; [discriminate | apply H3; exact Hin].
  - intros l cs tasks runq ch tk rq o _ IH Hok. destruct IH as [H1 [H2 H3]].
    { (* the new task is queued *)
      intros t tk0 Hn Hfin. destruct (nth_error_app_inv _ _ _ _ _ Hn) as [Hn0|[Hge Hn0]].
      - destruct (Hok _ _ Hn0 Hfin) as [Hm|Hp]; [left; apply memn_app_l; exact Hm | right; exact Hp].
      - left. destruct (t - length tasks) as [|d] eqn:Ed; [|destruct d; discriminate].
        replace t with (length tasks) by lia. apply memn_app_last. }
    rewrite app_length in H2. cbn in H2. split; [exact H1|]. split; [lia|].
    intros t [[= <-]|Hin]; [lia | apply H3; exact Hin].
Qed.

Lemma handle_ok_set_jw : forall js tasks t, t < length tasks -> In t js -> handle_ok (set_jw js tasks) t.
Proof.
  intros js tasks t Hlt Hin. rewrite <- (length_set_jw js) in Hlt.
  destruct (nth_error (set_jw js tasks) t) as [tk'|] eqn:E; [|apply nth_error_None in E; lia].
  exists tk'. split; [exact E|]. intros _. destruct (set_jw_spec _ _ _ _ E) as [tk [_ [_ Hj]]]. auto.
Qed.

Lemma poll_steps_W : forall try ready,
  round_ok try ready
    (fun _ cs _ regs tasks runq _ => tasks_ok ready regs runq tasks /\ forall t, In (CHandle t) cs -> t < length tasks)
    (fun rt regs tasks runq _ => tasks_ok ready regs runq tasks /\ root_W ready regs tasks rt).
Proof.
  intros try ready n cs rest regs tasks runq tr cs' o rs js st [Hok Hv] Ec.
  pose proof (poll_children_W _ _ _ _ _ _ _ _ _ Ec Hv) as Hp.
  pose proof (tasks_ok_set_jw _ _ _ _ rs js Hok) as Hok1. pose proof (tasks_ok_drop _ _ _ _ Hok1) as Hokd.
  destruct st as [| |k b]; [| |exact (conj Hokd I)].
  - split; [exact Hok1|]. destruct Hp as [Hpl Hph]; [discriminate|]. split.
    + intros l Hl. apply (parked_regs _ _ _ _ _ (Hpl l Hl)). intros g. apply In_add_regs_new.
    + intros t Ht. apply handle_ok_set_jw; [exact (Hv t (poll_children_handles _ _ _ _ _ _ _ _ _ t Ec Ht)) | apply Hph, Ht].
  - destruct rest as [|s rest]; [exact (conj Hokd I)|]. intros cs2 tasks2 runq2 o2 Ei.
    destruct (inst_children_W _ _ _ _ _ _ _ _ _ Ei Hok1) as [Hok2 [_ Hv2]]. auto.
Qed.

Lemma handle_ok_lt : forall tasks t, handle_ok tasks t -> t < length tasks.
Proof. intros tasks t [tk [H _]]. eapply nth_error_Some_lt. exact H. Qed.

Lemma do_poll_W : forall st, Winv st ->
  let st' := fst (do_poll st) in Winv st' /\ root_W (s_ready st') (s_regs st') (s_tasks st') (s_root st').
Proof.
  intros st [Hok Hroot]. cbn zeta. destruct (do_poll_cases st) as [r Er|n cs rest rt regs tasks runq o1 Er Ep].
  - split; [exact (conj Hok Hroot)|]. unfold root_W. rewrite Er. exact I.
  - rewrite Er in Hroot.
    destruct (poll_steps_rule (poll_steps_W _ _) [] (conj Hok (fun t Ht => handle_ok_lt _ _ (proj2 Hroot t Ht))) Ep) as [Hok' Hr'].
    split; [|exact Hr']. split; [exact Hok'|]. cbn [s_root s_ready s_regs s_tasks] in *.
    destruct rt as [n' cs' rest'|r]; [|exact I]. destruct Hr' as [H1 H2]. split; [|exact H2].
    intros l Hl. destruct (H1 l Hl) as [g [s [Hs [_ Hin]]]]. exists g, s. auto.
Qed.

Lemma poll_task_spec : forall ready t tk tk' o rs,
  poll_task ready t tk = (tk', o, rs) ->
  leaf_suffix (t_leaf tk) (t_leaf tk') /\
  if t_fin tk' then gates_ready ready (l_script (t_leaf tk)) /\ l_script (t_leaf tk') = []
  else t_jw tk' = t_jw tk /\ parked ready rs (t_leaf tk') (WTask t).
Proof.
  intros ready t tk tk' o rs E. unfold poll_task in E.
  destruct (poll_leaf ready (t_leaf tk)) as [[ok|l' g] ol] eqn:El; injection E as <- <- <-;
    destruct (poll_leaf_spec _ _ _ _ El) as [o' [_ Hr]]; cbn [t_leaf t_fin t_jw].
  - split; [apply (leaf_suffix_set_script _ (l_script (t_leaf tk))); symmetry; apply app_nil_r|].
    split; [apply Hr | reflexivity].
  - destruct Hr as [_ [Hs [Hm [s Hl']]]]. split; [exact Hs|]. split; [reflexivity|].
    destruct Hs as [Hk [Hb _]]. exists g, s. rewrite Hk, Hb. cbn. auto.
Qed.

Lemma memn_cons_inv : forall t u q, memn t (u :: q) = true -> t = u \/ memn t q = true.
Proof.
  intros t u q H. unfold memn in H. cbn [existsb] in H. apply orb_true_iff in H.
  destruct H as [H|H]; [left; apply Nat.eqb_eq, H | right; exact H].
Qed.

Lemma run_queue_W : forall ready q tasks regs tasks' regs' o,
  run_queue q ready tasks regs = (tasks', regs', o) ->
  tasks_ok ready regs q tasks -> tasks_ok ready regs' [] tasks'.
Proof.
  intros ready q tasks regs tasks' regs' o E Hok.
  apply run_queue_rule with (tr := []) (4 := E) (I := fun tasks regs q _ => tasks_ok ready regs q tasks);
    [clear | clear | exact Hok].
  - intros tasks regs t0 q _ Hok Hfin t tk Hn Hf.
    destruct (Hok _ _ Hn Hf) as [Hm|Hp]; [|right; exact Hp].
    destruct (memn_cons_inv _ _ _ Hm) as [->|Hm']; [|left; exact Hm']. rewrite (Hfin _ Hn) in Hf. discriminate.
  - intros tasks regs t0 q _ tk0 tk1 o rs Hok En Ef Ept t tk Hn Hf.
    apply nth_error_upd_inv in Hn. destruct Hn as [[-> [-> _]]|[Hne Hn]].
    + right. destruct (poll_task_spec _ _ _ _ _ _ Ept) as [_ Hc]. rewrite Hf in Hc.
      apply (parked_regs _ _ _ _ _ (proj2 Hc)). intros g. apply In_add_regs_new.
    + destruct (Hok _ _ Hn Hf) as [Hm|Hp].
      * destruct (memn_cons_inv _ _ _ Hm) as [->|Hm']; [congruence | left; exact Hm'].
      * right. apply (parked_regs _ _ _ _ _ Hp). intros g. apply In_add_regs_old.
Qed.

Definition queue_frame (regs : list reg) (tasks : list task) (regs' : list reg) (tasks' : list task) : Prop :=
  (forall x, In x regs -> In x regs') /\ length tasks' = length tasks /\
  (forall t tk', nth_error tasks' t = Some tk' ->
     exists tk, nth_error tasks t = Some tk /\ leaf_suffix (t_leaf tk) (t_leaf tk') /\
                (t_fin tk = true -> tk' = tk) /\ (t_fin tk' = false -> t_jw tk' = t_jw tk)).

Lemma run_queue_frame : forall ready q tasks regs tasks' regs' o,
  run_queue q ready tasks regs = (tasks', regs', o) -> queue_frame regs tasks regs' tasks'.
Proof.
  intros ready q tasks regs tasks' regs' o E.
  apply run_queue_rule with (tr := []) (4 := E) (I := fun tasks1 regs1 _ _ => queue_frame regs tasks regs1 tasks1);
    [clear E | clear E | ].
  - intros tasks1 regs1 t q1 _ H _. exact H.
  - intros tasks1 regs1 t0 q1 _ tk0 tk1 o1 rs [H1 [H2 H3]] En Ef Ept.
    split; [intros x Hx; apply In_add_regs_old, H1, Hx|]. split; [rewrite length_upd; exact H2|].
    intros t tk' Hn. apply nth_error_upd_inv in Hn. destruct Hn as [[-> [-> _]]|[_ Hn]]; [|apply H3, Hn].
    destruct (H3 _ _ En) as [tk [Hn0 [Hs [Hfx Hj]]]]. exists tk. split; [exact Hn0|].
    destruct (poll_task_spec _ _ _ _ _ _ Ept) as [Hs1 Hc].
    split; [exact (leaf_suffix_trans _ _ _ Hs Hs1)|]. split.
    + intros Hf. rewrite (Hfx Hf) in Ef. congruence.
    + intros Hf1. rewrite Hf1 in Hc. rewrite (proj1 Hc). apply Hj, Ef.
  - split; [auto|]. split; [reflexivity|]. intros t tk' Hn. exists tk'. split; [exact Hn|].
    split; [apply leaf_suffix_refl | auto].
Qed.

Lemma do_run_tasks_W : forall st, Winv st -> Winv (fst (do_run_tasks st)).
Proof.
  intros st [Hok Hroot]. destruct (do_run_tasks_eq st) as [tasks [regs [o1 [Er ->]]]].
  destruct (run_queue_frame _ _ _ _ _ _ _ Er) as [R2 [R3 R4]].
  split; [exact (run_queue_W _ _ _ _ _ _ _ Er Hok)|]. cbn [fst s_root s_ready s_regs s_tasks].
  destruct (s_root st) as [n cs rest|r]; [|exact I]. destruct Hroot as [Hl Hh]. split.
  - intros l Hin. destruct (Hl l Hin) as [g [s [H1 [H2|H2]]]]; exists g, s; auto.
  - intros t Hin. destruct (Hh t Hin) as [tk [Hn Hj]].
    destruct (nth_error tasks t) as [tk'|] eqn:En'.
    + exists tk'. split; [exact En'|]. intros Hf. destruct (R4 _ _ En') as [tk0 [Hn0 [_ [Hfx Hjw]]]].
      rewrite Hn in Hn0. injection Hn0 as <-. rewrite (Hjw Hf). apply Hj.
      destruct (t_fin tk) eqn:Ef; [rewrite (Hfx eq_refl) in Hf; congruence | reflexivity].
    + apply nth_error_None in En'. apply nth_error_Some_lt in Hn. lia.
Qed.

Lemma task_fin_nth : forall tasks t tk, nth_error tasks t = Some tk -> task_fin tasks t = t_fin tk.
Proof. intros tasks t tk H. unfold task_fin. rewrite H. reflexivity. Qed.

Lemma In_filter_other_gate : forall g r regs,
  In r regs -> r_g r <> g -> In r (filter (fun r => negb (on_gate g r)) regs).
Proof.
  intros g r regs Hin Hne. apply filter_In. split; [exact Hin|]. apply negb_true_iff, N.eqb_neq, Hne.
Qed.

Lemma do_flip_wakes : forall g st k b w,
  memN g (s_ready st) = false -> In (mkReg g k b w) (s_regs st) ->
  match w with
  | WRoot => In ONotify (snd (do_flip g st))
  | WTask t => task_fin (s_tasks st) t = false -> memn t (s_runq (fst (do_flip g st))) = true
  end.
Proof.
  intros g st k b w Hg Hin. destruct (do_flip_cases g st) as [Eg|rq o _ Ew]; [congruence|].
  destruct (wake_all_spec _ _ _ _ _ Ew) as [_ [Ht [Hn _]]].
  assert (Hw : In w (map r_w (filter (on_gate g) (s_regs st)))).
  { apply in_map_iff. exists (mkReg g k b w). split; [reflexivity|].
    apply filter_In. split; [exact Hin | apply N.eqb_refl]. }
  destruct w as [|t]; cbn [s_runq]; auto.
Qed.

Lemma do_flip_frame : forall g st,
  s_try (fst (do_flip g st)) = s_try st /\ s_tasks (fst (do_flip g st)) = s_tasks st /\
  s_root (fst (do_flip g st)) = s_root st /\ Forall (fun x => x = ONotify) (snd (do_flip g st)).
Proof.
  intros g st. destruct (do_flip_cases g st) as [_|rq o _ Ew]; repeat split; [constructor|].
  apply (wake_all_spec _ _ _ _ _ Ew).
Qed.

Lemma do_flip_W : forall g st, Winv st -> Winv (fst (do_flip g st)).
Proof.
  intros g st [Hok Hroot]. generalize (do_flip_wakes g st).
  destruct (do_flip_cases g st) as [_|rq o1 Eg Ew]; intros Hwake; [split; assumption|].
  destruct (wake_all_spec _ _ _ _ _ Ew) as [Hm _]. cbn [s_runq] in Hwake.
  split; cbn [s_root s_ready s_regs s_tasks s_runq].
  - intros t tk Hn Hf. destruct (Hok _ _ Hn Hf) as [Hq|[g0 [s [H1 [H2 H3]]]]]; [left; apply Hm, Hq|].
    destruct (N.eq_dec g0 g) as [->|Hne].
    + left. apply (Hwake _ _ _ Eg H3). rewrite (task_fin_nth _ _ _ Hn). exact Hf.
    + right. exists g0, s. split; [exact H1|]. split; [rewrite memN_cons_other by exact Hne; exact H2|].
      apply In_filter_other_gate; [exact H3 | exact Hne].
  - destruct (s_root st) as [n cs rest|r]; [|exact I]. destruct Hroot as [Hl Hh]. split; [|exact Hh].
    intros l Hin. destruct (Hl l Hin) as [g0 [s [H1 H2]]]. exists g0, s. split; [exact H1|].
    destruct (N.eq_dec g0 g) as [->|Hne]; [left; apply memN_cons_same|].
    destruct H2 as [H2|H2]; [left; apply memN_cons_true, H2 | right; apply In_filter_other_gate; assumption].
Qed.

Lemma Winv_step : forall st a, Winv st -> Winv (fst (step a st)).
Proof.
  intros st [g| |] H; cbn [step]; [apply do_flip_W | apply do_poll_W | apply do_run_tasks_W]; exact H.
Qed.

Lemma Winv_init : forall t, Winv (init t).
Proof.
  intros t. unfold Winv, init. cbn. split.
  - intros n tk Hn. destruct n; discriminate.
  - split; intros ? [].
Qed.

(** ** (d) No lost wake-up *)

(** (d), invariant form: in every reachable state
    - every unfinished inline child of the current step sits at a gate that is already ready
      or on which the ROOT's waker is registered for it;
    - every unfinished task is queued, or parked on an unready gate with its own waker registered;
    - the join handle of every unfinished task awaited by the current step holds the root's waker. *)
Theorem no_lost_wakeup_inv : forall t acts, Winv (fst (run_async acts (init t))).
Proof. intros t acts. apply run_async_ind_state; [apply Winv_init | apply Winv_step]. Qed.

Theorem unqueued_task_parked : forall t acts st u tk,
  st = fst (run_async acts (init t)) ->
  nth_error (s_tasks st) u = Some tk -> t_fin tk = false -> memn u (s_runq st) = false ->
  exists g s, l_script (t_leaf tk) = AGate g :: s /\ memN g (s_ready st) = false /\
              In (mkReg g (l_k (t_leaf tk)) (l_b (t_leaf tk)) (WTask u)) (s_regs st).
Proof.
  intros t acts st u tk -> Hn Hf Hq. destruct (no_lost_wakeup_inv t acts) as [Hok _].
  destruct (Hok _ _ Hn Hf) as [Hm|Hp]; [congruence | exact Hp].
Qed.

Theorem flip_notifies_root : forall t acts st n cs rest l g s,
  st = fst (run_async acts (init t)) ->
  s_root st = RRun n cs rest -> In (CLeaf l) cs ->
  l_script l = AGate g :: s -> memN g (s_ready st) = false ->
  In ONotify (snd (do_flip g st)).
Proof.
  intros t acts st n cs rest l g s -> Hr Hin Hs Hg.
  destruct (no_lost_wakeup_inv t acts) as [_ Hroot]. rewrite Hr in Hroot. destruct Hroot as [Hl _].
  destruct (Hl l Hin) as [g0 [s0 [H1 H2]]]. rewrite Hs in H1. injection H1 as <- <-.
  destruct H2 as [H2|H2]; [congruence|]. exact (do_flip_wakes _ _ _ _ WRoot Hg H2).
Qed.

Theorem flip_wakes_task : forall t acts st u tk,
  st = fst (run_async acts (init t)) ->
  nth_error (s_tasks st) u = Some tk -> t_fin tk = false -> memn u (s_runq st) = false ->
  exists g s, l_script (t_leaf tk) = AGate g :: s /\ memN g (s_ready st) = false /\
              memn u (s_runq (fst (do_flip g st))) = true.
Proof.
  intros t acts st u tk Hst Hn Hf Hq.
  destruct (unqueued_task_parked t acts st u tk Hst Hn Hf Hq) as [g [s [H1 [H2 H3]]]].
  exists g, s. split; [exact H1|]. split; [exact H2|].
  apply (do_flip_wakes _ _ _ _ (WTask u) H2 H3). rewrite (task_fin_nth _ _ _ Hn). exact Hf.
Qed.

(** The completion of an awaited task notifies the root through the join handle: the handle
    slot holds the root's waker (this theorem), and a task poll that completes with the slot
    set emits the notification ([task_completion_notifies]). *)
Theorem awaited_task_has_root_waker : forall t acts st n cs rest u tk,
  st = fst (run_async acts (init t)) ->
  s_root st = RRun n cs rest -> In (CHandle u) cs ->
  nth_error (s_tasks st) u = Some tk -> t_fin tk = false -> t_jw tk = true.
Proof.
  intros t acts st n cs rest u tk -> Hr Hin Hn Hf.
  destruct (no_lost_wakeup_inv t acts) as [_ Hroot]. rewrite Hr in Hroot. destruct Hroot as [_ Hh].
  destruct (Hh u Hin) as [tk0 [Hn0 Hj]]. rewrite Hn in Hn0. injection Hn0 as <-. auto.
Qed.

Lemma task_completion_notifies : forall ready u tk tk' o rs,
  poll_task ready u tk = (tk', o, rs) -> t_jw tk = true -> t_fin tk' = true -> In ONotify o.
Proof.
  intros ready u tk tk' o rs E Hj Hf. unfold poll_task in E.
  destruct (poll_leaf ready (t_leaf tk)) as [[ok|l' g] ol]; injection E as <- <- <-.
  - rewrite Hj. apply in_or_app. right. left. reflexivity.
  - discriminate.
Qed.

Lemma run_queue_notifies : forall ready q tasks regs tasks' regs' o u tk,
  run_queue q ready tasks regs = (tasks', regs', o) ->
  In u q -> nth_error tasks u = Some tk -> t_fin tk = false -> t_jw tk = true ->
  gates_ready ready (l_script (t_leaf tk)) ->
  In ONotify o.
Proof.
  intros ready q tasks regs tasks' regs' o u tk E Hin Hn Hf Hj Hg.
  (* until [u] is served it stays in the queue, untouched; serving it notifies *)
  assert (H : In ONotify ([] ++ o) \/ In u [] /\ nth_error tasks' u = Some tk).
  { apply run_queue_rule with (4 := E)
      (I := fun tasks _ q tr => In ONotify tr \/ In u q /\ nth_error tasks u = Some tk); [| |auto]; clear - Hf Hj Hg.
    - intros tasks regs t q tr [H|[[->|Hq] Hn]] Hfin; [left; exact H | | right; auto].
      rewrite (Hfin _ Hn) in Hf. discriminate.
    - intros tasks regs t q tr tk0 tk1 o rs [H|[Hq Hn]] En Ef Ept; [left; apply in_or_app; left; exact H|].
      destruct (Nat.eq_dec t u) as [->|Hne].
      + left. apply in_or_app. right. rewrite Hn in En. injection En as <-.
        destruct (poll_task_spec _ _ _ _ _ _ Ept) as [[_ [_ [_ [pre Hs]]]] Hc].
        destruct (t_fin tk1) eqn:Ef1; [exact (task_completion_notifies _ _ _ _ _ _ Ept Hj Ef1)|].
        destruct Hc as [_ [g [s [H1 [H2 _]]]]]. rewrite H1 in Hs.
        rewrite Hg in H2; [discriminate|]. rewrite Hs. apply in_or_app. right. left. reflexivity.
      + right. split; [destruct Hq as [->|Hq]; [congruence | exact Hq]|].
        rewrite nth_error_upd_other by exact Hne. exact Hn. }
  destruct H as [H|[[] _]]. exact H.
Qed.

(** (d), task kinds, end to end: in every reachable state, a task awaited by the current step
    that has been woken (is queued) and whose remaining gates are all ready completes in the
    next [RunTasks], and that run NOTIFIES THE ROOT (gate -> task waker -> task completes ->
    join-handle waker -> root). *)
Theorem woken_task_completion_notifies_root : forall t acts st n cs rest u tk,
  st = fst (run_async acts (init t)) ->
  s_root st = RRun n cs rest -> In (CHandle u) cs ->
  nth_error (s_tasks st) u = Some tk -> t_fin tk = false ->
  memn u (s_runq st) = true -> gates_ready (s_ready st) (l_script (t_leaf tk)) ->
  In ONotify (snd (do_run_tasks st)).
Proof.
  intros t acts st n cs rest u tk Hst Hr Hin Hn Hf Hq Hg.
  pose proof (awaited_task_has_root_waker t acts st n cs rest u tk Hst Hr Hin Hn Hf) as Hj.
  destruct (do_run_tasks_eq st) as [tasks [regs [o [Er ->]]]]. cbn [snd].
  eapply run_queue_notifies; [exact Er | apply memn_true_iff; exact Hq | exact Hn | exact Hf | exact Hj | exact Hg].
Qed.

(** * 4. Gates: a set that contains every gate of the state keeps doing so *)

Definition cexpr_leaf (c : cexpr) : leaf := match c with CInline l => l | CSpawn l => l end.
Definition sexpr_leaves (s : sexpr) : list leaf :=
  match s with SAwait l => [l] | SJoin cs => map cexpr_leaf cs end.

Lemma sexpr_leaves_cexprs : forall s, sexpr_leaves s = map cexpr_leaf (sexpr_cexprs s).
Proof. intros [l|cs]; reflexivity. Qed.

Lemma inst_children_spec : forall cs tasks runq ch tk rq o,
  inst_children cs tasks runq = (ch, tk, rq, o) ->
  (exists new, tk = tasks ++ new /\
               forall x, In x new -> In (t_leaf x) (map cexpr_leaf cs) /\ t_fin x = false) /\
  (forall l, In (CLeaf l) ch -> In l (map cexpr_leaf cs)) /\
  (forall t, memn t runq = true -> memn t rq = true).
Proof.
  refine (inst_children_rule _ _ _ _).
  - intros tasks runq. split; [exists []; split; [symmetry; apply app_nil_r | intros x []]|]. split; [intros l []|auto].
  - intros l cs tasks runq ch tk rq o _ [[new [Hn Hx]] [Hl Hq]]. split; [|split; [|exact Hq]].
    + exists new. split; [exact Hn|]. intros x Hin. destruct (Hx x Hin) as [H1 H2]. split; [right; exact H1 | exact H2].
    + intros l0 [[= <-]|Hc]; [left; reflexivity | right; apply Hl; exact Hc].
  - intros l cs tasks runq ch tk rq o _ [[new [Hn Hx]] [Hl Hq]]. split; [|split].
    + exists (mkTask l false false :: new). split; [rewrite Hn, <- app_assoc; reflexivity|].
      intros x [<-|Hin]; [cbn; split; [left; reflexivity|reflexivity]|].
      destruct (Hx x Hin) as [H1 H2]. split; [right; exact H1 | exact H2].
    + intros l0 [Hc|Hc]; [discriminate | right; apply Hl; exact Hc].
    + intros t Hm. apply Hq. apply memn_app_l. exact Hm.
Qed.

Definition script_in (G : N -> Prop) (s : list atom) : Prop := forall g, In (AGate g) s -> G g.

Lemma script_in_suffix : forall G l l', leaf_suffix l l' -> script_in G (l_script l) -> script_in G (l_script l').
Proof.
  intros G l l' [_ [_ [_ [pre H]]]] Hs g Hg. apply Hs. rewrite H. apply in_or_app. right. exact Hg.
Qed.

Definition tasks_in (G : N -> Prop) (tasks : list task) : Prop :=
  forall t tk, nth_error tasks t = Some tk -> script_in G (l_script (t_leaf tk)).
Definition children_in (G : N -> Prop) (cs : list child) : Prop :=
  forall l, In (CLeaf l) cs -> script_in G (l_script l).
Definition rest_in (G : N -> Prop) (rest : list sexpr) : Prop :=
  forall s l, In s rest -> In l (sexpr_leaves s) -> script_in G (l_script l).

Definition root_in (G : N -> Prop) (rt : root) : Prop :=
  match rt with RRun _ cs rest => children_in G cs /\ rest_in G rest | RFin _ => True end.

Definition state_gates_in (G : N -> Prop) (st : state) : Prop := tasks_in G (s_tasks st) /\ root_in G (s_root st).

Lemma tasks_in_core : forall G tasks tasks',
  tasks_in G tasks -> map tcore tasks' = map tcore tasks -> tasks_in G tasks'.
Proof.
  intros G tasks tasks' H Hc t tk' Hn. destruct (core_nth _ _ _ _ Hc Hn) as [tk [Hn0 [Hl _]]].
  rewrite Hl. eapply H. exact Hn0.
Qed.

Lemma poll_steps_G : forall G try ready,
  round_ok try ready (fun _ cs rest _ tasks _ _ => tasks_in G tasks /\ children_in G cs /\ rest_in G rest)
                     (fun rt _ tasks _ _ => tasks_in G tasks /\ root_in G rt).
Proof.
  intros G try ready n cs rest regs tasks runq tr cs' o rs js st [Ht [Hc Hr]] Ec.
  assert (Hc1 : children_in G cs').
  { intros l' Hin. destruct (poll_children_leaves _ _ _ _ _ _ _ _ _ _ Ec Hin) as [l [H1 H2]].
    eapply script_in_suffix; [exact H2 | apply Hc; exact H1]. }
  pose proof (tasks_in_core _ _ _ Ht (core_set_jw js tasks)) as Ht1.
  pose proof (tasks_in_core _ _ _ Ht1 (core_drop_jw _)) as Htd.
  destruct st as [| |k b]; [exact (conj Ht1 (conj Hc1 Hr)) | | exact (conj Htd I)].
  destruct rest as [|s rest]; [exact (conj Htd I)|].
  intros cs2 tasks2 runq2 o2 Ei. destruct (inst_children_spec _ _ _ _ _ _ _ Ei) as [[new [-> Hx]] [Hl _]].
  assert (Hs : forall l, In l (map cexpr_leaf (sexpr_cexprs s)) -> script_in G (l_script l)).
  { intros l Hin. apply (Hr s); [left; reflexivity | rewrite sexpr_leaves_cexprs; exact Hin]. }
  split; [|split].
  - intros t tk Hnth. destruct (nth_error_app_inv _ _ _ _ _ Hnth) as [Hn0|[_ Hn0]]; [exact (Ht1 _ _ Hn0)|].
    apply nth_error_In in Hn0. apply Hs. apply (Hx tk Hn0).
  - intros l Hin. apply Hs. apply Hl. exact Hin.
  - intros s0 l Hin. apply Hr. right. exact Hin.
Qed.

Lemma state_gates_in_step : forall G st a, state_gates_in G st -> state_gates_in G (fst (step a st)).
Proof.
  intros G st a [Ht Hroot]. destruct a as [g| |]; cbn [step].
  - destruct (do_flip_frame g st) as [_ [H2 [H3 _]]]. unfold state_gates_in. rewrite H2, H3. split; assumption.
  - destruct (do_poll_cases st) as [r Er|n cs rest rt regs tasks runq o1 Er Ep]; [exact (conj Ht Hroot)|].
    rewrite Er in Hroot. exact (poll_steps_rule (poll_steps_G G _ _) [] (conj Ht Hroot) Ep).
  - destruct (do_run_tasks_eq st) as [tasks [regs [o1 [Er ->]]]].
    split; [|exact Hroot]. cbn [fst s_tasks]. intros t tk' Hn.
    destruct (run_queue_frame _ _ _ _ _ _ _ Er) as [_ [_ R]]. destruct (R _ _ Hn) as [tk [Hn0 [Hs _]]].
    eapply script_in_suffix; [exact Hs | eapply Ht; exact Hn0].
Qed.

Lemma state_gates_in_weaken : forall (G G' : N -> Prop) st,
  (forall g, G g -> G' g) -> state_gates_in G st -> state_gates_in G' st.
Proof.
  intros G G' st Himp [Ht Hroot]. split.
  - intros t tk Hn g Hg. apply Himp. eapply Ht; eassumption.
  - destruct (s_root st) as [n cs rest|r]; [|exact I]. destruct Hroot as [Hc Hr]. split.
    + intros l Hin g Hg. apply Himp. eapply Hc; eassumption.
    + intros s l Hs Hl g Hg. apply Himp. eapply Hr; eassumption.
Qed.

(** * 5. (e) Completion *)

Definition Gr (ready : list N) : N -> Prop := fun g => memN g ready = true.

Definition all_ready (st : state) : Prop := state_gates_in (Gr (s_ready st)) st.

Definition finished (st : state) : Prop := exists r, s_root st = RFin r.

Definition is_cspawn (c : cexpr) : bool := match c with CSpawn _ => true | CInline _ => false end.
Definition is_spawn_step (s : sexpr) : bool :=
  match s with SAwait _ => false | SJoin cs => existsb is_cspawn cs end.
Definition nsp (rest : list sexpr) : nat := length (filter is_spawn_step rest).
Definition is_handle (c : child) : bool := match c with CHandle _ => true | _ => false end.
Definition hflag (cs : list child) : nat := if existsb is_handle cs then 1 else 0.

(** How many [RunTasks; Poll] rounds are still needed after a [Poll] once every gate is ready:
    one per task-spawning step to come, plus one if the current step awaits tasks. *)
Definition pend (st : state) : nat :=
  match s_root st with RRun _ cs rest => nsp rest + hflag cs | RFin _ => 0 end.

Definition rounds (k : nat) : list action := concat (repeat [RunTasks; Poll] k).

Definition handles_done (tasks : list task) (cs : list child) : Prop :=
  forall t, In (CHandle t) cs -> exists tk, nth_error tasks t = Some tk /\ t_fin tk = true.

Lemma nsp_cons : forall s rest, nsp (s :: rest) = (if is_spawn_step s then 1 else 0) + nsp rest.
Proof. intros s rest. unfold nsp. cbn [filter]. destruct (is_spawn_step s); reflexivity. Qed.

Lemma hflag_le1 : forall cs, hflag cs <= 1.
Proof. intros cs. unfold hflag. destruct (existsb is_handle cs); lia. Qed.

Lemma hflag_0 : forall cs, (forall t, ~ In (CHandle t) cs) -> hflag cs = 0.
Proof.
  intros cs H. unfold hflag. destruct (existsb is_handle cs) eqn:E; [|reflexivity].
  apply existsb_exists in E. destruct E as [c [Hin Hc]]. destruct c; try discriminate. exfalso. eapply H. exact Hin.
Qed.

Lemma hflag_0_inv : forall cs t, hflag cs = 0 -> ~ In (CHandle t) cs.
Proof.
  intros cs t H Hin. unfold hflag in H. destruct (existsb is_handle cs) eqn:E; [discriminate|].
  assert (existsb is_handle cs = true) by (apply existsb_exists; exists (CHandle t); split; [exact Hin | reflexivity]).
  congruence.
Qed.

Lemma hflag_mono : forall cs cs', (forall t, In (CHandle t) cs' -> In (CHandle t) cs) -> hflag cs' <= hflag cs.
Proof.
  intros cs cs' H. destruct (hflag cs) eqn:Eh; [|pose proof (hflag_le1 cs'); lia].
  rewrite hflag_0; [lia|]. intros t Hin. exact (hflag_0_inv _ _ Eh (H t Hin)).
Qed.

Lemma is_spawn_step_cexprs : forall s, is_spawn_step s = existsb is_cspawn (sexpr_cexprs s).
Proof. intros [l|cs]; reflexivity. Qed.

Lemma suffix_gate_unready : forall ready l l' g s,
  leaf_suffix l l' -> l_script l' = AGate g :: s -> memN g ready = false -> ~ gates_ready ready (l_script l).
Proof.
  intros ready l l' g s [_ [_ [_ [pre Hs]]]] Hl' Hm Hg. rewrite Hl' in Hs.
  rewrite Hg in Hm; [discriminate|]. rewrite Hs. apply in_or_app. right. left. reflexivity.
Qed.

Lemma poll_child_E : forall try ready tasks c c' o rs js st,
  poll_child try ready tasks c = (c', o, rs, js, st) ->
  (forall l, c = CLeaf l -> gates_ready ready (l_script l)) -> st = CPend ->
  exists t, c = CHandle t /\ ~ (exists tk, nth_error tasks t = Some tk /\ t_fin tk = true).
Proof.
  intros try ready tasks c c' o rs js st E Hg Hst.
  destruct (poll_child_cases _ _ _ _ _ _ _ _ _ E) as [|t js Hw _|t tk _ _|l o _|l l' g o _ Hs [g0 [s [Hl' [Hm _]]]]].
  - discriminate.
  - exists t. split; [reflexivity|]. intros [tk [H1 H2]]. rewrite (Hw _ H1) in H2. discriminate.
  - destruct (fin_stat_not_pend _ _ _ _ Hst).
  - destruct (fin_stat_not_pend _ _ _ _ Hst).
  - destruct (suffix_gate_unready _ _ _ _ _ Hs Hl' Hm (Hg l eq_refl)).
Qed.

Lemma poll_children_E : forall try ready tasks cs cs' o rs js st,
  poll_children try ready tasks cs = (cs', o, rs, js, st) ->
  children_in (Gr ready) cs -> handles_done tasks cs -> st <> JPend.
Proof.
  intros try ready tasks. refine (poll_children_rule try ready tasks _ _ _ _).
  - intros _ _. discriminate.
  - intros c cs c' o rs js k b _ _ _. discriminate.
  - intros c cs c' o rs js st cs2 o2 rs2 js2 st2 Ec _ _ IH Hg Hd.
    specialize (IH (fun l H => Hg l (or_intror H)) (fun t H => Hd t (or_intror H))).
    destruct st2 as [| |k b]; [congruence | | discriminate]. destruct st as [| |k b]; try discriminate.
    destruct (poll_child_E _ _ _ _ _ _ _ _ _ Ec (fun l H => Hg l (or_introl H)) eq_refl) as [t [-> Hnd]].
    destruct (Hnd (Hd t (or_introl eq_refl))).
Qed.

Lemma inst_children_plain : forall cs tasks runq ch tk rq o,
  inst_children cs tasks runq = (ch, tk, rq, o) -> existsb is_cspawn cs = false ->
  tk = tasks /\ rq = runq /\ hflag ch = 0.
Proof.
  refine (inst_children_rule _ _ _ _).
  - auto.
  - intros l cs tasks runq ch tk rq o _ IH Hns. exact (IH Hns).
  - discriminate.
Qed.

Lemma inst_children_hflag : forall cs tasks runq ch tk rq o,
  inst_children cs tasks runq = (ch, tk, rq, o) -> hflag ch <= (if existsb is_cspawn cs then 1 else 0).
Proof.
  intros cs tasks runq ch tk rq o E. destruct (existsb is_cspawn cs) eqn:Es; [apply hflag_le1|].
  destruct (inst_children_plain _ _ _ _ _ _ _ E Es) as [_ [_ ->]]. lia.
Qed.

(** With every gate ready a poll stops only at the handle of an unfinished task, that is, after it
    has started a task-spawning step. *)
Lemma poll_steps_E : forall try ready B,
  round_ok try ready
    (fun _ cs rest _ tasks _ _ => children_in (Gr ready) cs /\ rest_in (Gr ready) rest /\
                                  (nsp rest < B \/ handles_done tasks cs /\ nsp rest <= B))
    (fun rt _ _ _ _ => match rt with RFin _ => True | RRun _ _ rest' => nsp rest' < B end).
Proof.
  intros try ready B n1 cs1 rest1 regs1 tasks1 runq1 tr cs' o1 rs js st [Hc [Hr HB]] Ec.
  pose proof (poll_children_E _ _ _ _ _ _ _ _ _ Ec Hc) as Hnp.
  destruct st as [| |k b]; [| |exact I].
  - destruct HB as [HB|[Hd _]]; [exact HB | destruct (Hnp Hd eq_refl)].
  - destruct rest1 as [|s rest1]; [exact I|]. intros cs2 tasks2 runq2 o2 Ei.
    destruct (inst_children_spec _ _ _ _ _ _ _ Ei) as [_ [Hl _]].
    pose proof (inst_children_hflag _ _ _ _ _ _ _ Ei) as Hh.
    (* starting [s] takes 1 from [nsp] exactly when [s] spawns, and only then can [cs2] hold a handle *)
    rewrite nsp_cons, is_spawn_step_cexprs in HB.
    split; [|split; [intros s0 l Hin; apply Hr; right; exact Hin|]].
    + intros l Hin. apply (Hr s); [left; reflexivity | rewrite sexpr_leaves_cexprs; apply Hl; exact Hin].
    + destruct (existsb is_cspawn (sexpr_cexprs s)); [left; lia | right]. split; [|lia].
      assert (Hh0 : hflag cs2 = 0) by lia. intros t Hin. destruct (hflag_0_inv cs2 t Hh0 Hin).
Qed.

Lemma poll_steps_pend : forall try ready B,
  round_ok try ready (fun _ cs rest _ _ _ _ => nsp rest + hflag cs <= B)
    (fun rt _ _ _ _ => match rt with RFin _ => True | RRun _ cs' rest' => nsp rest' + hflag cs' <= B end).
Proof.
  intros try ready B n cs rest regs tasks runq tr cs' o rs js st HI Ec.
  pose proof (hflag_mono _ _ (fun t => poll_children_handles _ _ _ _ _ _ _ _ _ t Ec)) as Hh.
  destruct st as [| |k b]; [lia | | exact I]. destruct rest as [|s rest]; [exact I|].
  intros cs2 tasks2 runq2 o2 Ei. pose proof (inst_children_hflag _ _ _ _ _ _ _ Ei).
  rewrite nsp_cons, is_spawn_step_cexprs in HI. lia.
Qed.

Lemma ready_mono_step : forall g st a, memN g (s_ready st) = true -> memN g (s_ready (fst (step a st))) = true.
Proof.
  intros g st a H. destruct a as [g'| |]; cbn [step].
  - destruct (do_flip_cases g' st) as [_|rq o _ _]; [exact H | apply memN_cons_true, H].
  - rewrite ready_do_poll. exact H.
  - rewrite ready_do_run_tasks. exact H.
Qed.

Lemma all_ready_step : forall st a, all_ready st -> all_ready (fst (step a st)).
Proof.
  intros st a H. apply (state_gates_in_weaken (Gr (s_ready st))); [intros g; apply ready_mono_step|].
  apply state_gates_in_step, H.
Qed.

(** [RunTasks] with every gate ready finishes every task: afterwards the queue is empty, so an
    unfinished task would be parked on an unready gate. *)
Lemma run_tasks_all_finish : forall st, Winv st -> all_ready st ->
  forall t tk, nth_error (s_tasks (fst (do_run_tasks st))) t = Some tk -> t_fin tk = true.
Proof.
  intros st HW HA t tk Hn. destruct (do_run_tasks_W st HW) as [Hok _]. destruct (all_ready_step st RunTasks HA) as [Ht _].
  destruct (t_fin tk) eqn:Ef; [reflexivity|].
  destruct (Hok _ _ Hn Ef) as [Hm|[g [s [H1 [H2 _]]]]]; [rewrite runq_do_run_tasks in Hm; discriminate|].
  assert (memN g (s_ready (fst (do_run_tasks st))) = true) by (apply (Ht _ _ Hn); rewrite H1; left; reflexivity).
  congruence.
Qed.

Definition Bstate (st : state) (m : nat) : Prop :=
  match s_root st with RFin _ => True | RRun _ _ rest => nsp rest < m end.

(** One poll with every gate ready: the root completes, or stops having consumed at least one
    task-spawning step unless it was already waiting for unfinished tasks. *)
Lemma poll_all_ready : forall st m, all_ready st ->
  match s_root st with
  | RRun _ cs rest => nsp rest < m \/ (handles_done (s_tasks st) cs /\ nsp rest <= m)
  | RFin _ => True
  end ->
  Bstate (fst (do_poll st)) m.
Proof.
  intros st m [Ht Hroot] Hm. unfold Bstate. destruct (do_poll_cases st) as [r Er|n cs rest rt regs tasks runq o1 Er Ep].
  - rewrite Er. exact I.
  - rewrite Er in Hroot, Hm. exact (poll_steps_rule (poll_steps_E _ _ m) [] (conj (proj1 Hroot) (conj (proj2 Hroot) Hm)) Ep).
Qed.

Lemma rounds_finish : forall k st m, Winv st -> all_ready st -> Bstate st m -> m <= k ->
  finished (fst (run_async (rounds k) st)).
Proof.
  induction k as [|k IH]; intros st m HW HA HB Hm; unfold Bstate in HB.
  - destruct (s_root st) as [n cs rest|r] eqn:Hr; [lia | exists r; exact Hr].
  - (* one round [RunTasks; Poll] lowers the bound: the tasks awaited all finish, so the poll gets
       past a task-spawning step *)
    change (rounds (S k)) with (RunTasks :: Poll :: rounds k). rewrite !run_async_cons. cbn [step].
    pose proof (do_run_tasks_W st HW) as HW1. pose proof (all_ready_step st RunTasks HA) as HA1.
    apply (IH _ k); [exact (proj1 (do_poll_W _ HW1)) | exact (all_ready_step _ Poll HA1) | | lia].
    apply poll_all_ready; [exact HA1|]. destruct HW1 as [_ Hroot1]. cbn [step] in *. rewrite root_do_run_tasks in *.
    destruct (s_root st) as [n cs rest|r]; [|exact I]. right. split; [|lia].
    intros t Hin. destruct (proj2 Hroot1 t Hin) as [tk [Hn _]]. exists tk. split; [exact Hn|].
    exact (run_tasks_all_finish st HW HA t tk Hn).
Qed.

(** (e), state form.  In a state in which every remaining gate is ready, [Poll] followed by
    [pend st] rounds of [RunTasks; Poll] completes the root ([pend st = 0] for the plain
    kinds: the FIRST poll completes).  More rounds do not hurt. *)
Theorem completes_state : forall st m, Winv st -> all_ready st -> pend st <= m ->
  finished (fst (run_async (Poll :: rounds m) st)).
Proof.
  intros st m HW HA Hm. rewrite run_async_cons. cbn [step].
  apply (rounds_finish m _ (pend st)); [exact (proj1 (do_poll_W _ HW)) | exact (all_ready_step _ Poll HA) | | exact Hm].
  apply poll_all_ready; [exact HA|]. unfold pend. destruct (s_root st) as [n cs rest|r]; [|exact I].
  destruct (hflag cs) eqn:Eh; [right | left; lia]. split; [|lia].
  intros t Hin. destruct (hflag_0_inv _ _ Eh Hin).
Qed.

(** ** From a tree to its reachable states *)

Lemma pend_step : forall st a, pend (fst (step a st)) <= pend st.
Proof.
  intros st a. destruct a as [g| |]; cbn [step].
  - unfold pend. rewrite (proj1 (proj2 (proj2 (do_flip_frame g st)))). lia.
  - destruct (do_poll_cases st) as [r Er|n cs rest rt regs tasks runq o1 Er Ep]; [lia|]. unfold pend. rewrite Er.
    pose proof (poll_steps_rule (poll_steps_pend _ _ _) [] (le_n _) Ep) as H. destruct rt; [exact H | cbn [s_root]; lia].
  - unfold pend. rewrite root_do_run_tasks. lia.
Qed.

Lemma pend_run : forall acts st, pend (fst (run_async acts st)) <= pend st.
Proof.
  intros acts st. apply (run_async_ind_state (fun s => pend s <= pend st) st (le_n _)).
  intros s a H. pose proof (pend_step s a). lia.
Qed.

Lemma flip_sets_ready : forall g acts st, In (Flip g) acts -> memN g (s_ready (fst (run_async acts st))) = true.
Proof.
  intros g. induction acts as [|a acts IH]; intros st Hin; [destruct Hin|]. rewrite run_async_cons.
  destruct Hin as [->|Hin]; [|exact (IH _ Hin)].
  apply (run_async_ind_state (fun s => memN g (s_ready s) = true)); [|apply ready_mono_step].
  cbn [step]. destruct (do_flip_cases g st) as [Eg|rq o _ _]; [exact Eg | apply memN_cons_same].
Qed.

Definition tree_gates (t : tree) (g : N) : Prop :=
  exists s l, In s (tr_steps t) /\ In l (sexpr_leaves s) /\ In (AGate g) (l_script l).

Lemma init_gates : forall t, state_gates_in (tree_gates t) (init t).
Proof.
  intros t. split.
  - intros u tk Hn. destruct u; discriminate.
  - split; [intros l []|]. intros s l Hs Hl g Hg. exists s, l. auto.
Qed.

(** (e) Completion, for any tree (inline and spawned children mixed at will).  For EVERY action
    list [acts] after which every gate occurring in the tree has been flipped: [Poll] followed by
    [pend] rounds of [RunTasks; Poll] completes the root, where [pend] is at most the number of
    task-spawning steps; more rounds than needed do no harm. *)
Theorem completes_tree : forall t acts,
  (forall g, tree_gates t g -> In (Flip g) acts) ->
  let st := fst (run_async acts (init t)) in
  pend st <= nsp (tr_steps t) /\
  forall m, pend st <= m -> finished (fst (run_async (Poll :: rounds m) st)).
Proof.
  intros t acts Hflips st. split.
  - pose proof (pend_run acts (init t)) as H. unfold pend at 2 in H. cbn in H. unfold st. lia.
  - intros m Hm. apply completes_state; [apply no_lost_wakeup_inv | | exact Hm].
    unfold all_ready. eapply state_gates_in_weaken;
      [|apply (run_async_ind_state (state_gates_in (tree_gates t))); [apply init_gates | apply state_gates_in_step]].
    intros g Hg. unfold Gr. apply flip_sets_ready. apply Hflips. exact Hg.
Qed.

(** ** Program shapes *)

Definition spawn_steps (p : shape) : nat := nsp (tr_steps (skeleton p)).

Lemma nsp_steps_from_plain : forall sts k, nsp (steps_from false k sts) = 0.
Proof.
  induction sts as [|stp sts IH]; intros k; cbn [steps_from]; [reflexivity|].
  rewrite nsp_cons, IH. destruct stp as [|b1 [|b2 r]]; cbn [step_expr is_spawn_step map existsb is_cspawn]; try reflexivity.
  assert (H : existsb is_cspawn (map (fun bs : bstep => CInline (leaf_of k bs)) r) = false).
  { induction r as [|x r IHr]; cbn; auto. }
  rewrite H. reflexivity.
Qed.

Lemma spawn_steps_plain : forall p, sh_spawn p = false -> spawn_steps p = 0.
Proof. intros p H. unfold spawn_steps, skeleton. cbn [tr_steps]. rewrite H. apply nsp_steps_from_plain. Qed.

Lemma nsp_steps_from_spawn : forall sts k,
  nsp (steps_from true k sts) = length (filter (fun stp => 2 <=? length stp) sts).
Proof.
  induction sts as [|stp sts IH]; intros k; cbn [steps_from filter]; [reflexivity|].
  rewrite nsp_cons, IH. destruct stp as [|b1 [|b2 r]]; reflexivity.
Qed.

(** For the task-spawning kinds the number of rounds is the number of steps with at least
    two active branches. *)
Lemma spawn_steps_spawn : forall p, sh_spawn p = true ->
  spawn_steps p = length (filter (fun stp => 2 <=? length stp) (sh_steps p)).
Proof. intros p H. unfold spawn_steps, skeleton. cbn [tr_steps]. rewrite H. apply nsp_steps_from_spawn. Qed.

Definition shape_gates (p : shape) (g : N) : Prop :=
  exists stp bs, In stp (sh_steps p) /\ In bs stp /\ In (AGate g) (bs_script bs).

Lemma step_expr_cexprs : forall spawn k stp,
  Forall2 (fun c bs => cexpr_leaf c = leaf_of k bs) (sexpr_cexprs (step_expr spawn k stp)) stp.
Proof.
  intros spawn k stp.
  assert (H : Forall2 (fun c bs => cexpr_leaf c = leaf_of k bs)
                (map (fun bs => if spawn then CSpawn (leaf_of k bs) else CInline (leaf_of k bs)) stp) stp)
    by (induction stp; constructor; [destruct spawn; reflexivity | assumption]).
  destruct stp as [|b1 [|b2 r]]; [exact H | repeat constructor | exact H].
Qed.

Lemma step_expr_leaves : forall spawn k stp l,
  In l (sexpr_leaves (step_expr spawn k stp)) -> exists bs, In bs stp /\ l = leaf_of k bs.
Proof.
  intros spawn k stp l H. rewrite sexpr_leaves_cexprs in H. apply in_map_iff in H. destruct H as [c [<- Hc]].
  exact (Forall2_In_l _ _ _ _ _ _ (step_expr_cexprs spawn k stp) Hc).
Qed.

Lemma steps_from_leaves : forall spawn sts k s l,
  In s (steps_from spawn k sts) -> In l (sexpr_leaves s) ->
  exists stp bs j, In stp sts /\ In bs stp /\ l = leaf_of j bs.
Proof.
  intros spawn. induction sts as [|stp sts IH]; intros k s l Hs Hl; cbn [steps_from] in Hs; [destruct Hs|].
  destruct Hs as [<-|Hs].
  - destruct (step_expr_leaves _ _ _ _ Hl) as [bs [H1 H2]]. exists stp, bs, k. split; [left; reflexivity | auto].
  - destruct (IH _ _ _ Hs Hl) as [stp' [bs [j [H1 [H2 H3]]]]]. exists stp', bs, j. split; [right; exact H1 | auto].
Qed.

Lemma tree_gates_skeleton : forall p g, tree_gates (skeleton p) g -> shape_gates p g.
Proof.
  intros p g [s [l [Hs [Hl Hg]]]]. destruct (steps_from_leaves _ _ _ _ _ Hs Hl) as [stp [bs [j [H1 [H2 ->]]]]].
  exists stp, bs. auto.
Qed.

(** (e) Completion.  For EVERY action list [acts] after which every gate occurring in the
    program has been flipped (any order, any batching, any polls / task runs in between):
    - plain kinds: [pend = 0] -- the very next [Poll] completes the root;
    - task-spawning kinds: [Poll] followed by [pend] rounds of [RunTasks; Poll] completes it,
      where [pend <= spawn_steps p] = the number of steps with >= 2 active branches
      (each such step needs one [RunTasks] for its tasks to run and one [Poll] for the
      root to collect them);
    more rounds than needed do no harm. *)
Theorem completes_under_every_order : forall p acts,
  (forall g, shape_gates p g -> In (Flip g) acts) ->
  let st := fst (run_async acts (init (skeleton p))) in
  pend st <= spawn_steps p /\
  (sh_spawn p = false -> pend st = 0) /\
  forall m, pend st <= m -> finished (fst (run_async (Poll :: rounds m) st)).
Proof.
  intros p acts Hflips st.
  destruct (completes_tree (skeleton p) acts (fun g Hg => Hflips g (tree_gates_skeleton p g Hg))) as [Hp Hfin].
  fold st in Hp, Hfin. split; [exact Hp|]. split; [|exact Hfin].
  intros Hs. pose proof (spawn_steps_plain p Hs). unfold spawn_steps in *. lia.
Qed.

Lemma poll_steps_last : forall try ready,
  round_ok try ready (fun _ _ _ _ _ _ _ => True)
    (fun rt _ _ _ tr => (exists o', tr = o' ++ [ORoot (match rt with RFin r => r | RRun _ _ _ => RPending end)]) /\
                        (forall r, rt = RFin r -> r <> RPending)).
Proof.
  intros try ready n cs rest regs tasks runq tr cs' o rs js st _ _.
  destruct st as [| |k b]; [| destruct rest as [|s rest]; [|intros; exact I] |];
    (split; [exists (tr ++ o); apply app_assoc | intros r [= <-]; discriminate]).
Qed.

(** (e) "as soon as possible", on observations: when no step spawns a task, the FIRST [Poll]
    after the last needed [Flip] returns Ready (its last observation is [ORoot r] with
    [r <> RPending]), unless the root had already completed. *)
Theorem completes_asap_gen : forall p acts,
  spawn_steps p = 0 ->
  (forall g, shape_gates p g -> In (Flip g) acts) ->
  let st := fst (run_async acts (init (skeleton p))) in
  finished (fst (do_poll st)) /\
  (finished st \/ exists o' r, snd (do_poll st) = o' ++ [ORoot r] /\ r <> RPending).
Proof.
  intros p acts Hs Hflips st.
  destruct (completes_under_every_order p acts Hflips) as [Hp [_ Hfin]]. fold st in Hp, Hfin.
  assert (Hf : finished (fst (do_poll st))).
  { specialize (Hfin 0 ltac:(lia)). cbn [rounds repeat concat run_async step] in Hfin.
    destruct (do_poll st) as [s1 o1]. exact Hfin. }
  split; [exact Hf|]. revert Hf. destruct (do_poll_cases st) as [r Er|n cs rest rt regs tasks runq o1 Er Ep]; intros Hf.
  - left. exists r. exact Er.
  - right. destruct (poll_steps_rule (poll_steps_last _ _) [] I Ep) as [[o' Ho] Hr].
    destruct Hf as [r Hfr]. cbn [s_root] in Hfr. subst rt. exists o', r. split; [exact Ho | apply Hr; reflexivity].
Qed.

Theorem completes_as_soon_as_possible : forall p acts,
  sh_spawn p = false ->
  (forall g, shape_gates p g -> In (Flip g) acts) ->
  let st := fst (run_async acts (init (skeleton p))) in
  finished (fst (do_poll st)) /\
  (finished st \/ exists o' r, snd (do_poll st) = o' ++ [ORoot r] /\ r <> RPending).
Proof. intros p acts Hs. exact (completes_asap_gen p acts (spawn_steps_plain p Hs)). Qed.

(** * 6. Structure + trace invariant: (b) step barrier, (f) try abort, "own script" for (c) *)

Section Structure.

Variable p : shape.

Definition in_step (k : nat) (bs : bstep) : Prop :=
  exists stp, nth_error (sh_steps p) k = Some stp /\ In bs stp.

Definition done_of (k : nat) (bs : bstep) : obs := ODone k (bs_b bs) (bs_ok bs).

Definition completed (tr : list obs) (k : nat) (bs : bstep) : Prop :=
  In (done_of k bs) tr /\ (sh_try p = true -> bs_ok bs = true).

Definition root_sound (tr : list obs) (r : rres) : Prop :=
  match r with
  | RPending => True
  | ROk => forall k bs, in_step k bs -> completed tr k bs
  | RErr k b =>
      sh_try p = true /\
      (exists bs, in_step k bs /\ bs_b bs = b /\ bs_ok bs = false) /\
      In (ODone k b false) tr /\
      (forall k' bs', k' < k -> in_step k' bs' -> bs_ok bs' = true)
  end.

Definition barrier_ok (tr : list obs) : Prop :=
  forall o1 x o2 k' k bs, tr = o1 ++ x :: o2 -> obs_step x = Some k' -> k < k' -> in_step k bs ->
                          In (done_of k bs) o1.

(** The trace when [n] steps have been started; step [n-1] is the awaited one. *)
Record Sobs (n : nat) (tr : list obs) : Prop := mkSobs {
  so_lt : forall x k, In x tr -> obs_step x = Some k -> k < n;
  so_sound : forall k b ok, In (ODone k b ok) tr -> exists bs, in_step k bs /\ bs_b bs = b /\ bs_ok bs = ok;
  so_barrier : barrier_ok tr;
  so_before : forall k bs, S k < n -> in_step k bs -> completed tr k bs;
  so_root : forall r, In (ORoot r) tr -> root_sound tr r
}.

(** An observation (a list of them) that keeps [Sobs n] when appended. *)
Definition xok (n : nat) (x : obs) : Prop :=
  (forall k, obs_step x = Some k -> k < n) /\
  (forall k b ok, x = ODone k b ok -> exists bs, in_step k bs /\ bs_b bs = b /\ bs_ok bs = ok) /\
  (forall r, x <> ORoot r).

Definition chunk_ok (n : nat) (o : list obs) : Prop := Forall (xok n) o.

Lemma completed_app : forall tr o k bs, completed tr k bs -> completed (tr ++ o) k bs.
Proof. intros tr o k bs [H1 H2]. split; [apply in_or_app; left; exact H1 | exact H2]. Qed.

Lemma root_sound_app : forall tr o r, root_sound tr r -> root_sound (tr ++ o) r.
Proof.
  intros tr o [| |k b] H; cbn [root_sound] in *.
  - exact I.
  - intros k bs Hin. exact (completed_app _ o _ _ (H k bs Hin)).
  - destruct H as [H1 [H2 [H3 H4]]]. split; [exact H1|]. split; [exact H2|]. split; [apply in_or_app; left; exact H3 | exact H4].
Qed.

Lemma barrier_app : forall tr o,
  barrier_ok tr ->
  (forall x k' k bs, In x o -> obs_step x = Some k' -> k < k' -> in_step k bs -> In (done_of k bs) tr) ->
  barrier_ok (tr ++ o).
Proof.
  intros tr o Hb Hnew o1 x o2 k' k bs Heq Hx Hlt Hin.
  apply app_eq_app in Heq. destruct Heq as [l [[H1 H2]|[H1 H2]]].
  - (* tr = o1 ++ l, x :: o2 = l ++ o *)
    destruct l as [|y l].
    + cbn in H2. rewrite app_nil_r in H1. subst o1. apply (Hnew x k' k bs); [rewrite <- H2; left; reflexivity | auto ..].
    + cbn in H2. inversion H2; subst y. apply (Hb o1 x l k' k bs); auto.
  - (* o1 = tr ++ l, o = l ++ x :: o2 *)
    subst o1. apply in_or_app. left. apply (Hnew x k' k bs); auto. rewrite H2. apply in_or_app. right. left. reflexivity.
Qed.

Lemma Sobs_ext : forall n tr o, Sobs n tr ->
  (forall x, In x o ->
     (forall k, obs_step x = Some k -> k < n) /\
     (forall k b ok, x = ODone k b ok -> exists bs, in_step k bs /\ bs_b bs = b /\ bs_ok bs = ok) /\
     (forall r, x = ORoot r -> root_sound tr r)) ->
  Sobs n (tr ++ o).
Proof.
  intros n tr o [H1 H2 H3 H4 H6] Hc. constructor.
  - intros x k Hin Hx. apply in_app_or in Hin.
    destruct Hin as [Hin|Hin]; [eapply H1; eassumption | exact (proj1 (Hc x Hin) k Hx)].
  - intros k b ok Hin. apply in_app_or in Hin.
    destruct Hin as [Hin|Hin]; [apply H2; exact Hin | exact (proj1 (proj2 (Hc _ Hin)) k b ok eq_refl)].
  - apply barrier_app; [exact H3|]. intros x k' k bs Hin Hx Hlt Hs.
    pose proof (proj1 (Hc x Hin) k' Hx). apply (H4 k bs); [lia | exact Hs].
  - intros k bs Hlt Hs. apply completed_app, H4; assumption.
  - intros r Hin. apply root_sound_app. apply in_app_or in Hin.
    destruct Hin as [Hin|Hin]; [exact (H6 r Hin) | exact (proj2 (proj2 (Hc _ Hin)) r eq_refl)].
Qed.

Lemma Sobs_app : forall n tr o, Sobs n tr -> chunk_ok n o -> Sobs n (tr ++ o).
Proof.
  intros n tr o H Hc. apply (Sobs_ext n tr o H). intros x Hin. unfold chunk_ok in Hc. rewrite Forall_forall in Hc.
  destruct (Hc x Hin) as [Hk [Hd Hr]]. split; [exact Hk|]. split; [exact Hd|]. intros r ->. destruct (Hr r eq_refl).
Qed.

Lemma Sobs_root : forall n tr r, Sobs n tr -> root_sound tr r -> Sobs n (tr ++ [ORoot r]).
Proof.
  intros n tr r H Hr. apply (Sobs_ext n tr _ H). intros x [<-|[]].
  split; [discriminate|]. split; [discriminate|]. intros r0 [= <-]. exact Hr.
Qed.

Lemma Sobs_next : forall n tr,
  Sobs n tr ->
  (forall m bs, n = S m -> in_step m bs -> completed tr m bs) ->
  Sobs (S n) tr.
Proof.
  intros n tr [H1 H2 H3 H4 H6] Hcur. constructor.
  - intros x k Hin Hx. specialize (H1 x k Hin Hx). lia.
  - exact H2.
  - exact H3.
  - intros k bs Hlt Hs. destruct (Nat.eq_dec (S k) n) as [He|Hne].
    + apply (Hcur k bs (eq_sym He) Hs).
    + apply (H4 k bs); [lia | exact Hs].
  - exact H6.
Qed.

Lemma chunk_ok_app : forall n o1 o2, chunk_ok n o1 -> chunk_ok n o2 -> chunk_ok n (o1 ++ o2).
Proof. intros n o1 o2 H1 H2. apply Forall_app. split; assumption. Qed.

Lemma chunk_ok_mono : forall n n' o, n <= n' -> chunk_ok n o -> chunk_ok n' o.
Proof.
  intros n n' o Hle H. unfold chunk_ok in *. eapply Forall_impl; [|exact H].
  intros x [H1 [H2 H3]]. split; [|split; assumption]. intros k Hk. specialize (H1 k Hk). lia.
Qed.

Lemma xok_ev : forall n k b x, k < n -> ev_obs k b x -> xok n x.
Proof.
  intros n k b x Hlt He. split; [|split].
  - intros k0 Hk. rewrite (ev_obs_step _ _ _ He) in Hk. inversion Hk; subst. exact Hlt.
  - intros k0 b0 ok Hx. exfalso. eapply ev_obs_not_done; eassumption.
  - intros r Hx. eapply ev_obs_not_root; eassumption.
Qed.

Lemma xok_notify : forall n, xok n ONotify.
Proof. intros n. split; [|split]; intros; discriminate. Qed.

(** ** children, tasks *)

(** Child [c] of the awaited step [m] stands for its branch [bs]. *)
Definition child_branch (tasks : list task) (tr : list obs) (m : nat) (c : child) (bs : bstep) : Prop :=
  match c with
  | CLeaf l => leaf_suffix (leaf_of m bs) l
  | CHandle t => exists tk, nth_error tasks t = Some tk /\ l_k (t_leaf tk) = m /\
                            l_b (t_leaf tk) = bs_b bs /\ l_ok (t_leaf tk) = bs_ok bs
  | CDone => completed tr m bs
  end.

Definition task_S (n : nat) (tr : list obs) (tk : task) : Prop :=
  l_k (t_leaf tk) < n /\
  (exists bs, in_step (l_k (t_leaf tk)) bs /\ leaf_suffix (leaf_of (l_k (t_leaf tk)) bs) (t_leaf tk)) /\
  (t_fin tk = true -> In (ODone (l_k (t_leaf tk)) (l_b (t_leaf tk)) (l_ok (t_leaf tk))) tr).

Definition Stasks (n : nat) (tasks : list task) (tr : list obs) : Prop :=
  forall t tk, nth_error tasks t = Some tk -> task_S n tr tk.

(** The [0] arm: before the first poll no step is awaited and there is no child. *)
Definition Scur (n : nat) (cs : list child) (tasks : list task) (tr : list obs) : Prop :=
  match n with
  | 0 => cs = []
  | S m => exists stp, nth_error (sh_steps p) m = Some stp /\ Forall2 (child_branch tasks tr m) cs stp
  end.

Definition todo_from (n : nat) (rest : list sexpr) : Prop :=
  exists done todo, sh_steps p = done ++ todo /\ length done = n /\ rest = steps_from (sh_spawn p) n todo.

Definition Sroot (n : nat) (rt : root) (tasks : list task) (tr : list obs) : Prop :=
  match rt with
  | RRun n0 cs rest => n0 = n /\ todo_from n rest /\ Scur n cs tasks tr
  | RFin _ => True
  end.

(** The invariant of state and trace; [n], the counter of a running root, is the number of steps
    started. *)
Definition Sinv (st : state) (tr : list obs) : Prop :=
  s_try st = sh_try p /\
  exists n, Sobs n tr /\ Stasks n (s_tasks st) tr /\ Sroot n (s_root st) (s_tasks st) tr.

Lemma task_S_app : forall n n' tr o tk, task_S n tr tk -> n <= n' -> task_S n' (tr ++ o) tk.
Proof.
  intros n n' tr o tk [H1 [H2 H3]] Hle. split; [lia|]. split; [exact H2|]. intros Hf. apply in_or_app. left. exact (H3 Hf).
Qed.

Lemma Stasks_app : forall n tasks tr o, Stasks n tasks tr -> Stasks n tasks (tr ++ o).
Proof. intros n tasks tr o H t tk Hn. exact (task_S_app _ _ _ _ _ (H _ _ Hn) (le_n n)). Qed.

Lemma Stasks_core : forall n tasks tasks' tr,
  Stasks n tasks tr -> map tcore tasks' = map tcore tasks -> Stasks n tasks' tr.
Proof.
  intros n tasks tasks' tr H Hc t tk' Hn. destruct (core_nth _ _ _ _ Hc Hn) as [tk [Hn0 [Hl Hf]]].
  specialize (H _ _ Hn0). unfold task_S in *. rewrite Hl, Hf. exact H.
Qed.

(** [child_branch] survives when tasks keep their (k, b, ok) and the trace grows *)
Definition tasks_keep (tasks tasks' : list task) : Prop :=
  forall t tk, nth_error tasks t = Some tk ->
    exists tk', nth_error tasks' t = Some tk' /\ l_k (t_leaf tk') = l_k (t_leaf tk) /\
                l_b (t_leaf tk') = l_b (t_leaf tk) /\ l_ok (t_leaf tk') = l_ok (t_leaf tk).

Lemma child_branch_app : forall tasks tasks' tr o m c bs,
  child_branch tasks tr m c bs -> tasks_keep tasks tasks' -> child_branch tasks' (tr ++ o) m c bs.
Proof.
  intros tasks tasks' tr o m c bs H Hk. destruct c as [l|t|]; cbn [child_branch] in *.
  - exact H.
  - destruct H as [tk [Hn [H1 [H2 H3]]]]. destruct (Hk _ _ Hn) as [tk' [Hn' [K1 [K2 K3]]]].
    exists tk'. split; [exact Hn'|]. split; [congruence|]. split; congruence.
  - exact (completed_app _ o _ _ H).
Qed.

Lemma Forall2_child_branch_app : forall tasks tasks' tr o m cs stp,
  Forall2 (child_branch tasks tr m) cs stp -> tasks_keep tasks tasks' -> Forall2 (child_branch tasks' (tr ++ o) m) cs stp.
Proof.
  intros tasks tasks' tr o m cs stp H Hk. induction H as [|c bs cs stp Hc H IH]; constructor.
  - exact (child_branch_app _ _ _ _ _ _ _ Hc Hk).
  - exact IH.
Qed.

Lemma tasks_keep_refl : forall tasks, tasks_keep tasks tasks.
Proof. intros tasks t tk Hn. exists tk. auto. Qed.

Lemma tasks_keep_set_jw : forall js tasks, tasks_keep tasks (set_jw js tasks).
Proof.
  intros js tasks t tk Hn. destruct (core_nth _ _ _ _ (eq_sym (core_set_jw js tasks)) Hn) as [tk' [Hn' [Hl _]]].
  exists tk'. rewrite Hl. auto.
Qed.

Lemma tasks_keep_app : forall tasks new, tasks_keep tasks (tasks ++ new).
Proof.
  intros tasks new t tk Hn. exists tk. split; [|auto].
  rewrite nth_error_app1; [exact Hn | eapply nth_error_Some_lt; exact Hn].
Qed.

Definition fin_in (tasks : list task) (tr : list obs) : Prop :=
  forall t tk, nth_error tasks t = Some tk -> t_fin tk = true ->
               In (ODone (l_k (t_leaf tk)) (l_b (t_leaf tk)) (l_ok (t_leaf tk))) tr.

Lemma xok_done : forall n k bs, k < n -> in_step k bs -> xok n (done_of k bs).
Proof.
  intros n k bs Hlt Hs. split; [|split]; try discriminate.
  - intros k0 [= <-]. exact Hlt.
  - intros k0 b0 ok0 [= <- <- <-]. exists bs. auto.
Qed.

Lemma poll_leaf_S : forall ready n k bs l r o,
  poll_leaf ready l = (r, o) -> leaf_suffix (leaf_of k bs) l -> in_step k bs -> k < n ->
  chunk_ok n o /\
  match r with LFin _ => In (done_of k bs) o | LPark l' _ => leaf_suffix (leaf_of k bs) l' end.
Proof.
  intros ready n k bs l r o E Hsuf Hs Hlt. pose proof Hsuf as [Hk [Hb [Hok _]]]. cbn [leaf_of l_k l_b l_ok] in Hk, Hb, Hok.
  assert (Hp : xok n (OPoll (l_k l) (l_b l))) by (split; [|split]; try discriminate; intros k0 [= <-]; lia).
  pose proof (poll_leaf_obs (xok n) _ _ _ _ E Hp (fun x => xok_ev n (l_k l) (l_b l) x ltac:(lia))) as Ho.
  rewrite Hk, Hb, Hok in Ho. destruct r as [ok|l' g].
  - destruct Ho as [o1 [-> Ho1]]. split; [|apply in_or_app; right; left; reflexivity].
    apply chunk_ok_app; [exact Ho1|]. constructor; [exact (xok_done _ _ _ Hlt Hs) | constructor].
  - split; [exact Ho|]. destruct (poll_leaf_spec _ _ _ _ E) as [_ [_ [_ [Hs1 _]]]]. exact (leaf_suffix_trans _ _ _ Hsuf Hs1).
Qed.

(** what a poll of child [c'] of branch [bs] of step [m] with status [st] leaves behind *)
Definition cstat_sound (tasks : list task) (tr : list obs) (m : nat) (bs : bstep) (c' : child) (st : cstat) : Prop :=
  match st with
  | CPend => child_branch tasks tr m c' bs
  | CFinOk => c' = CDone /\ child_branch tasks tr m c' bs
  | CFail k b => sh_try p = true /\ k = m /\ b = bs_b bs /\ bs_ok bs = false /\ In (ODone m b false) tr
  end.

Lemma fin_stat_S : forall tasks tr m bs,
  In (done_of m bs) tr -> cstat_sound tasks tr m bs CDone (fin_stat (sh_try p) (bs_ok bs) m (bs_b bs)).
Proof.
  intros tasks tr m bs Hin. unfold cstat_sound, child_branch, completed, fin_stat, done_of in *.
  destruct (sh_try p); destruct (bs_ok bs); cbn [andb negb]; auto.
Qed.

Lemma poll_child_S : forall ready tasks tr m c bs c' o rs js st,
  poll_child (sh_try p) ready tasks c = (c', o, rs, js, st) ->
  child_branch tasks tr m c bs -> in_step m bs -> fin_in tasks tr ->
  chunk_ok (S m) o /\ cstat_sound tasks (tr ++ o) m bs c' st.
Proof.
  intros ready tasks tr m c bs c' o rs js st E Hrel Hs Hfin.
  destruct (poll_child_cases _ _ _ _ _ _ _ _ _ E) as [|t js _ _|t tk Hn Hf|l o El|l l' g o El Hsuf _]; cbn [child_branch] in Hrel.
  - split; [constructor|]. split; [reflexivity|]. rewrite app_nil_r. exact Hrel.
  - split; [constructor|]. rewrite app_nil_r. exact Hrel.
  - split; [constructor|]. destruct Hrel as [tk0 [Hn0 [Hk [Hb Hok]]]]. rewrite Hn in Hn0. injection Hn0 as <-.
    pose proof (Hfin _ _ Hn Hf) as H. rewrite Hk, Hb, Hok in *. apply fin_stat_S. rewrite app_nil_r. exact H.
  - destruct (poll_leaf_S _ (S m) _ _ _ _ _ El Hrel Hs (le_n _)) as [Ho Hd]. split; [exact Ho|].
    destruct Hrel as [Hk [Hb [Hok _]]]. cbn [leaf_of l_k l_b l_ok] in Hk, Hb, Hok. rewrite Hk, Hb, Hok.
    apply fin_stat_S. apply in_or_app. right. exact Hd.
  - exact (poll_leaf_S _ (S m) _ _ _ _ _ El Hrel Hs (le_n _)).
Qed.

Lemma fin_in_app : forall tasks tr o, fin_in tasks tr -> fin_in tasks (tr ++ o).
Proof. intros tasks tr o H t tk Hn Hf. apply in_or_app. left. exact (H _ _ Hn Hf). Qed.

Lemma poll_children_S : forall ready tasks m cs cs' o rs js st,
  poll_children (sh_try p) ready tasks cs = (cs', o, rs, js, st) ->
  forall tr stp,
  Forall2 (child_branch tasks tr m) cs stp ->
  (forall bs, In bs stp -> in_step m bs) -> fin_in tasks tr ->
  chunk_ok (S m) o /\
  match st with
  | JPend => Forall2 (child_branch tasks (tr ++ o) m) cs' stp
  | JAll => Forall2 (child_branch tasks (tr ++ o) m) cs' stp /\ (forall c, In c cs' -> c = CDone)
  | JFail k b => sh_try p = true /\ k = m /\
                 (exists bs, In bs stp /\ bs_b bs = b /\ bs_ok bs = false) /\ In (ODone m b false) (tr ++ o)
  end.
Proof.
  intros ready tasks m. refine (poll_children_rule (sh_try p) ready tasks _ _ _ _).
  - intros tr stp Hrel _ _. rewrite app_nil_r. split; [constructor|]. split; [exact Hrel | intros c []].
  - intros c cs c' o rs js k b Ec tr stp' Hrel Hs Hfin. inversion Hrel as [|? bs ? stp Hc Hrest]; subst.
    destruct (poll_child_S _ _ _ _ _ _ _ _ _ _ _ Ec Hc (Hs bs (or_introl eq_refl)) Hfin) as [Hch [H1 [H2 [H3 [H4 H5]]]]].
    split; [exact Hch|]. split; [exact H1|]. split; [exact H2|]. split; [|exact H5].
    exists bs. split; [left; reflexivity | auto].
  - intros c cs c' o rs js st cs2 o2 rs2 js2 st2 Ec Hnf _ IH tr stp' Hrel Hs Hfin.
    inversion Hrel as [|? bs ? stp Hc Hrest]; subst.
    destruct (poll_child_S _ _ _ _ _ _ _ _ _ _ _ Ec Hc (Hs bs (or_introl eq_refl)) Hfin) as [Hch1 Hst1].
    destruct (IH (tr ++ o) stp) as [Hch2 Hst2];
      [exact (Forall2_child_branch_app _ _ _ o _ _ _ Hrest (tasks_keep_refl _))
      | intros bs0 Hin; apply Hs; right; exact Hin | exact (fin_in_app _ _ o Hfin) |].
    split; [apply chunk_ok_app; assumption|]. rewrite app_assoc.
    assert (Hc1 : child_branch tasks ((tr ++ o) ++ o2) m c' bs /\ (st = CFinOk -> c' = CDone)).
    { assert (H : child_branch tasks (tr ++ o) m c' bs /\ (st = CFinOk -> c' = CDone))
        by (destruct st as [| |k b]; [split; [exact Hst1 | discriminate] | destruct Hst1; auto | destruct (Hnf k b eq_refl)]).
      split; [|apply H]. exact (child_branch_app _ _ _ o2 _ _ _ (proj1 H) (tasks_keep_refl _)). }
    destruct Hc1 as [Hc1 Hd1]. destruct st2 as [| |k b]; cbn [jcomb].
    + constructor; assumption.
    + destruct Hst2 as [H1 H2].
      destruct st as [| |k b]; [constructor; assumption | | destruct (Hnf k b eq_refl)].
      split; [constructor; assumption|]. intros c0 [<-|Hin]; [exact (Hd1 eq_refl) | exact (H2 c0 Hin)].
    + destruct Hst2 as [H1 [H2 [[bs0 [H3 H4]] H6]]]. split; [exact H1|]. split; [exact H2|].
      split; [exists bs0; split; [right; exact H3 | exact H4] | exact H6].
Qed.

Lemma Scur_app : forall n cs tasks tasks' tr o,
  Scur n cs tasks tr -> tasks_keep tasks tasks' -> Scur n cs tasks' (tr ++ o).
Proof.
  intros n cs tasks tasks' tr o H Hk. destruct n as [|m]; [exact H|].
  destruct H as [stp [H1 H2]]. exists stp. split; [exact H1|]. exact (Forall2_child_branch_app _ _ _ _ _ _ _ H2 Hk).
Qed.

Lemma poll_children_cur : forall ready tasks n cs tr cs' o rs js st,
  poll_children (sh_try p) ready tasks cs = (cs', o, rs, js, st) ->
  Sobs n tr -> Stasks n tasks tr -> Scur n cs tasks tr ->
  chunk_ok n o /\
  match st with
  | JPend => Scur n cs' tasks (tr ++ o)
  | JAll => forall m bs, n = S m -> in_step m bs -> completed (tr ++ o) m bs
  | JFail k b => root_sound (tr ++ o) (RErr k b)
  end.
Proof.
  intros ready tasks n cs tr cs' o rs js st E Hobs Htasks Hcur. destruct n as [|m].
  - cbn [Scur] in Hcur. subst cs. cbn [poll_children] in E. injection E as <- <- <- <- <-.
    split; [constructor | discriminate].
  - destruct Hcur as [stp [Hnth Hrel]].
    assert (Hs : forall bs, In bs stp -> in_step m bs) by (intros bs Hin; exists stp; auto).
    destruct (poll_children_S _ _ _ _ _ _ _ _ _ E _ _ Hrel Hs) as [Hch Hst].
    { intros t tk Hn Hf. apply (Htasks _ _ Hn). exact Hf. }
    split; [exact Hch|]. destruct st as [| |k b].
    + exists stp. auto.
    + destruct Hst as [H1 H2]. intros m0 bs [= <-] [stp0 [Hn0 Hin]]. rewrite Hnth in Hn0. injection Hn0 as <-.
      destruct (Forall2_In_r _ _ _ _ _ _ H1 Hin) as [c [Hc Hr]]. rewrite (H2 c Hc) in Hr. exact Hr.
    + destruct Hst as [H1 [H2 [[bs [H3 [H4 H5]]] H6]]]. subst k. cbn [root_sound].
      split; [exact H1|]. split; [exists bs; split; [apply Hs; exact H3 | auto]|]. split; [exact H6|].
      intros k' bs' Hlt Hin. apply (so_before _ _ Hobs k' bs'); [lia | exact Hin | exact H1].
Qed.

Lemma inst_children_S : forall (k : nat) (tr : list obs) cs tasks runq ch tk rq o,
  inst_children cs tasks runq = (ch, tk, rq, o) ->
  forall stp, Forall2 (fun c bs => cexpr_leaf c = leaf_of k bs) cs stp ->
  Forall2 (child_branch tk tr k) ch stp /\ chunk_ok (S k) o.
Proof.
  intros k tr.
  assert (Hnew : forall l bs, l = leaf_of k bs -> xok (S k) (ONew (l_k l) (l_b l))).
  { intros l bs ->. split; [|split]; try discriminate. intros k0 [= <-]. cbn. lia. }
  refine (inst_children_rule _ _ _ _).
  - intros tasks runq stp Hst. inversion Hst. split; constructor.
  - intros l cs tasks runq ch tk rq o _ IH stp' Hst. inversion Hst as [|? bs ? stp Hl Hst']; subst.
    destruct (IH _ Hst') as [H1 H2]. split; [|constructor; [exact (Hnew _ _ Hl) | exact H2]].
    constructor; [|exact H1]. cbn [child_branch cexpr_leaf] in *. rewrite Hl. apply leaf_suffix_refl.
  - intros l cs tasks runq ch tk rq o E1 IH stp' Hst. inversion Hst as [|? bs ? stp Hl Hst']; subst.
    destruct (IH _ Hst') as [H1 H2]. split; [|constructor; [exact (Hnew _ _ Hl) | exact H2]].
    constructor; [|exact H1]. cbn [child_branch cexpr_leaf] in *.
    destruct (inst_children_spec _ _ _ _ _ _ _ E1) as [[new [-> _]] _].
    exists (mkTask l false false). split; [|rewrite Hl; cbn; auto].
    rewrite <- app_assoc. rewrite nth_error_app2 by lia. rewrite Nat.sub_diag. reflexivity.
Qed.

Lemma inst_children_tasks_S : forall (k : nat) (tr : list obs) cs tasks runq ch tk rq o stp,
  inst_children cs tasks runq = (ch, tk, rq, o) ->
  Forall2 (fun c bs => cexpr_leaf c = leaf_of k bs) cs stp -> (forall bs, In bs stp -> in_step k bs) ->
  exists new, tk = tasks ++ new /\ forall x, In x new -> task_S (S k) tr x.
Proof.
  intros k tr cs tasks runq ch tk rq o stp E Hst Hs.
  destruct (inst_children_spec _ _ _ _ _ _ _ E) as [[new [Hn Hx]] _]. exists new. split; [exact Hn|].
  intros x Hin. destruct (Hx x Hin) as [Hl Hf]. apply in_map_iff in Hl. destruct Hl as [c [Hc Hl]].
  destruct (Forall2_In_l _ _ _ _ _ _ Hst Hl) as [bs [Hb Heq]]. rewrite Hc in Heq.
  unfold task_S. rewrite Heq. cbn [l_k leaf_of]. split; [lia|]. split.
  - exists bs. split; [apply Hs; exact Hb | apply leaf_suffix_refl].
  - congruence.
Qed.

Lemma poll_steps_S : forall ready,
  round_ok (sh_try p) ready
    (fun n cs rest _ tasks _ tr => todo_from n rest /\ Sobs n tr /\ Stasks n tasks tr /\ Scur n cs tasks tr)
    (fun rt _ tasks _ tr => exists n', Sobs n' tr /\ Stasks n' tasks tr /\ Sroot n' rt tasks tr).
Proof.
  intros ready n cs rest regs tasks runq tr cs' o rs js st [Hrest [Hobs [Htasks Hcur]]] Ec.
  destruct (poll_children_cur _ _ _ _ _ _ _ _ _ _ Ec Hobs Htasks Hcur) as [Hch Hst].
  pose proof (Sobs_app _ _ _ Hobs Hch) as Hobs1.
  assert (Htasks1 : Stasks n (set_jw js tasks) (tr ++ o)).
  { apply (Stasks_core _ tasks); [apply Stasks_app, Htasks | apply core_set_jw]. }
  (* a result [r] that is sound ends the poll *)
  assert (Hfin : forall r, root_sound (tr ++ o) r ->
            exists n', Sobs n' (tr ++ o ++ [ORoot r]) /\ Stasks n' (drop_jw (set_jw js tasks)) (tr ++ o ++ [ORoot r]) /\
                       Sroot n' (RFin r) (drop_jw (set_jw js tasks)) (tr ++ o ++ [ORoot r])).
  { intros r Hr. exists n. rewrite app_assoc. split; [apply Sobs_root; assumption|]. split; [|exact I].
    apply (Stasks_core _ (set_jw js tasks)); [apply Stasks_app, Htasks1 | apply core_drop_jw]. }
  destruct st as [| |k b]; [| |exact (Hfin _ Hst)].
  - exists n. rewrite app_assoc.
    split; [apply Sobs_root; [exact Hobs1 | exact I]|]. split; [apply Stasks_app, Htasks1|].
    split; [reflexivity|]. split; [exact Hrest|]. exact (Scur_app _ _ _ _ _ _ Hst (tasks_keep_set_jw _ _)).
  - rename Hst into Hdone. destruct Hrest as [done [todo [Hsplit [Hlen Hrest]]]].
    destruct todo as [|stp todo]; cbn [steps_from] in Hrest; subst rest.
    + (* no step is left: every branch of every step has completed *)
      apply (Hfin ROk). cbn [root_sound]. intros k bs Hin.
      assert (Hk : k < n).
      { destruct Hin as [stp0 [Hnth _]]. apply nth_error_Some_lt in Hnth. rewrite Hsplit, app_nil_r, Hlen in Hnth. exact Hnth. }
      destruct (Nat.eq_dec (S k) n) as [He|Hne]; [exact (Hdone k bs (eq_sym He) Hin)|].
      apply (so_before _ _ Hobs1 k bs); [lia | exact Hin].
    + intros cs2 tasks2 runq2 o2 Ei.
      assert (Hnth : nth_error (sh_steps p) n = Some stp).
      { rewrite Hsplit, nth_error_app2 by lia. rewrite Hlen, Nat.sub_diag. reflexivity. }
      assert (Hsin : forall bs, In bs stp -> in_step n bs) by (intros bs Hin; exists stp; auto).
      pose proof (step_expr_cexprs (sh_spawn p) n stp) as Hst2.
      destruct (inst_children_S n ((tr ++ o) ++ o2) _ _ _ _ _ _ _ Ei _ Hst2) as [Hrel2 Hch2].
      destruct (inst_children_tasks_S n ((tr ++ o) ++ o2) _ _ _ _ _ _ _ _ Ei Hst2 Hsin) as [new [-> Hnewok]].
      rewrite app_assoc. split; [|split; [exact (Sobs_app _ _ _ (Sobs_next _ _ Hobs1 Hdone) Hch2) | split]].
      * exists (done ++ [stp]), todo. split; [rewrite <- app_assoc; exact Hsplit|].
        split; [rewrite app_length; cbn; lia | reflexivity].
      * intros t tk Hnt. destruct (nth_error_app_inv _ _ _ _ _ Hnt) as [Hn0|[_ Hn0]].
        -- exact (task_S_app _ _ _ o2 _ (Htasks1 _ _ Hn0) (le_S _ _ (le_n n))).
        -- apply Hnewok. exact (nth_error_In _ _ Hn0).
      * exists stp. split; [exact Hnth | exact Hrel2].
Qed.

(** ** [RunTasks] and [Flip] keep the invariant *)

Lemma poll_task_S : forall ready n t tk tk' o rs tr,
  poll_task ready t tk = (tk', o, rs) -> task_S n tr tk ->
  chunk_ok n o /\ task_S n (tr ++ o) tk'.
Proof.
  intros ready n t tk tk' o rs tr E [Hlt [[bs [Hin Hsuf]] Hfin]].
  destruct (poll_task_spec _ _ _ _ _ _ E) as [Hs1 _]. pose proof Hs1 as [Hk [Hb [Hok _]]].
  pose proof Hsuf as [_ [Hb0 [Hok0 _]]]. cbn [leaf_of l_b l_ok] in Hb0, Hok0.
  assert (HS : (t_fin tk' = true -> In (done_of (l_k (t_leaf tk)) bs) (tr ++ o)) -> task_S n (tr ++ o) tk').
  { intros H. unfold task_S. rewrite Hk, Hb, Hok, Hb0, Hok0. split; [exact Hlt|]. split; [|exact H].
    exists bs. split; [exact Hin | exact (leaf_suffix_trans _ _ _ Hsuf Hs1)]. }
  unfold poll_task in E.
  destruct (poll_leaf ready (t_leaf tk)) as [[ok|l' g] ol] eqn:El; injection E as <- <- <-;
    destruct (poll_leaf_S _ n _ _ _ _ _ El Hsuf Hin Hlt) as [Ho Hd].
  - split.
    + apply chunk_ok_app; [exact Ho|]. destruct (t_jw tk); [constructor; [apply xok_notify | constructor] | constructor].
    + apply HS. intros _. apply in_or_app. right. apply in_or_app. left. exact Hd.
  - split; [exact Ho|]. apply HS. discriminate.
Qed.

Lemma run_queue_S : forall ready n q tasks regs tasks' regs' o tr,
  run_queue q ready tasks regs = (tasks', regs', o) ->
  Sobs n tr -> Stasks n tasks tr ->
  Sobs n (tr ++ o) /\ Stasks n tasks' (tr ++ o).
Proof.
  intros ready n q tasks regs tasks' regs' o tr E Hobs Htasks.
  apply run_queue_rule with (4 := E) (I := fun tasks _ _ tr => Sobs n tr /\ Stasks n tasks tr); [clear.. | exact (conj Hobs Htasks)].
  - intros tasks regs t q tr H _. exact H.
  - intros tasks regs t0 q tr tk0 tk1 o rs [Hobs Htasks] En Ef Ept.
    destruct (poll_task_S _ _ _ _ _ _ _ _ Ept (Htasks _ _ En)) as [Hch Htk1].
    split; [exact (Sobs_app _ _ _ Hobs Hch)|].
    intros t tk Hn. apply nth_error_upd_inv in Hn. destruct Hn as [[-> [-> _]]|[Hne Hn]]; [exact Htk1|].
    exact (task_S_app _ _ _ o _ (Htasks _ _ Hn) (le_n n)).
Qed.

Lemma run_queue_keep : forall ready q tasks regs tasks' regs' o,
  run_queue q ready tasks regs = (tasks', regs', o) -> tasks_keep tasks tasks'.
Proof.
  intros ready q tasks regs tasks' regs' o E t tk Hn. destruct (run_queue_frame _ _ _ _ _ _ _ E) as [_ [Hlen R]].
  destruct (nth_error tasks' t) as [tk'|] eqn:En'.
  - exists tk'. split; [reflexivity|]. destruct (R _ _ En') as [tk0 [Hn0 [[Hk [Hb [Hok _]]] _]]].
    rewrite Hn in Hn0. injection Hn0 as <-. auto.
  - apply nth_error_None in En'. apply nth_error_Some_lt in Hn. lia.
Qed.

Lemma Sinv_frame : forall st st' tr o,
  Sinv st tr -> s_try st' = s_try st -> s_root st' = s_root st ->
  (forall n, Sobs n tr -> Stasks n (s_tasks st) tr -> Sobs n (tr ++ o) /\ Stasks n (s_tasks st') (tr ++ o)) ->
  tasks_keep (s_tasks st) (s_tasks st') ->
  Sinv st' (tr ++ o).
Proof.
  intros st st' tr o [Htry [n [Hobs [Htasks Hroot]]]] Ht Hr H Hk. destruct (H n Hobs Htasks) as [H1 H2].
  split; [congruence|]. exists n. split; [exact H1|]. split; [exact H2|]. rewrite Hr.
  destruct (s_root st) as [n0 cs rest|r]; [|exact I]. destruct Hroot as [R1 [R2 R3]].
  split; [exact R1|]. split; [exact R2|]. exact (Scur_app _ _ _ _ _ o R3 Hk).
Qed.

Lemma Sobs_Stasks_app : forall n tasks tr o,
  chunk_ok n o -> Sobs n tr -> Stasks n tasks tr -> Sobs n (tr ++ o) /\ Stasks n tasks (tr ++ o).
Proof.
  intros n tasks tr o Hch Hobs Htasks. split; [exact (Sobs_app _ _ _ Hobs Hch) | apply Stasks_app, Htasks].
Qed.

Lemma Sinv_step : forall st tr a, Sinv st tr -> Sinv (fst (step a st)) (tr ++ snd (step a st)).
Proof.
  intros st tr [g| |] HS; cbn [step].
  - destruct (do_flip_frame g st) as [H1 [H2 [H3 H4]]].
    apply (Sinv_frame st); [exact HS | exact H1 | exact H3 | | rewrite H2; apply tasks_keep_refl].
    intros n. rewrite H2. apply Sobs_Stasks_app. eapply Forall_impl; [|exact H4]. intros x ->. apply xok_notify.
  - destruct (do_poll_cases st) as [r Er|n0 cs rest rt regs tasks runq o1 Er Ep].
    + apply (Sinv_frame st); [exact HS | reflexivity | reflexivity | | apply tasks_keep_refl].
      intros n. apply Sobs_Stasks_app. constructor; [|constructor]. split; [|split]; discriminate.
    + destruct HS as [Htry [n [Hobs [Htasks Hroot]]]]. rewrite Er in Hroot. destruct Hroot as [-> [R2 R3]].
      rewrite Htry in Ep. split; [exact Htry|].
      exact (poll_steps_rule (poll_steps_S _) tr (conj R2 (conj Hobs (conj Htasks R3))) Ep).
  - destruct (do_run_tasks_eq st) as [tasks [regs [o1 [Erq ->]]]]. cbn [fst snd].
    apply (Sinv_frame st); [exact HS | reflexivity | reflexivity | | exact (run_queue_keep _ _ _ _ _ _ _ Erq)].
    intros n. exact (run_queue_S _ _ _ _ _ _ _ _ _ Erq).
Qed.

Lemma Sinv_init : Sinv (init (skeleton p)) [].
Proof.
  split; [reflexivity|]. exists 0. split; [|split].
  - constructor.
    + intros x k [].
    + intros k b ok [].
    + intros o1 x o2 k' k bs Heq. destruct o1; discriminate.
    + intros k bs Hlt. lia.
    + intros r [].
  - intros t tk Hn. destruct t; discriminate.
  - split; [reflexivity|]. split; [|reflexivity]. exists [], (sh_steps p). auto.
Qed.

Theorem Sinv_reach : forall acts,
  Sinv (fst (run_async acts (init (skeleton p)))) (run_shape p acts).
Proof. intros acts. exact (run_async_ind Sinv Sinv_step acts _ [] Sinv_init). Qed.

(** ** (b) Step barrier *)

(** For EVERY action list: whenever an observation that belongs to step k' occurs in the
    trace (a chain of step k' is created, polled, emits an event, polls a gate or completes --
    inline or inside a task), the completion [ODone k b ok] of EVERY branch active in EVERY
    earlier step k < k' occurs strictly before it. *)
Theorem step_barrier : forall acts o1 x o2 k' k bs,
  run_shape p acts = o1 ++ x :: o2 ->
  obs_step x = Some k' -> k < k' -> in_step k bs ->
  In (ODone k (bs_b bs) (bs_ok bs)) o1.
Proof.
  intros acts o1 x o2 k' k bs Heq Hx Hlt Hin.
  destruct (Sinv_reach acts) as [_ [n [Hobs _]]].
  exact (so_barrier _ _ Hobs o1 x o2 k' k bs Heq Hx Hlt Hin).
Qed.

(** For the try kinds every branch of a step earlier than one that is observed completed with
    [ok = true]. *)
Theorem step_barrier_try : forall acts x k' k bs,
  sh_try p = true -> In x (run_shape p acts) -> obs_step x = Some k' -> k < k' -> in_step k bs ->
  bs_ok bs = true.
Proof.
  intros acts x k' k bs Ht Hin Hx Hlt Hs.
  destruct (Sinv_reach acts) as [_ [n [Hobs _]]].
  pose proof (so_lt _ _ Hobs x k' Hin Hx) as Hk'. apply (so_before _ _ Hobs k bs); [lia | exact Hs | exact Ht].
Qed.

(** every completion in the trace is the completion of a branch-step of the program, with
    the outcome the program gives it *)
Theorem done_sound : forall acts k b ok,
  In (ODone k b ok) (run_shape p acts) -> exists bs, in_step k bs /\ bs_b bs = b /\ bs_ok bs = ok.
Proof.
  intros acts k b ok Hin. destruct (Sinv_reach acts) as [_ [n [Hobs _]]]. exact (so_sound _ _ Hobs k b ok Hin).
Qed.

(** ** (f) Try abort *)

(** With [try_join!]: once a child of step k has completed with [ok = false], whatever
    happens afterwards (for EVERY action list) no observation of any later step exists in
    the trace, the root never returns Ok, and every error the root returns is from step k. *)
Theorem try_abort : forall acts k b,
  sh_try p = true -> In (ODone k b false) (run_shape p acts) ->
  (forall x k', In x (run_shape p acts) -> obs_step x = Some k' -> k' <= k) /\
  ~ In (ORoot ROk) (run_shape p acts) /\
  (forall k2 b2, In (ORoot (RErr k2 b2)) (run_shape p acts) -> k2 = k).
Proof.
  intros acts k b Ht Hin. destruct (Sinv_reach acts) as [_ [n [Hobs _]]].
  assert (Hlast : forall k0 b0, In (ODone k0 b0 false) (run_shape p acts) -> S k0 = n).
  { intros k0 b0 Hd. destruct (so_sound _ _ Hobs _ _ _ Hd) as [bs [Hs [Hb Hok]]].
    pose proof (so_lt _ _ Hobs _ k0 Hd eq_refl) as Hlt.
    destruct (Nat.eq_dec (S k0) n) as [He|Hne]; [exact He|]. exfalso.
    assert (bs_ok bs = true) by (apply (so_before _ _ Hobs k0 bs); [lia | exact Hs | exact Ht]). congruence. }
  pose proof (Hlast k b Hin) as Hn. split; [|split].
  - intros x k' Hx Hk'. pose proof (so_lt _ _ Hobs x k' Hx Hk'). lia.
  - intros Hr. pose proof (so_root _ _ Hobs _ Hr) as Hs. cbn [root_sound] in Hs.
    destruct (so_sound _ _ Hobs _ _ _ Hin) as [bs [Hbs [Hb Hok]]]. destruct (Hs k bs Hbs) as [_ Hall].
    specialize (Hall Ht). congruence.
  - intros k2 b2 Hr. pose proof (so_root _ _ Hobs _ Hr) as Hs. cbn [root_sound] in Hs.
    destruct Hs as [_ [_ [Hd _]]]. pose proof (Hlast k2 b2 Hd). lia.
Qed.

(** The error the root returns: it is the error of a branch b that fails in step k, that
    branch's completion is in the trace, and k is the EARLIEST step of the program that
    contains a failing branch (every branch of every earlier step succeeds). *)
Theorem try_error_result : forall acts k b,
  In (ORoot (RErr k b)) (run_shape p acts) ->
  sh_try p = true /\
  (exists bs, in_step k bs /\ bs_b bs = b /\ bs_ok bs = false) /\
  In (ODone k b false) (run_shape p acts) /\
  (forall k' bs', k' < k -> in_step k' bs' -> bs_ok bs' = true).
Proof.
  intros acts k b Hr. destruct (Sinv_reach acts) as [_ [n [Hobs _]]].
  exact (so_root _ _ Hobs _ Hr).
Qed.

(** The root returns Ok only after every branch-step of the program has completed (and, for
    the try kinds, only if none of them fails). *)
Theorem ok_result : forall acts,
  In (ORoot ROk) (run_shape p acts) ->
  forall k bs, in_step k bs ->
    In (ODone k (bs_b bs) (bs_ok bs)) (run_shape p acts) /\ (sh_try p = true -> bs_ok bs = true).
Proof.
  intros acts Hr. destruct (Sinv_reach acts) as [_ [n [Hobs _]]].
  exact (so_root _ _ Hobs _ Hr).
Qed.

(** Without [try], failures abort nothing: the root never returns an error. *)
Theorem plain_never_errs : forall acts k b, sh_try p = false -> ~ In (ORoot (RErr k b)) (run_shape p acts).
Proof.
  intros acts k b Ht Hr. destruct (try_error_result acts k b Hr) as [H _]. congruence.
Qed.

(** ** (c) A pending branch never blocks a ready sibling *)

(** After EVERY poll of the root, every unfinished inline child of the current step is parked
    on a gate that is NOT ready (and the root's waker is in its slot): no child whose next
    gate is ready is left unpolled. *)
Theorem after_poll_all_parked : forall t acts st n cs rest l,
  st = fst (run_async (acts ++ [Poll]) (init t)) ->
  s_root st = RRun n cs rest -> In (CLeaf l) cs ->
  parked (s_ready st) (s_regs st) l WRoot.
Proof.
  intros t acts st n cs rest l -> Hr Hin. rewrite run_async_snoc in *. cbn [step] in *.
  destruct (do_poll_W _ (no_lost_wakeup_inv t acts)) as [_ Hroot]. rewrite Hr in Hroot.
  apply Hroot. exact Hin.
Qed.

(** After EVERY [RunTasks], every unfinished task is parked on an unready gate of its
    script (with its own waker registered): the runtime leaves no woken task unpolled. *)
Theorem after_run_tasks_all_parked : forall t acts st u tk,
  st = fst (run_async (acts ++ [RunTasks]) (init t)) ->
  nth_error (s_tasks st) u = Some tk -> t_fin tk = false ->
  exists g s, l_script (t_leaf tk) = AGate g :: s /\ memN g (s_ready st) = false /\
              In (mkReg g (l_k (t_leaf tk)) (l_b (t_leaf tk)) (WTask u)) (s_regs st).
Proof.
  intros t acts st u tk Hst Hn Hf. apply (unqueued_task_parked t (acts ++ [RunTasks]) st u tk Hst Hn Hf).
  rewrite Hst, run_async_snoc. cbn [step]. rewrite runq_do_run_tasks. reflexivity.
Qed.

(** With the structure invariant: after EVERY [Poll] of the root, every unfinished inline
    child l of the current step (step n-1) is a branch-step bs of the program that sits at a
    gate g OF ITS OWN script (bs_script bs = pre ++ AGate g :: s, everything in [pre] done),
    g is NOT ready, and the root's waker is registered for it on g. *)
Theorem pending_never_blocks_sibling : forall acts st n cs rest l,
  st = fst (run_async (acts ++ [Poll]) (init (skeleton p))) ->
  s_root st = RRun n cs rest -> In (CLeaf l) cs ->
  exists m bs pre g s,
    n = S m /\ in_step m bs /\ l_k l = m /\ l_b l = bs_b bs /\
    bs_script bs = pre ++ AGate g :: s /\ l_script l = AGate g :: s /\
    memN g (s_ready st) = false /\ In (mkReg g m (bs_b bs) WRoot) (s_regs st).
Proof.
  intros acts st n cs rest l Hst Hr Hin.
  destruct (after_poll_all_parked (skeleton p) acts st n cs rest l Hst Hr Hin) as [g [s [H1 [H2 H3]]]].
  destruct (Sinv_reach (acts ++ [Poll])) as [_ [n0 [_ [_ Hroot]]]]. rewrite <- Hst, Hr in Hroot.
  destruct Hroot as [-> [_ Hcur]]. destruct n0 as [|m]; [cbn in Hcur; subst cs; destruct Hin|].
  destruct Hcur as [stp [Hnth Hrel]]. destruct (Forall2_In_l _ _ _ _ _ _ Hrel Hin) as [bs [Hbs Hc]].
  cbn [child_branch] in Hc. destruct Hc as [Hk [Hb [_ [pre Hpre]]]]. cbn in Hk, Hb, Hpre.
  exists m, bs, pre, g, s. split; [reflexivity|]. split; [exists stp; auto|]. split; [exact Hk|]. split; [exact Hb|].
  split; [rewrite Hpre, H1; reflexivity|]. split; [exact H1|]. split; [exact H2|]. rewrite <- Hk, <- Hb. exact H3.
Qed.

(** Same for tasks: in every reachable state an unfinished task that is not queued is a
    branch-step of the program parked on a gate of its own script that is not ready, its own
    waker registered. *)
Theorem unqueued_task_parked_own_gate : forall acts st u tk,
  st = fst (run_async acts (init (skeleton p))) ->
  nth_error (s_tasks st) u = Some tk -> t_fin tk = false -> memn u (s_runq st) = false ->
  exists bs pre g s,
    in_step (l_k (t_leaf tk)) bs /\ l_b (t_leaf tk) = bs_b bs /\
    bs_script bs = pre ++ AGate g :: s /\ l_script (t_leaf tk) = AGate g :: s /\
    memN g (s_ready st) = false /\
    In (mkReg g (l_k (t_leaf tk)) (l_b (t_leaf tk)) (WTask u)) (s_regs st).
Proof.
  intros acts st u tk Hst Hn Hf Hq.
  destruct (unqueued_task_parked (skeleton p) acts st u tk Hst Hn Hf Hq) as [g [s [H1 [H2 H3]]]].
  destruct (Sinv_reach acts) as [_ [n0 [_ [Htasks _]]]]. rewrite <- Hst in Htasks.
  destruct (Htasks _ _ Hn) as [_ [[bs [Hbs [_ [Hb [_ [pre Hpre]]]]]] _]]. cbn in Hb, Hpre.
  exists bs, pre, g, s. split; [exact Hbs|]. split; [exact Hb|]. split; [rewrite Hpre, H1; reflexivity|]. auto.
Qed.

(** After EVERY [RunTasks] the queue is empty, so this holds of every unfinished task. *)
Theorem pending_task_parked_own_gate : forall acts st u tk,
  st = fst (run_async (acts ++ [RunTasks]) (init (skeleton p))) ->
  nth_error (s_tasks st) u = Some tk -> t_fin tk = false ->
  exists bs pre g s,
    in_step (l_k (t_leaf tk)) bs /\ l_b (t_leaf tk) = bs_b bs /\
    bs_script bs = pre ++ AGate g :: s /\ l_script (t_leaf tk) = AGate g :: s /\
    memN g (s_ready st) = false /\
    In (mkReg g (l_k (t_leaf tk)) (l_b (t_leaf tk)) (WTask u)) (s_regs st).
Proof.
  intros acts st u tk Hst Hn Hf. apply (unqueued_task_parked_own_gate _ st u tk Hst Hn Hf).
  rewrite Hst, run_async_snoc. cbn [step]. rewrite runq_do_run_tasks. reflexivity.
Qed.

End Structure.

(** * 7. Which failure [try_join!] returns *)

Definition child_status (try : bool) (ready : list N) (tasks : list task) (c : child) : cstat :=
  snd (poll_child try ready tasks c).

(** One poll round of [try_join!] that ends in an error: the children are [pre ++ c :: post];
    c is the FIRST child IN CHILD (= branch) ORDER that this round finds completed with an
    error (an inline child completing with [ok = false] during this very poll, or a task found
    finished with [ok = false]); no child of [pre] is in that situation; the children in
    [post] are NOT polled in this round (they are returned unchanged, then dropped). *)
Theorem try_join_first_failure_in_child_order : forall try ready tasks cs cs' o rs js k b,
  poll_children try ready tasks cs = (cs', o, rs, js, JFail k b) ->
  exists pre c post pre' c',
    cs = pre ++ c :: post /\ cs' = pre' ++ c' :: post /\ length pre' = length pre /\
    child_status try ready tasks c = CFail k b /\
    (forall c0 k0 b0, In c0 pre -> child_status try ready tasks c0 <> CFail k0 b0).
Proof.
  intros try ready tasks cs cs' o rs js k b E. remember (JFail k b) as st eqn:Hst.
  revert cs cs' o rs js st E k b Hst. refine (poll_children_rule try ready tasks _ _ _ _).
  - discriminate.
  - intros c cs c' o rs js k1 b1 Ec k b [= <- <-]. exists [], c, cs, [], c'.
    unfold child_status. rewrite Ec. repeat split. intros c0 k0 b0 [].
  - intros c cs c' o rs js st cs2 o2 rs2 js2 st2 Ec Hnf _ IH k b Hst.
    destruct st2 as [| |k2 b2]; [discriminate | destruct st; discriminate |]. injection Hst as -> ->.
    destruct (IH k b eq_refl) as [pre [c0 [post [pre' [c1 [H1 [H2 [H3 [H4 H5]]]]]]]]].
    exists (c :: pre), c0, post, (c' :: pre'), c1. split; [rewrite H1; reflexivity|]. split; [rewrite H2; reflexivity|].
    split; [cbn; lia|]. split; [exact H4|].
    intros c2 k0 b0 [<-|Hin]; [unfold child_status; rewrite Ec; apply Hnf | apply H5; exact Hin].
Qed.

Lemma poll_child_false : forall ready tasks c k b, child_status false ready tasks c <> CFail k b.
Proof.
  intros ready tasks c k b. unfold child_status.
  destruct (poll_child false ready tasks c) as [[[[c' o] rs] js] st] eqn:E.
  destruct (poll_child_cases _ _ _ _ _ _ _ _ _ E); discriminate.
Qed.

Theorem join_never_fails : forall ready tasks cs cs' o rs js k b,
  poll_children false ready tasks cs <> (cs', o, rs, js, JFail k b).
Proof.
  intros ready tasks cs cs' o rs js k b E.
  destruct (try_join_first_failure_in_child_order _ _ _ _ _ _ _ _ _ _ E) as [_ [c [_ [_ [_ [_ [_ [_ [H _]]]]]]]]].
  exact (poll_child_false _ _ _ _ _ H).
Qed.

(** * 7a. Plain [try] kinds: the error returned is the FIRST failure of the trace *)

Definition notfail (x : obs) : Prop :=
  (forall k b, x <> ODone k b false) /\ (forall k b, x <> ORoot (RErr k b)).
Definition nofail (tr : list obs) : Prop := Forall notfail tr.
Definition rootregs (regs : list reg) : Prop := forall r, In r regs -> is_root_reg r = true.

(* [notfail x] for [x] built with a constructor that is neither a completion nor a root result *)
Local Ltac nf := split; intros ? ?; discriminate.

Lemma ev_obs_notfail : forall k b x, ev_obs k b x -> notfail x.
Proof. intros k b x H. split; intros k0 b0; [eapply ev_obs_not_done | eapply ev_obs_not_root]; exact H. Qed.

Lemma poll_child_PT : forall ready tasks c c' o rs js st,
  poll_child true ready tasks c = (c', o, rs, js, st) -> (forall t, c <> CHandle t) ->
  js = [] /\ rootregs rs /\
  match st with
  | CFail k b => exists o', o = o' ++ [ODone k b false] /\ nofail o'
  | _ => nofail o
  end.
Proof.
  intros ready tasks c c' o rs js st E Hnh.
  assert (Hp : forall l, notfail (OPoll (l_k l) (l_b l))) by (intros l; nf).
  destruct (poll_child_cases _ _ _ _ _ _ _ _ _ E) as [|t js _ _|t tk _ _|l o El|l l' g o El _ _].
  - split; [reflexivity|]. split; [intros r [] | constructor].
  - destruct (Hnh t eq_refl).
  - destruct (Hnh t eq_refl).
  - destruct (poll_leaf_obs notfail _ _ _ _ El (Hp l) (ev_obs_notfail _ _)) as [o1 [-> Ho1]].
    split; [reflexivity|]. split; [intros r []|]. unfold fin_stat. destruct (l_ok l); cbn [andb negb].
    + apply Forall_app. split; [exact Ho1 | constructor; [nf | constructor]].
    + eauto.
  - split; [reflexivity|]. split; [intros r [<-|[]]; reflexivity|].
    exact (poll_leaf_obs notfail _ _ _ _ El (Hp l) (ev_obs_notfail _ _)).
Qed.

Lemma poll_children_PT : forall ready tasks cs cs' o rs js st,
  poll_children true ready tasks cs = (cs', o, rs, js, st) -> (forall t, ~ In (CHandle t) cs) ->
  js = [] /\ rootregs rs /\
  match st with
  | JFail k b => exists o', o = o' ++ [ODone k b false] /\ nofail o'
  | _ => nofail o
  end.
Proof.
  intros ready tasks. refine (poll_children_rule true ready tasks _ _ _ _).
  - intros _. split; [reflexivity|]. split; [intros r [] | constructor].
  - intros c cs c' o rs js k b Ec Hnh. exact (poll_child_PT _ _ _ _ _ _ _ _ Ec (fun t H => Hnh t (or_introl H))).
  - intros c cs c' o rs js st cs2 o2 rs2 js2 st2 Ec Hnf _ IH Hnh.
    destruct (poll_child_PT _ _ _ _ _ _ _ _ Ec (fun t H => Hnh t (or_introl H))) as [-> [Hr1 Hs1]].
    destruct (IH (fun t H => Hnh t (or_intror H))) as [-> [Hr2 Hs2]].
    assert (Hn1 : nofail o) by (destruct st as [| |k b]; [exact Hs1 | exact Hs1 | destruct (Hnf k b eq_refl)]).
    split; [reflexivity|]. split; [intros r Hin; apply in_app_or in Hin; destruct Hin; auto|].
    destruct st2 as [| |k b]; cbn [jcomb].
    + apply Forall_app. auto.
    + destruct st; apply Forall_app; auto.
    + destruct Hs2 as [o' [-> Hn']]. exists (o ++ o'). split; [apply app_assoc | apply Forall_app; auto].
Qed.

Lemma inst_children_new : forall cs tasks runq ch tk rq o,
  inst_children cs tasks runq = (ch, tk, rq, o) -> Forall (fun x => exists k b, x = ONew k b) o.
Proof. refine (inst_children_rule _ _ _ _); [constructor | constructor; eauto ..]. Qed.

Lemma rootregs_add : forall rs regs, rootregs rs -> rootregs regs -> rootregs (add_regs rs regs).
Proof.
  intros rs regs H1 H2 r Hin. apply In_add_regs_inv in Hin. destruct Hin as [Hin|Hin]; [apply H1 | apply H2]; exact Hin.
Qed.

Lemma drop_regs_rootregs : forall regs, rootregs regs -> drop_regs regs = [].
Proof.
  intros regs H. unfold drop_regs. induction regs as [|r regs IH]; [reflexivity|]. cbn [filter].
  rewrite (H r (or_introl eq_refl)). cbn. apply IH. intros r0 Hin. apply H. right. exact Hin.
Qed.

(** The root and the trace of a plain try kind: no failure so far, or the root has returned the
    first failing completion at once, and only ignored polls follow. *)
Definition PT_result (rt : root) (regs : list reg) (tr : list obs) : Prop :=
  match rt with
  | RRun _ _ _ => nofail tr /\ rootregs regs
  | RFin _ =>
      regs = [] /\
      (nofail tr \/ exists k b o1 g,
         tr = o1 ++ ODone k b false :: ORoot (RErr k b) :: g /\ nofail o1 /\ Forall (fun x => x = OGone) g)
  end.

(** As long as no task is awaited or to be spawned ([hflag], [nsp] are 0) a poll creates no task,
    registers only the root's waker, and the first failing completion ends it. *)
Lemma poll_steps_PT : forall ready,
  round_ok true ready
    (fun _ cs rest regs tasks _ tr => hflag cs = 0 /\ nsp rest = 0 /\ rootregs regs /\ nofail tr /\ tasks = [])
    (fun rt regs tasks _ tr => tasks = [] /\ PT_result rt regs tr).
Proof.
  intros ready n cs rest regs tasks runq tr cs' o rs js st [Hh [Hns [Hrr [Hnf ->]]]] Ec.
  destruct (poll_children_PT _ _ _ _ _ _ _ _ Ec (fun t => hflag_0_inv _ t Hh)) as [-> [Hr1 Hs1]].
  pose proof (rootregs_add _ _ Hr1 Hrr) as Hrr1.
  assert (Hend : forall r, notfail (ORoot r) -> nofail o -> nofail (tr ++ o ++ [ORoot r])).
  { intros r Hr Ho. apply Forall_app. split; [exact Hnf|]. apply Forall_app. split; [exact Ho|]. constructor; [exact Hr | constructor]. }
  destruct st as [| |k b].
  - split; [reflexivity|]. split; [apply Hend; [nf | exact Hs1] | exact Hrr1].
  - destruct rest as [|s rest].
    + split; [reflexivity|]. split; [apply drop_regs_rootregs; exact Hrr1 | left; apply Hend; [nf | exact Hs1]].
    + intros cs2 tasks2 runq2 o2 Ei. rewrite nsp_cons, is_spawn_step_cexprs in Hns.
      destruct (existsb is_cspawn (sexpr_cexprs s)) eqn:Es; [discriminate|].
      destruct (inst_children_plain _ _ _ _ _ _ _ Ei Es) as [-> [_ Hh2]].
      split; [exact Hh2|]. split; [exact Hns|]. split; [exact Hrr1|]. split; [|reflexivity].
      apply Forall_app. split; [exact Hnf|]. apply Forall_app. split; [exact Hs1|].
      eapply Forall_impl; [|exact (inst_children_new _ _ _ _ _ _ _ Ei)]. intros x [k [b ->]]. nf.
  - split; [reflexivity|]. split; [apply drop_regs_rootregs; exact Hrr1|].
    destruct Hs1 as [o' [-> Hn']]. right. exists k, b, (tr ++ o'), [].
    split; [rewrite <- !app_assoc; reflexivity|]. split; [apply Forall_app; split; assumption | constructor].
Qed.

Definition PTinv (st : state) (tr : list obs) : Prop :=
  s_try st = true /\ s_tasks st = [] /\ pend st = 0 /\ PT_result (s_root st) (s_regs st) tr.

Lemma run_queue_nil : forall q ready regs, run_queue q ready [] regs = ([], regs, []).
Proof. induction q as [|t q IH]; intros ready regs; cbn [run_queue]; [reflexivity|]. destruct t; apply IH. Qed.

Lemma PTinv_step : forall st tr a, PTinv st tr -> PTinv (fst (step a st)) (tr ++ snd (step a st)).
Proof.
  (* there is no task: a flip only notifies, and that only while the root runs; a poll is
     [poll_steps_PT]; [RunTasks] finds nothing to run *)
  intros st tr a [Htry [Htasks [Hpend Hroot]]]. unfold PTinv. destruct a as [g| |]; cbn [step].
  - destruct (do_flip_cases g st) as [_|rq o1 _ Ew]; [rewrite app_nil_r; repeat split; assumption|].
    split; [exact Htry|]. split; [exact Htasks|]. split; [exact Hpend|]. cbn [s_root s_regs].
    destruct (s_root st) as [n cs rest|r].
    + split; [|intros r Hin; apply filter_In in Hin; apply Hroot, Hin].
      apply Forall_app. split; [apply Hroot|]. destruct (wake_all_spec _ _ _ _ _ Ew) as [_ [_ [_ Hall]]].
      eapply Forall_impl; [|exact Hall]. intros x ->. nf.
    + (* the root has gone and its slots with it: nobody is woken *)
      destruct Hroot as [Hregs Hroot]. rewrite Hregs in *. injection Ew as _ <-. rewrite app_nil_r. exact (conj eq_refl Hroot).
  - generalize (pend_step st Poll). cbn [step]. rewrite Hpend.
    destruct (do_poll_cases st) as [r Er|n cs rest rt regs tasks runq o1 Er Ep]; intros Hpend'.
    + split; [exact Htry|]. split; [exact Htasks|]. split; [exact Hpend|]. rewrite Er in *.
      destruct Hroot as [Hr [Hn|[k [b [o1 [g [Ho [Hn Hg]]]]]]]]; (split; [exact Hr|]).
      * left. apply Forall_app. split; [exact Hn|]. constructor; [nf | constructor].
      * right. exists k, b, o1, (g ++ [OGone]).
        split; [rewrite Ho, <- app_assoc; reflexivity|]. split; [exact Hn|].
        apply Forall_app. split; [exact Hg | constructor; [reflexivity | constructor]].
    + unfold pend in Hpend. rewrite Er in Hpend, Hroot. destruct Hroot as [H3 H4]. rewrite Htry in Ep.
      assert (Hh : hflag cs = 0) by lia. assert (Hns : nsp rest = 0) by lia.
      destruct (poll_steps_rule (poll_steps_PT _) tr (conj Hh (conj Hns (conj H4 (conj H3 Htasks)))) Ep) as [-> Hres].
      split; [exact Htry|]. split; [reflexivity|]. split; [lia | exact Hres].
  - destruct (do_run_tasks_eq st) as [tasks [regs [o [Er ->]]]]. rewrite Htasks, run_queue_nil in Er. injection Er as <- <- <-.
    rewrite app_nil_r. repeat split; assumption.
Qed.

(** (f) "which one when several fail", a try kind that spawns no task: if the root returns
    [Err(k,b)] then the trace is [o1 ++ ODone k b false :: ORoot (RErr k b) :: g] where [o1]
    contains NO failing completion and [g] consists of ignored polls only: the root returns,
    in the very same poll and immediately after it is observed, the FIRST failure in poll
    order; nothing at all is executed afterwards. *)
Theorem plain_try_first_failure_gen : forall p acts k b,
  spawn_steps p = 0 ->
  In (ORoot (RErr k b)) (run_shape p acts) ->
  exists o1 g, run_shape p acts = o1 ++ ODone k b false :: ORoot (RErr k b) :: g /\
               nofail o1 /\ Forall (fun x => x = OGone) g.
Proof.
  intros p acts k b Hs Hin. destruct (try_error_result p acts k b Hin) as [Ht _].
  assert (Hinit : PTinv (init (skeleton p)) []).
  { unfold PTinv, init, pend. cbn [s_try s_tasks s_root s_regs]. fold (spawn_steps p). rewrite Hs.
    split; [exact Ht|]. split; [reflexivity|]. split; [reflexivity|]. split; [constructor | intros r []]. }
  pose proof (run_async_ind PTinv PTinv_step acts _ [] Hinit) as H. cbn [app] in H. fold (run_shape p acts) in H.
  destruct H as [_ [_ [_ Hroot]]].
  assert (Habs : forall tr, nofail tr -> ~ In (ORoot (RErr k b)) tr).
  { intros tr Hnf Hr. unfold nofail in Hnf. rewrite Forall_forall in Hnf. exact (proj2 (Hnf _ Hr) k b eq_refl). }
  destruct (s_root (fst (run_async acts (init (skeleton p))))) as [n cs rest|r]; [destruct (Habs _ (proj1 Hroot) Hin)|].
  destruct Hroot as [_ [Hn|[k0 [b0 [o1 [g [Ho [Hn Hg]]]]]]]]; [destruct (Habs _ Hn Hin)|]. rewrite Ho in Hin |- *.
  (* the only error result in such a trace is the one shown *)
  apply in_app_or in Hin. destruct Hin as [Hin|[Hin|[Hin|Hin]]].
  - destruct (Habs _ Hn Hin).
  - discriminate.
  - injection Hin as -> ->. exists o1, g. auto.
  - rewrite Forall_forall in Hg. specialize (Hg _ Hin). discriminate.
Qed.

Theorem plain_try_returns_first_failure : forall p acts k b,
  sh_try p = true -> sh_spawn p = false ->
  In (ORoot (RErr k b)) (run_shape p acts) ->
  exists o1 g, run_shape p acts = o1 ++ ODone k b false :: ORoot (RErr k b) :: g /\
               nofail o1 /\ Forall (fun x => x = OGone) g.
Proof. intros p acts k b _ Hs. exact (plain_try_first_failure_gen p acts k b (spawn_steps_plain p Hs)). Qed.

(** * 8. The atoms (events and gates) not yet executed: no action adds any, a poll of an enabled leaf removes some *)

Definition task_len (tk : task) : nat := length (l_script (t_leaf tk)).
Definition child_len (c : child) : nat := match c with CLeaf l => length (l_script l) | _ => 0 end.
Definition sexpr_len (s : sexpr) : nat := list_sum (map (fun l => length (l_script l)) (sexpr_leaves s)).
Definition tasks_len (tasks : list task) : nat := list_sum (map task_len tasks).
Definition children_len (cs : list child) : nat := list_sum (map child_len cs).
Definition rest_len (rest : list sexpr) : nat := list_sum (map sexpr_len rest).
Definition root_len (rt : root) : nat :=
  match rt with RRun _ cs rest => children_len cs + rest_len rest | RFin _ => 0 end.

Definition remaining (st : state) : nat := tasks_len (s_tasks st) + root_len (s_root st).

Lemma tasks_len_core : forall tasks tasks', map tcore tasks' = map tcore tasks -> tasks_len tasks' = tasks_len tasks.
Proof.
  intros tasks tasks' H.
  assert (E : forall l, map task_len l = map (fun c => length (l_script (fst c))) (map tcore l))
    by (intros l; rewrite map_map; reflexivity).
  unfold tasks_len. rewrite !E, H. reflexivity.
Qed.

Lemma list_sum_upd_le : forall (A : Type) (f : A -> nat) l n x y,
  nth_error l n = Some y -> f x <= f y -> list_sum (map f (upd l n x)) <= list_sum (map f l).
Proof.
  intros A f. induction l as [|z l IH]; intros [|n] x y Hn Hf; cbn [nth_error upd map list_sum fold_right] in *; try discriminate.
  - injection Hn as ->. lia.
  - specialize (IH _ _ _ Hn Hf). unfold list_sum in IH. lia.
Qed.

Lemma leaf_suffix_len : forall l l', leaf_suffix l l' -> length (l_script l') <= length (l_script l).
Proof. intros l l' [_ [_ [_ [pre H]]]]. rewrite H, app_length. lia. Qed.

Lemma children_len_cons : forall c cs, children_len (c :: cs) = child_len c + children_len cs.
Proof. reflexivity. Qed.
Lemma rest_len_cons : forall s r, rest_len (s :: r) = sexpr_len s + rest_len r.
Proof. reflexivity. Qed.
Lemma tasks_len_one : forall tk, tasks_len [tk] = task_len tk.
Proof. intros tk. unfold tasks_len. cbn. lia. Qed.

Lemma children_len_suffix : forall cs cs', Forall2 child_suffix cs cs' -> children_len cs' <= children_len cs.
Proof.
  induction 1 as [|c c' cs cs' Hc _ IH]; [reflexivity|]. rewrite !children_len_cons.
  assert (child_len c' <= child_len c); [|lia].
  destruct Hc as [->|[->|[l [l' [-> [-> Hs]]]]]]; cbn [child_len]; [lia | lia | exact (leaf_suffix_len _ _ Hs)].
Qed.

Lemma tasks_len_app : forall a b, tasks_len (a ++ b) = tasks_len a + tasks_len b.
Proof. intros a b. unfold tasks_len. rewrite map_app, list_sum_app. reflexivity. Qed.

Definition cexprs_len (cs : list cexpr) : nat := list_sum (map (fun l => length (l_script l)) (map cexpr_leaf cs)).
Lemma cexprs_len_cons : forall c cs, cexprs_len (c :: cs) = length (l_script (cexpr_leaf c)) + cexprs_len cs.
Proof. reflexivity. Qed.

Lemma inst_children_len : forall cs tasks runq ch tk rq o,
  inst_children cs tasks runq = (ch, tk, rq, o) ->
  children_len ch + tasks_len tk = tasks_len tasks + cexprs_len cs.
Proof.
  refine (inst_children_rule _ _ _ _).
  - intros tasks runq. unfold children_len, cexprs_len. cbn. lia.
  - intros l cs tasks runq ch tk rq o _ IH. rewrite children_len_cons, cexprs_len_cons. cbn [child_len cexpr_leaf]. lia.
  - intros l cs tasks runq ch tk rq o _ IH. rewrite tasks_len_app, tasks_len_one in IH. unfold task_len in IH. cbn [t_leaf] in IH.
    rewrite children_len_cons, cexprs_len_cons. cbn [child_len cexpr_leaf]. lia.
Qed.

Lemma sexpr_len_cexprs : forall s, sexpr_len s = cexprs_len (sexpr_cexprs s).
Proof. intros [l|cs]; reflexivity. Qed.

Lemma poll_steps_len : forall try ready B,
  round_ok try ready (fun _ cs rest _ tasks _ _ => tasks_len tasks + children_len cs + rest_len rest <= B)
                     (fun rt _ tasks _ _ => tasks_len tasks + root_len rt <= B).
Proof.
  (* the children only shrink, [set_jw] and [drop_jw] leave the scripts alone, and starting a step
     moves its atoms from [rest] to the children and the new tasks *)
  intros try ready B n cs rest regs tasks runq tr cs' o rs js st HI Ec.
  pose proof (children_len_suffix _ _ (poll_children_suffix _ _ _ _ _ _ _ _ _ Ec)).
  pose proof (tasks_len_core _ _ (core_set_jw js tasks)). pose proof (tasks_len_core _ _ (core_drop_jw (set_jw js tasks))).
  destruct st as [| |k b]; cbn [root_len]; [lia | | lia]. destruct rest as [|s rest]; cbn [root_len]; [lia|].
  intros cs2 tasks2 runq2 o2 Ei. pose proof (inst_children_len _ _ _ _ _ _ _ Ei).
  rewrite rest_len_cons, sexpr_len_cexprs in HI. lia.
Qed.

Lemma poll_task_len : forall ready t tk tk' o rs,
  poll_task ready t tk = (tk', o, rs) -> task_len tk' <= task_len tk.
Proof. intros ready t tk tk' o rs E. apply leaf_suffix_len. apply (poll_task_spec _ _ _ _ _ _ E). Qed.

Lemma run_queue_len : forall ready q tasks regs tasks' regs' o,
  run_queue q ready tasks regs = (tasks', regs', o) -> tasks_len tasks' <= tasks_len tasks.
Proof.
  intros ready q tasks regs tasks' regs' o E.
  apply run_queue_rule with (tr := []) (4 := E) (I := fun tasks1 _ _ _ => tasks_len tasks1 <= tasks_len tasks);
    [auto | clear E | lia].
  intros tasks1 regs1 t q1 _ tk tk1 o1 rs H En _ Ept.
  pose proof (list_sum_upd_le _ task_len tasks1 t tk1 tk En (poll_task_len _ _ _ _ _ _ Ept)). unfold tasks_len in *. lia.
Qed.

Theorem remaining_nonincreasing : forall st a, remaining (fst (step a st)) <= remaining st.
Proof.
  intros st a. unfold remaining. destruct a as [g| |]; cbn [step].
  - destruct (do_flip_frame g st) as [_ [H2 [H3 _]]]. rewrite H2, H3. lia.
  - destruct (do_poll_cases st) as [r Er|n cs rest rt regs tasks runq o1 Er Ep]; [lia|]. rewrite Er.
    pose proof (poll_steps_rule (poll_steps_len _ _ _) [] (le_n _) Ep) as H. cbn beta in H. cbn [s_tasks s_root root_len]. lia.
  - destruct (do_run_tasks_eq st) as [tasks [regs [o1 [Erq ->]]]].
    pose proof (run_queue_len _ _ _ _ _ _ _ Erq). cbn [fst s_tasks s_root]. lia.
Qed.

Theorem remaining_nonincreasing_run : forall acts st, remaining (fst (run_async acts st)) <= remaining st.
Proof.
  intros acts st. apply (run_async_ind_state (fun s => remaining s <= remaining st) st (le_n _)).
  intros s a H. pose proof (remaining_nonincreasing s a). lia.
Qed.

(** A poll of a leaf whose next atom is an event or a READY gate strictly consumes atoms (or
    completes the leaf): polls of enabled children make progress. *)
Theorem poll_leaf_progress : forall ready l a s r o,
  l_script l = a :: s ->
  (match a with AEv _ => True | AGate g => memN g ready = true end) ->
  poll_leaf ready l = (r, o) ->
  match r with LFin _ => True | LPark l' _ => length (l_script l') < length (l_script l) end.
Proof.
  intros ready l a s r o Hs Ha E. destruct r as [ok|l' g]; [exact I|].
  destruct (poll_leaf_spec _ _ _ _ E) as [_ [_ [_ [[_ [_ [_ [pre Hscr]]]] [Hm [s' Hl']]]]]].
  rewrite Hscr, app_length. destruct pre as [|x pre]; [|cbn; lia].
  exfalso. rewrite Hs, Hl' in Hscr. injection Hscr as -> _. congruence.
Qed.

(** * 9. Examples (non-vacuity), by [vm_compute] *)

(** three branches, depths 2 / 1 / 3; the gates are numbered 1..5 in program order, the event of
    branch b in step k is 10 * (b + 1) + k *)
Definition ex_shape (try spawn : bool) (ok01 : bool) : shape :=
  mkShape try spawn
    [ [mkBstep 0 [AGate 1%N; AEv 10%N] true; mkBstep 1 [AEv 20%N; AGate 2%N] ok01; mkBstep 2 [AGate 3%N] true];
      [mkBstep 0 [AEv 11%N; AGate 4%N] true; mkBstep 2 [AEv 31%N] true];
      [mkBstep 2 [AGate 5%N; AEv 32%N] true] ].

Definition ex_plain := ex_shape false false true.
Definition ex_try_fail := ex_shape true false false.
Definition ex_spawn := ex_shape false true true.
Definition ex_try_spawn_fail := ex_shape true true false.

Example ex_lazy : run_shape ex_plain [Flip 3%N; RunTasks; Flip 1%N; Flip 2%N; RunTasks] = [].
Proof. vm_compute. reflexivity. Qed.

(** the complete trace of one run: flips in the order 3,1,2 then 5,4, a poll after each batch *)
Example ex_trace :
  run_shape ex_plain [Poll; Flip 3%N; Poll; Flip 1%N; Flip 2%N; Poll; Flip 5%N; Flip 4%N; Poll; Poll] =
  [ ONew 0 0; ONew 0 1; ONew 0 2;
    OPoll 0 0; OChk 0 0 1%N false; OPoll 0 1; OEv 0 1 20%N; OChk 0 1 2%N false; OPoll 0 2; OChk 0 2 3%N false;
    ORoot RPending;
    ONotify;
    OPoll 0 0; OChk 0 0 1%N false; OPoll 0 1; OChk 0 1 2%N false; OPoll 0 2; OChk 0 2 3%N true; ODone 0 2 true;
    ORoot RPending;
    ONotify; ONotify;
    OPoll 0 0; OChk 0 0 1%N true; OEv 0 0 10%N; ODone 0 0 true; OPoll 0 1; OChk 0 1 2%N true; ODone 0 1 true;
    ONew 1 0; ONew 1 2;
    OPoll 1 0; OEv 1 0 11%N; OChk 1 0 4%N false; OPoll 1 2; OEv 1 2 31%N; ODone 1 2 true;
    ORoot RPending;
    ONotify;
    OPoll 1 0; OChk 1 0 4%N true; ODone 1 0 true;
    ONew 2 2; OPoll 2 2; OChk 2 2 5%N true; OEv 2 2 32%N; ODone 2 2 true;
    ORoot ROk;
    OGone ].
Proof. vm_compute. reflexivity. Qed.

(** (e) three flip orders, each completing at the first poll after the last flip (plain kinds) *)
Example ex_complete_12345 :
  last (run_shape ex_plain [Poll; Flip 1%N; Flip 2%N; Flip 3%N; Flip 4%N; Flip 5%N; Poll]) OGone = ORoot ROk.
Proof. vm_compute. reflexivity. Qed.
Example ex_complete_54321 :
  last (run_shape ex_plain [Flip 5%N; Poll; Flip 4%N; Poll; Poll; Flip 3%N; Flip 2%N; Poll; Flip 1%N; Poll]) OGone = ORoot ROk.
Proof. vm_compute. reflexivity. Qed.
Example ex_complete_before_first_poll :
  last (run_shape ex_plain [Flip 2%N; Flip 4%N; Flip 1%N; Flip 5%N; Flip 3%N; Poll]) OGone = ORoot ROk.
Proof. vm_compute. reflexivity. Qed.
Definition atom_gates (a : atom) : list N := match a with AGate g => [g] | AEv _ => [] end.
Definition shape_gate_list (p : shape) : list N :=
  flat_map (fun stp => flat_map (fun bs => flat_map atom_gates (bs_script bs)) stp) (sh_steps p).

Lemma shape_gates_list : forall p g, shape_gates p g -> In g (shape_gate_list p).
Proof.
  intros p g [stp [bs [Hs [Hb Hg]]]]. unfold shape_gate_list.
  apply in_flat_map. exists stp. split; [exact Hs|]. apply in_flat_map. exists bs. split; [exact Hb|].
  apply in_flat_map. exists (AGate g). split; [exact Hg | left; reflexivity].
Qed.

Example ex_gate_list : shape_gate_list ex_plain = [1%N; 2%N; 3%N; 4%N; 5%N].
Proof. vm_compute. reflexivity. Qed.

(** the completion theorem applied (its hypothesis is satisfiable): any list that flips the
    five gates, here in the order 2,4,1,5,3 with a stray poll, is completed by one more poll *)
Example ex_completion_theorem_applies :
  finished (fst (run_async [Poll]
             (fst (run_async [Flip 2%N; Flip 4%N; Poll; Flip 1%N; Flip 5%N; Flip 3%N] (init (skeleton ex_plain)))))).
Proof.
  assert (Hfl : forall g, shape_gates ex_plain g ->
                          In (Flip g) [Flip 2%N; Flip 4%N; Poll; Flip 1%N; Flip 5%N; Flip 3%N]).
  { intros g Hg. apply shape_gates_list in Hg. rewrite ex_gate_list in Hg.
    cbn in Hg. destruct Hg as [<-|[<-|[<-|[<-|[<-|[]]]]]]; cbn; auto 10. }
  destruct (completes_under_every_order ex_plain _ Hfl) as [_ [H0 Hfin]].
  specialize (H0 eq_refl). specialize (Hfin 0). rewrite H0 in Hfin. exact (Hfin (le_n 0)).
Qed.

(** (e) task kinds: two steps have >= 2 branches, so [Poll; (RunTasks; Poll) x 2] are needed *)
Example ex_spawn_steps : spawn_steps ex_spawn = 2.
Proof. vm_compute. reflexivity. Qed.
Example ex_spawn_complete :
  last (run_shape ex_spawn ([Flip 4%N; Flip 1%N; Flip 5%N; Flip 3%N; Flip 2%N] ++ Poll :: rounds 2)) OGone = ORoot ROk.
Proof. vm_compute. reflexivity. Qed.
Example ex_spawn_one_round_is_not_enough :
  last (run_shape ex_spawn ([Flip 4%N; Flip 1%N; Flip 5%N; Flip 3%N; Flip 2%N] ++ Poll :: rounds 1)) OGone = ORoot RPending.
Proof. vm_compute. reflexivity. Qed.
(** tasks run in WAKE order: gate 3 (branch 2) flipped before gate 1 (branch 0) *)
Example ex_spawn_wake_order :
  run_shape ex_spawn [Poll; RunTasks; Flip 3%N; Flip 1%N; RunTasks] =
  [ ONew 0 0; ONew 0 1; ONew 0 2; ORoot RPending;
    OPoll 0 0; OChk 0 0 1%N false; OPoll 0 1; OEv 0 1 20%N; OChk 0 1 2%N false; OPoll 0 2; OChk 0 2 3%N false;
    OPoll 0 2; OChk 0 2 3%N true; ODone 0 2 true; ONotify;
    OPoll 0 0; OChk 0 0 1%N true; OEv 0 0 10%N; ODone 0 0 true; ONotify ].
Proof. vm_compute. reflexivity. Qed.

(** (b) the premise of the barrier theorem is met: an event of step 1 occurs, preceded by the
    completions of all three branches of step 0 *)
Example ex_barrier :
  exists o1 o2, run_shape ex_plain [Poll; Flip 3%N; Flip 2%N; Flip 1%N; Poll] = o1 ++ OEv 1 0 11%N :: o2 /\
                In (ODone 0 0 true) o1 /\ In (ODone 0 1 true) o1 /\ In (ODone 0 2 true) o1.
Proof.
  set (tr := run_shape ex_plain [Poll; Flip 3%N; Flip 2%N; Flip 1%N; Poll]).
  (* [OEv 1 0 11] is observation 27 of [tr], counted from 0: 11 of the first poll, a notification
     for each flip, 10 for the second poll of step 0, the two [ONew] and the [OPoll] of step 1 *)
  exists (firstn 27 tr), (skipn 28 tr). split; [vm_compute; reflexivity|].
  split; [apply (nth_error_In _ 17) | split; [apply (nth_error_In _ 20) | apply (nth_error_In _ 23)]];
    vm_compute; reflexivity.
Qed.

(** (f) try abort: branch 1 fails in step 0 -- no observation of step 1, result Err(0,1) *)
Example ex_try_abort :
  let tr := run_shape ex_try_fail [Poll; Flip 3%N; Flip 2%N; Flip 1%N; Poll; Flip 4%N; Flip 5%N; Poll] in
  In (ODone 0 1 false) tr /\ In (ORoot (RErr 0 1)) tr /\
  forallb (fun x => match obs_step x with Some k => Nat.eqb k 0 | None => true end) tr = true.
Proof.
  (* the second poll ends with the failing completion and the error: observations 20 and 21 *)
  intros tr. split; [apply (nth_error_In _ 20) | split; [apply (nth_error_In _ 21)|]]; vm_compute; reflexivity.
Qed.
(** [try_join!] returns in the round in which it sees the failure: the later sibling (branch 2)
    is not polled in that round although its gate is ready *)
Example ex_try_abort_skips_later_sibling :
  run_shape ex_try_fail [Poll; Flip 3%N; Flip 2%N; Poll] =
  [ ONew 0 0; ONew 0 1; ONew 0 2;
    OPoll 0 0; OChk 0 0 1%N false; OPoll 0 1; OEv 0 1 20%N; OChk 0 1 2%N false; OPoll 0 2; OChk 0 2 3%N false;
    ORoot RPending; ONotify; ONotify;
    OPoll 0 0; OChk 0 0 1%N false; OPoll 0 1; OChk 0 1 2%N true; ODone 0 1 false;
    ORoot (RErr 0 1) ].
Proof. vm_compute. reflexivity. Qed.
(** task kind: the other tasks of the failing step keep running after the root returned the error *)
Example ex_try_spawn_abort :
  run_shape ex_try_spawn_fail [Poll; RunTasks; Flip 2%N; RunTasks; Poll; Flip 1%N; RunTasks; Poll] =
  [ ONew 0 0; ONew 0 1; ONew 0 2; ORoot RPending;
    OPoll 0 0; OChk 0 0 1%N false; OPoll 0 1; OEv 0 1 20%N; OChk 0 1 2%N false; OPoll 0 2; OChk 0 2 3%N false;
    OPoll 0 1; OChk 0 1 2%N true; ODone 0 1 false; ONotify;
    ORoot (RErr 0 1);
    OPoll 0 0; OChk 0 0 1%N true; OEv 0 0 10%N; ODone 0 0 true;
    OGone ].
Proof. vm_compute. reflexivity. Qed.

(** (c), (d): after a poll the unfinished children are parked on unready gates with the root's
    waker registered, and flipping such a gate notifies the root *)
Example ex_parked :
  let st := fst (run_async [Poll; Flip 3%N; Poll] (init (skeleton ex_plain))) in
  s_root st = RRun 1 [CLeaf (mkLeaf 0 0 [AGate 1%N; AEv 10%N] true); CLeaf (mkLeaf 0 1 [AGate 2%N] true); CDone] 
                   (tl (tr_steps (skeleton ex_plain))) /\
  s_regs st = [mkReg 1%N 0 0 WRoot; mkReg 2%N 0 1 WRoot] /\
  snd (do_flip 2%N st) = [ONotify].
Proof. vm_compute. repeat split. Qed.

(** * 10. Assumptions (all closed) *)

Print Assumptions lazy_until_polled.
Print Assumptions step_barrier.
Print Assumptions step_barrier_try.
Print Assumptions pending_never_blocks_sibling.
Print Assumptions pending_task_parked_own_gate.
Print Assumptions after_poll_all_parked.
Print Assumptions after_run_tasks_all_parked.
Print Assumptions no_lost_wakeup_inv.
Print Assumptions flip_notifies_root.
Print Assumptions flip_wakes_task.
Print Assumptions awaited_task_has_root_waker.
Print Assumptions task_completion_notifies.
Print Assumptions woken_task_completion_notifies_root.
Print Assumptions completes_under_every_order.
Print Assumptions completes_as_soon_as_possible.
Print Assumptions completes_state.
Print Assumptions remaining_nonincreasing.
Print Assumptions poll_leaf_progress.
Print Assumptions try_abort.
Print Assumptions try_error_result.
Print Assumptions ok_result.
Print Assumptions plain_never_errs.
Print Assumptions try_join_first_failure_in_child_order.
Print Assumptions plain_try_returns_first_failure.
Print Assumptions done_sound.
