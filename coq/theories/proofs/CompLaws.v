(* Monad laws for comp, the laws of `mapM`, and congruence under the continuation of `Vis` / `Spawn` / `Join`.
   The laws rest on the only axiom of the development, functional extensionality (Coq stdlib), because
   continuations are functions. *)
From Coq Require Import FunctionalExtensionality.
From Join Require Import Tok Comp.

Lemma bind_ret_l {A B} (a : A) (f : A -> comp B) : bind (Ret a) f = f a.
Proof. reflexivity. Qed.

Lemma bind_ret_r {A} (c : comp A) : bind c (fun x => Ret x) = c.
Proof.
  induction c as [A a|A n|A e k IH|A name t IHt k IH|A h k IH]; cbn; try reflexivity;
    f_equal; extensionality x; apply IH.
Qed.

Lemma bind_assoc {A B C} (c : comp A) (f : A -> comp B) (g : B -> comp C) :
  bind (bind c f) g = bind c (fun x => bind (f x) g).
Proof.
  revert B C f g. induction c as [A a|A n|A e k IH|A name t IHt k IH|A h k IH]; cbn; try reflexivity;
    intros; f_equal; extensionality x; apply IH.
Qed.

Lemma bind_ext {A B} (c : comp A) (f g : A -> comp B) :
  (forall x, f x = g x) -> bind c f = bind c g.
Proof. intros H. f_equal. extensionality x. apply H. Qed.

Lemma bind_panic {A B} n (f : A -> comp B) : bind (Panic n) f = Panic n.
Proof. reflexivity. Qed.

Lemma mapM_app {A B} (f : A -> comp B) (l1 l2 : list A) :
  mapM f (l1 ++ l2) = bind (mapM f l1) (fun a => bind (mapM f l2) (fun b => Ret (a ++ b))).
Proof.
  induction l1 as [|x l1 IH]; cbn [mapM app].
  - cbn. symmetry. apply bind_ret_r.
  - rewrite IH. rewrite !bind_assoc. apply bind_ext; intros y.
    rewrite !bind_assoc. apply bind_ext; intros ys. cbn.
    rewrite bind_assoc. apply bind_ext; intros zs. reflexivity.
Qed.

Lemma mapM_ext_in {A B} (f g : A -> comp B) l : (forall x, In x l -> f x = g x) -> mapM f l = mapM g l.
Proof.
  induction l as [|x r IH]; intros H; cbn [mapM]; [reflexivity|].
  rewrite H by (left; reflexivity). rewrite IH; [reflexivity|]. intros y Hy. apply H. right. exact Hy.
Qed.

Lemma mapM_Forall2 {A A' B} (f : A -> comp B) (g : A' -> comp B) l l' :
  Forall2 (fun x y => f x = g y) l l' -> mapM f l = mapM g l'.
Proof. induction 1; cbn [mapM]; [reflexivity|]. rewrite H, IHForall2. reflexivity. Qed.

Lemma Forall2_impl_in2 {A B} (R R' : A -> B -> Prop) l l' :
  Forall2 R l l' -> (forall x y, In x l -> In y l' -> R x y -> R' x y) -> Forall2 R' l l'.
Proof.
  induction 1; intros HRR; constructor.
  - apply HRR; [left; reflexivity|left; reflexivity|assumption].
  - apply IHForall2. intros a b Ha Hb. apply HRR; right; assumption.
Qed.

Lemma nth_error_seq_app {A} (l : list A) : forall pre,
  Forall2 (fun i x => nth_error (pre ++ l) i = Some x) (seq (List.length pre) (List.length l)) l.
Proof.
  induction l as [|x l IH]; intros pre; cbn [List.length seq]; constructor.
  - rewrite nth_error_app2 by apply le_n. rewrite Nat.sub_diag. reflexivity.
  - specialize (IH (pre ++ [x])). rewrite app_length, <- app_assoc, Nat.add_1_r in IH. exact IH.
Qed.

Lemma mapM_seq_nth {A B} (G : option A -> comp B) (l pre : list A) :
  mapM (fun i => G (nth_error (pre ++ l) i)) (seq (List.length pre) (List.length l)) = mapM (fun v => G (Some v)) l.
Proof.
  apply mapM_Forall2. apply (Forall2_impl_in2 _ _ _ _ (nth_error_seq_app l pre)). intros i x _ _ ->. reflexivity.
Qed.

Lemma mapM_map {A B C} (f : B -> comp C) (g : A -> B) l : mapM f (map g l) = mapM (fun x => f (g x)) l.
Proof. induction l as [|x r IH]; cbn [map mapM]; [reflexivity|]. rewrite IH. reflexivity. Qed.

Lemma mapM_ret {A B} (f : A -> B) (l : list A) : mapM (fun x => Ret (f x)) l = Ret (map f l).
Proof. induction l as [|x r IH]; cbn [mapM map]; [reflexivity|]. rewrite IH. reflexivity. Qed.

Lemma Vis_ext {A} e (k k' : val -> comp A) : (forall v, k v = k' v) -> Vis e k = Vis e k'.
Proof. intros H. f_equal. extensionality v. apply H. Qed.

Lemma Spawn_ext {A} name t (k k' : nat -> comp A) : (forall h, k h = k' h) -> Spawn name t k = Spawn name t k'.
Proof. intros H. f_equal. extensionality v. apply H. Qed.

Lemma Join_ext {A} h (k k' : option val -> comp A) : (forall r, k r = k' r) -> Join h k = Join h k'.
Proof. intros H. f_equal. extensionality v. apply H. Qed.

(* normalisation of nested binds: only associativity needs a rewrite, `bind` computes on a computation
   whose head is known *)
Ltac nb := repeat (progress cbn [bind] || rewrite bind_assoc).
