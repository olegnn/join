(* GenPropsE - C16 structure of the generated steps.
   (i)   joiner_once_per_multi_step : the step-result binding of step k is `joiner(chains)` iff a custom joiner
         is given and step k has more than one active branch; one chain per active branch, in branch order.
         chain_thunk_iff_lazy : each such chain is a `move || ..` thunk iff the effective lazy_branches flag is on.
         single_branch_step_inline, no_juxt : a step with one active branch evaluates its chain in place, and the
         model's fall-back juxtaposition never occurs.  gen_ok_every_step : `gen_step` covers every step.
   (ii)  no_transpose_flow : with transpose_results off in a try macro, every step is joined by
         `match sr { Ok(sr) => .., Err(err) => Err(err) }`; no `if let Some(__fail_index)`; option defaults.
   (iii) futures_path_everywhere : every futures item carries the given futures_crate_path (default ::futures). *)
From Coq Require Import Lia.
From Join Require Import Tok Names Ast Ir Gen GenPropsBase GenPropsB GenPropsA GenPropsD.

(** * (i) the shape of one step *)

(* the branches that contribute a chain to step k, with their actions: branch index counted from b *)
Fixpoint step_members (k b : nat) (chs : list (list (list action))) : list (nat * list action) :=
  match chs with
  | [] => []
  | ch :: rest =>
      match nth_error ch k with
      | Some (a :: acts) => (b, a :: acts) :: step_members k (S b) rest
      | _ => step_members k (S b) rest
      end
  end.

(* the spawn wrapper of the thread / task kinds *)
Definition spawned (j : jout) (b : nat) (chain : rexpr) : rexpr :=
  if is_spawn (j_cfg j) then
    if is_async (j_cfg j) then RBlock [] (RCall (RVar n_spawn_tokio) [RBoxPin chain])
    else RBlock [] (RGlue (RGlue (RVar (n_j b)) "spawn" [chain]) "unwrap" [])
  else chain.

(* the right-hand side of `let __srK = ..` *)
Definition step_rhs (j : jout) (k : nat) (chains : list rexpr) : rexpr :=
  if Nat.ltb 1 (active_count j k) then
    match j_joiner j with
    | Some jt => RCall (RUser jt) chains
    | None => if is_async (j_cfg j)
              then RCall (RJoinMac (opt_default (j_fcp j) []) (is_try (j_cfg j))) chains
              else RTuple chains
    end
  else if is_async (j_cfg j) then RAwait (match chains with [c] => c | _ => RJuxt chains end)
       else RTuple chains.

Definition chain_of (j : jout) (k : nat) (vars : list string) (bm : nat * list action) (c : rexpr) : Prop :=
  exists ds core, gen_branch_step j (fst bm) (nth (fst bm) vars "") (snd bm) = Ok (ds, core) /\
                  c = wrap_branch j k (fst bm) core.

Lemma gen_branches_shape j k vars chs b defs cs :
  gen_branches j k vars b chs = Ok (defs, cs) -> Forall2 (chain_of j k vars) (step_members k b chs) cs.
Proof.
  apply (gen_branches_run j k vars (fun b chs _ cs => Forall2 (chain_of j k vars) (step_members k b chs) cs));
    cbn [step_members].
  - constructor.
  - intros b0 ch rest _ c0 [->| ->] IH; exact IH.
  - intros b0 ch rest _ c0 [|a acts] ds s -> Hne Hs IH; [congruence|].
    constructor; [|exact IH]. exists ds, s. auto.
Qed.

Theorem gen_step_shape j k vars sr stmts :
  gen_step j k vars sr = Ok stmts ->
  exists pre defs chains post,
    stmts = pre ++ defs ++ [SLet (PIdent sr) (step_rhs j k chains)] ++ post /\
    (pre, post) = (if is_async (j_cfg j) then ([], []) else thread_builders j k sr) /\
    gen_branches j k vars 0 (j_chains j) = Ok (defs, chains).
Proof.
  unfold gen_step, step_rhs. intros H. inv_bind H. destruct x as [defs chains].
  destruct (is_async (j_cfg j)) eqn:Ea.
  - inversion H; subst. exists [], defs, chains, []. rewrite app_nil_r. cbn [app]. repeat split; auto.
    destruct (Nat.ltb 1 (active_count j k)); [destruct (j_joiner j)|]; reflexivity.
  - destruct (thread_builders j k sr) as [tbs sjs]. inversion H; subst.
    exists tbs, defs, chains, sjs. repeat split; auto.
    destruct (Nat.ltb 1 (active_count j k)); [destruct (j_joiner j)|]; reflexivity.
Qed.

(* the custom joiner is called iff it is given and the step has more than one active branch *)
Theorem step_rhs_joiner_iff j k chains jt cs :
  step_rhs j k chains = RCall (RUser jt) cs <->
  j_joiner j = Some jt /\ 1 < active_count j k /\ cs = chains.
Proof.
  unfold step_rhs. destruct (Nat.ltb 1 (active_count j k)) eqn:El.
  - apply Nat.ltb_lt in El. destruct (j_joiner j) as [jt'|].
    + split; [intros H; inversion H; subst; auto|intros (H & _ & ->); inversion H; subst; reflexivity].
    + split; [|intros (H & _); discriminate]. destruct (is_async (j_cfg j)); discriminate.
  - apply Nat.ltb_ge in El. split; [destruct (is_async (j_cfg j)); discriminate|]. intros (_ & H & _). lia.
Qed.

(* with one active branch the joiner is not called: the lone chain is evaluated / awaited in place *)
Theorem step_rhs_single j k chains :
  active_count j k <= 1 ->
  step_rhs j k chains =
  if is_async (j_cfg j) then RAwait (match chains with [c] => c | _ => RJuxt chains end) else RTuple chains.
Proof. intros H. unfold step_rhs. apply Nat.ltb_ge in H. rewrite H. reflexivity. Qed.

(* the invariants of a JoinOutput under which the members of step k are exactly its active branches *)
Definition jout_ok (j : jout) : Prop :=
  j_depths j = map (fun c => List.length c) (j_chains j) /\
  j_branch_count j = List.length (j_chains j) /\
  Forall (fun ch => Forall (fun s : list action => s <> []) ch) (j_chains j).

Lemma step_members_active j k chs : forall b,
  Forall (fun ch => Forall (fun s : list action => s <> []) ch) chs ->
  (forall i, i < List.length chs -> nth (b + i) (j_depths j) 0 = List.length (nth i chs [])) ->
  map fst (step_members k b chs) = count_active j k b (List.length chs).
Proof.
  induction chs as [|ch rest IH]; intros b Hne Hd; cbn [step_members count_active List.length]; [reflexivity|].
  inversion Hne as [|? ? Hch Hrest]; subst.
  assert (Hact : is_active j k b = Nat.ltb k (List.length ch)).
  { unfold is_active. specialize (Hd 0). cbn [nth List.length] in Hd. rewrite Nat.add_0_r in Hd. rewrite Hd; [reflexivity|lia]. }
  assert (IH' : map fst (step_members k (S b) rest) = count_active j k (S b) (List.length rest)).
  { apply IH; [exact Hrest|]. intros i Hi. specialize (Hd (S i)). cbn [nth List.length] in Hd.
    replace (S b + i) with (b + S i) by lia. apply Hd. lia. }
  rewrite Hact. destruct (nth_error ch k) as [s|] eqn:En.
  - assert (Hk : k < List.length ch) by (apply nth_error_Some; congruence).
    apply Nat.ltb_lt in Hk. rewrite Hk.
    destruct s as [|a acts].
    + exfalso. apply nth_error_In in En. rewrite Forall_forall in Hch. exact (Hch _ En eq_refl).
    + cbn [map fst]. now rewrite IH'.
  - apply nth_error_None in En. apply Nat.ltb_ge in En. rewrite En. exact IH'.
Qed.

Lemma step_members_active_branches j k :
  jout_ok j -> map fst (step_members k 0 (j_chains j)) = active_branches j k.
Proof.
  intros (Hd & Hc & Hne). unfold active_branches. rewrite Hc. apply step_members_active; [exact Hne|].
  intros i Hi. cbn [Nat.add]. rewrite Hd.
  change 0 with (List.length (@nil (list action))) at 1.
  apply (map_nth (fun c : list (list action) => List.length c)).
Qed.

Lemma count_active_length j k : forall n b,
  List.length (count_active j k b n) =
  List.length (filter (fun d => Nat.ltb k d) (map (fun i => nth i (j_depths j) 0) (seq b n))).
Proof.
  induction n as [|n IH]; intros b; cbn [count_active seq map filter]; [reflexivity|].
  unfold is_active. destruct (Nat.ltb k (nth b (j_depths j) 0)); cbn [List.length]; rewrite IH; reflexivity.
Qed.

Lemma map_nth_seq {A} (l : list A) d : map (fun i => nth i l d) (seq 0 (List.length l)) = l.
Proof.
  induction l as [|x l IH]; [reflexivity|]. cbn [List.length seq map nth]. f_equal.
  rewrite <- seq_shift, map_map. exact IH.
Qed.

Lemma active_branches_length j k :
  j_branch_count j = List.length (j_depths j) -> List.length (active_branches j k) = active_count j k.
Proof.
  intros H. unfold active_branches, active_count. rewrite count_active_length, H, map_nth_seq. reflexivity.
Qed.

Lemma Forall2_len {A B} (R : A -> B -> Prop) l l' : Forall2 R l l' -> List.length l = List.length l'.
Proof. induction 1; cbn [List.length]; congruence. Qed.

Lemma the_jout_ok cfg inp : wf_parsed inp -> jout_ok (the_jout cfg inp).
Proof.
  intros Hwf. unfold jout_ok. cbn [the_jout j_depths j_chains j_branch_count]. split; [reflexivity|].
  split; [now rewrite map_length|].
  eapply Forall_impl; [|exact (wf_chains_wf cfg inp Hwf)]. intros ch Hch.
  eapply Forall_impl; [|exact Hch]. now intros s [Hs _].
Qed.

Lemma chains_length j k vars defs chains :
  jout_ok j -> gen_branches j k vars 0 (j_chains j) = Ok (defs, chains) -> List.length chains = active_count j k.
Proof.
  intros Hok Hg. apply gen_branches_shape in Hg.
  rewrite <- (Forall2_len _ _ _ Hg), <- (map_length fst), (step_members_active_branches j k Hok).
  apply active_branches_length. destruct Hok as (Hd & Hc & _). rewrite Hc, Hd, map_length. reflexivity.
Qed.

(* C16 (i): the shape of a step of any JoinOutput that satisfies the invariants *)
Theorem gen_step_shape_ok j k vars sr stmts :
  jout_ok j ->
  gen_step j k vars sr = Ok stmts ->
  exists pre defs chains post,
    stmts = pre ++ defs ++ [SLet (PIdent sr) (step_rhs j k chains)] ++ post /\
    Forall2 (chain_of j k vars) (step_members k 0 (j_chains j)) chains /\
    map fst (step_members k 0 (j_chains j)) = active_branches j k /\
    List.length chains = active_count j k /\
    (forall jt cs, step_rhs j k chains = RCall (RUser jt) cs <->
                   j_joiner j = Some jt /\ 1 < active_count j k /\ cs = chains).
Proof.
  intros Hok H. destruct (gen_step_shape _ _ _ _ _ H) as (pre & defs & chains & post & Hs & _ & Hg).
  exists pre, defs, chains, post. split; [exact Hs|]. split; [exact (gen_branches_shape _ _ _ _ _ _ _ Hg)|].
  split; [exact (step_members_active_branches j k Hok)|]. split; [exact (chains_length _ _ _ _ _ Hok Hg)|].
  intros jt cs. apply step_rhs_joiner_iff.
Qed.

(* on the JoinOutput of a well-formed input *)
Theorem joiner_once_per_multi_step cfg inp k vars sr stmts :
  wf_parsed inp ->
  let j := the_jout cfg inp in
  gen_step j k vars sr = Ok stmts ->
  exists pre defs chains post,
    stmts = pre ++ defs ++ [SLet (PIdent sr) (step_rhs j k chains)] ++ post /\
    (* one chain per active branch, in branch order *)
    Forall2 (chain_of j k vars) (step_members k 0 (j_chains j)) chains /\
    map fst (step_members k 0 (j_chains j)) = active_branches j k /\
    List.length chains = active_count j k /\
    (* the joiner is called iff given and the step is a multi-branch step, on exactly these chains *)
    (forall jt cs, step_rhs j k chains = RCall (RUser jt) cs <->
                   i_joiner inp = Some jt /\ 1 < active_count j k /\ cs = chains).
Proof. intros Hwf. exact (gen_step_shape_ok (the_jout cfg inp) k vars sr stmts (the_jout_ok cfg inp Hwf)). Qed.

(* every generated step has at least one active branch *)
Lemma active_count_pos j k : k < j_max j -> j_max j = list_max (j_depths j) -> 0 < active_count j k.
Proof.
  intros Hk Hm. unfold active_count.
  assert (Hin : In (list_max (j_depths j)) (j_depths j)).
  { apply list_max_In. intros Hn. rewrite Hn in Hm. cbn in Hm. lia. }
  assert (Hf : In (list_max (j_depths j)) (filter (fun d => Nat.ltb k d) (j_depths j))).
  { apply filter_In. split; [exact Hin|]. apply Nat.ltb_lt. lia. }
  destruct (filter (fun d => Nat.ltb k d) (j_depths j)); [destruct Hf|cbn; lia].
Qed.

(* a step with exactly one active branch: the lone chain is evaluated in place (sync: a one-element tuple;
   async: awaited), no joiner, no `join!`, no juxtaposition *)
Theorem single_step_inline j k vars sr stmts :
  jout_ok j -> gen_step j k vars sr = Ok stmts -> active_count j k = 1 ->
  exists pre defs c post,
    stmts = pre ++ defs ++ [SLet (PIdent sr) (if is_async (j_cfg j) then RAwait c else RTuple [c])] ++ post.
Proof.
  intros Hok H Hac.
  destruct (gen_step_shape_ok j k vars sr stmts Hok H) as (pre & defs & chains & post & Hs & _ & _ & Hl & _).
  rewrite Hac in Hl. destruct chains as [|c [|c' l]]; try discriminate.
  exists pre, defs, c, post. rewrite Hs. rewrite step_rhs_single by lia. reflexivity.
Qed.

Theorem single_branch_step_inline cfg inp k vars sr stmts :
  wf_parsed inp ->
  let j := the_jout cfg inp in
  gen_step j k vars sr = Ok stmts -> active_count j k = 1 ->
  exists pre defs c post,
    stmts = pre ++ defs ++ [SLet (PIdent sr) (if is_async cfg then RAwait c else RTuple [c])] ++ post.
Proof. intros Hwf. exact (single_step_inline (the_jout cfg inp) k vars sr stmts (the_jout_ok cfg inp Hwf)). Qed.

(* hence the model's fall-back `RJuxt` (plain juxtaposition, not valid Rust) never occurs *)
Theorem gen_output_no_juxt j e :
  jout_ok j -> j_max j = list_max (j_depths j) -> gen_output j = Ok e -> ~ In KJuxt (constructs e).
Proof.
  intros Hok Hm H Hin.
  apply (gen_output_okc j False) in H.
  - unfold okE in H. rewrite Forall_forall in H. specialize (H _ Hin). cbn in H. tauto.
  - intros k vars defs chains Hk Hg Hac Hne.
    pose proof (chains_length _ _ _ _ _ Hok Hg) as Hl.
    pose proof (active_count_pos j k Hk Hm) as Hpos.
    destruct chains as [|c [|c' l]]; cbn [List.length] in Hl; try lia. exact (Hne c eq_refl).
Qed.

Theorem no_juxt cfg inp e : wf_parsed inp -> gen cfg inp = Ok e -> ~ In KJuxt (constructs e).
Proof.
  intros Hwf H. apply gen_ok_unfold in H as [_ H].
  exact (gen_output_no_juxt _ e (the_jout_ok cfg inp Hwf) eq_refl H).
Qed.

(* each chain is a thunk iff the effective lazy flag is on (under the spawn wrapper of the thread / task kinds) *)
Theorem wrap_branch_multi j k b core :
  1 < active_count j k ->
  wrap_branch j k b core = spawned j b (if j_lazy j then RMoveThunk core else core).
Proof. intros H. unfold wrap_branch. apply Nat.ltb_lt in H. rewrite H. reflexivity. Qed.

Theorem chain_thunk_iff_lazy cfg inp k b core :
  let j := the_jout cfg inp in
  1 < active_count j k ->
  wrap_branch j k b core = spawned j b (if eff_lazy cfg inp then RMoveThunk core else core).
Proof. exact (wrap_branch_multi (the_jout cfg inp) k b core). Qed.

(* when `gen` succeeds every step k < max depth is generated by gen_step, so the above applies to each *)
Theorem gen_ok_every_step cfg inp e :
  gen cfg inp = Ok e ->
  let j := the_jout cfg inp in
  forall k, k < j_max j ->
    exists stmts, gen_step j k (map (branch_name j) (seq 0 (j_branch_count j))) (n_sr k) = Ok stmts.
Proof.
  intros H j k Hk. apply gen_ok_unfold in H as [_ H]. unfold gen_output in H. inv_bind H.
  unfold j in *. eapply gen_steps_ok_step; [exact E|]. lia.
Qed.

(** * (ii) transpose_results(false) *)

(* async kinds re-wrap the step results before the next step; sync kinds go on with the payloads *)
Definition rewrap (j : jout) (sr : string) (k : nat) : list rstmt :=
  if is_async (j_cfg j)
  then [SLet (PIdent sr) (RTuple (map (fun ib => ROk (indexed_sr j sr k (fst ib))) (enum_from 0 (active_branches j k))))]
  else [].

Theorem join_steps_no_transpose j k step next pats vars sr :
  is_try (j_cfg j) = true -> j_transpose j = false ->
  join_steps j k step next pats vars sr =
  if Nat.ltb k (j_max j - 1) then
    (* a step that is not the last: match on the joined result, the next step inside the Ok arm *)
    match next with
    | None => InternalBug 30
    | Some (nss, ne) =>
        Ok (step, RMatchOk (RVar sr) sr (RBlock (rewrap j sr k ++ [extract_step j sr pats k] ++ nss) ne))
    end
  else if Nat.ltb 1 (j_branch_count j) then
    (* the last step: only the branches that finished EARLIER (inactive in this step) are transposed *)
    let finished := map snd (filter (fun iv => negb (is_active j k (fst iv))) (enum_from 0 vars)) in
    match finished with
    | [] => Ok (step, RMatchOk (RVar sr) sr (RBlock [extract_step j sr pats k] (ROk (tuple_of vars))))
    | _ => match transposer finished (tuple_of vars) with
           | None => InternalBug 7
           | Some t => Ok (step, RMatchOk (RVar sr) sr (RBlock [extract_step j sr pats k] t))
           end
    end
  else Ok (step, RMatchOk (RVar sr) n_v (ROk (RTuple [RVar n_v]))).
Proof.
  intros Ht Htr. unfold join_steps, rewrap. rewrite Ht, Htr. cbn [andb].
  destruct (Nat.ltb k (j_max j - 1)); [|reflexivity].
  destruct next as [[nss ne]|]; [|reflexivity]. destruct (is_async (j_cfg j)); reflexivity.
Qed.

(* every step of the chain of steps is joined by RMatchOk *)
Theorem no_transpose_flow j pats vars n k ss e :
  is_try (j_cfg j) = true -> j_transpose j = false -> k + S n = j_max j ->
  gen_steps j pats vars k (S n) = Ok (Some (ss, e)) ->
  exists step, gen_step j k vars (n_sr k) = Ok step /\ ss = step /\
    match n with
    | 0 => exists x arm, e = RMatchOk (RVar (n_sr k)) x arm            (* last step *)
    | S _ => exists nss ne, gen_steps j pats vars (S k) n = Ok (Some (nss, ne)) /\
               e = RMatchOk (RVar (n_sr k)) (n_sr k)
                     (RBlock (rewrap j (n_sr k) k ++ [extract_step j (n_sr k) pats k] ++ nss) ne)
    end.
Proof.
  intros Ht Htr Hk H. apply gen_steps_S_inv in H as (x & x0 & bd & E & E0 & E1 & [= <-]).
  rewrite (join_steps_no_transpose _ _ _ _ _ _ _ Ht Htr) in E1.
  exists x0. split; [exact E0|].
  destruct n as [|n'].
  - replace (Nat.ltb k (j_max j - 1)) with false in E1 by (symmetry; apply Nat.ltb_ge; lia).
    destruct (Nat.ltb 1 (j_branch_count j)).
    + cbv zeta in E1.
      destruct (map snd (filter (fun iv => negb (is_active j k (fst iv))) (enum_from 0 vars))) as [|r0 rs].
      * inversion E1; subst. split; eauto.
      * destruct (transposer (r0 :: rs) (tuple_of vars)); inversion E1; subst. split; eauto.
    + inversion E1; subst. split; eauto.
  - replace (Nat.ltb k (j_max j - 1)) with true in E1 by (symmetry; apply Nat.ltb_lt; lia).
    destruct x as [[nss ne]|]; [|discriminate]. inversion E1; subst.
    split; [reflexivity|]. exists nss, ne. split; [exact E|reflexivity].
Qed.

(* ... and in the whole expansion there is no `if let Some(__fail_index)` / index match at all *)
Theorem no_transpose_no_fail_index cfg inp e :
  eff_transpose cfg inp = false -> gen cfg inp = Ok e ->
  ~ In KIfLetSome (constructs e) /\ ~ In KMatchIdx (constructs e).
Proof.
  intros Htr H. split; intros Hc; apply (gen_allowed_in _ _ _ _ H) in Hc; destruct Hc; congruence.
Qed.
(* conversely `match .. { Ok(..) => .., Err(err) => Err(err) }` is used only by try macros with transposing off *)
Theorem match_ok_only_without_transpose cfg inp e :
  gen cfg inp = Ok e -> In KMatchOk (constructs e) -> is_try cfg = true /\ eff_transpose cfg inp = false.
Proof. exact (gen_allowed_in cfg inp e KMatchOk). Qed.

Theorem eff_transpose_default cfg inp :
  i_transpose inp = None -> eff_transpose cfg inp = is_try cfg && negb (is_async cfg).
Proof. unfold eff_transpose. intros ->. reflexivity. Qed.
Theorem eff_lazy_default cfg inp :
  i_lazy inp = None -> eff_lazy cfg inp = is_spawn cfg && negb (is_async cfg).
Proof. apply GenPropsD.eff_lazy_default. Qed.
Theorem eff_options_given cfg inp t l :
  i_transpose inp = Some t -> i_lazy inp = Some l -> eff_transpose cfg inp = t /\ eff_lazy cfg inp = l.
Proof. unfold eff_transpose, eff_lazy. intros -> ->. auto. Qed.
Theorem the_jout_flags cfg inp :
  j_transpose (the_jout cfg inp) = eff_transpose cfg inp /\ j_lazy (the_jout cfg inp) = eff_lazy cfg inp.
Proof. split; reflexivity. Qed.

(** * (iii) futures_crate_path *)

Theorem futures_path_everywhere cfg inp e c :
  gen cfg inp = Ok e -> In c (constructs e) ->
  forall p, (c = KUseFutures p \/ c = KSpawnTokioFn p \/ exists t, c = KJoinMac p t) ->
  p = opt_default (i_fcp inp) default_futures_path.
Proof.
  intros H Hc p Hk. apply (gen_allowed_in _ _ _ _ H) in Hc.
  destruct Hk as [->|[->|(t & ->)]]; cbn [allowed] in Hc; unfold futures_path in Hc; tauto.
Qed.

(* the macro used for joining is the one of the kind: try_join! iff is_try; and only without a custom joiner *)
Theorem join_macro_kind cfg inp e p t :
  gen cfg inp = Ok e -> In (KJoinMac p t) (constructs e) -> t = is_try cfg /\ i_joiner inp = None.
Proof.
  intros H Hc. apply (gen_allowed_in _ _ _ _ H) in Hc. cbn in Hc. tauto.
Qed.

Print Assumptions joiner_once_per_multi_step.
Print Assumptions no_juxt.
Print Assumptions no_transpose_flow.
Print Assumptions no_transpose_no_fail_index.
Print Assumptions futures_path_everywhere.

(** * Non-vacuity *)

Definition ex_input := GenPropsA.ex_input.           (* depths 3/1/2, custom joiner `my_joiner` *)
Definition jx := the_jout (mkConfig false true true) ex_input.
Definition vars_x := map (branch_name jx) (seq 0 (j_branch_count jx)).

Example ex_active_counts : map (active_count jx) [0; 1; 2] = [3; 2; 1].
Proof. vm_compute. reflexivity. Qed.
Example ex_step_members : map (fun k => map fst (step_members k 0 (j_chains jx))) [0; 1; 2] = [[0; 1; 2]; [0; 2]; [0]].
Proof. vm_compute. reflexivity. Qed.
(* step 1 (branches 0 and 2 active): the joiner is called on two thunked, spawned chains *)
Example ex_step1_rhs :
  exists stmts c0 c2, gen_step jx 1 vars_x (n_sr 1) = Ok stmts /\
    In (SLet (PIdent (n_sr 1))
             (RCall (RUser (GenPropsA.T "my_joiner"))
                    [spawned jx 0 (RMoveThunk c0); spawned jx 2 (RMoveThunk c2)])) stmts.
Proof. vm_compute. do 3 eexists. split; [reflexivity|]. repeat (first [left; reflexivity | right]). Qed.
(* step 2 (only branch 0 active): no joiner, no thread *)
Example ex_step2_rhs :
  exists stmts c0, gen_step jx 2 vars_x (n_sr 2) = Ok stmts /\ In (SLet (PIdent (n_sr 2)) (RTuple [c0])) stmts /\
                   List.length stmts = 2.
Proof. vm_compute. do 2 eexists. split; [reflexivity|]. split; [repeat (first [left; reflexivity | right])|reflexivity]. Qed.

(* transpose_results(false): hypotheses of no_transpose_flow are met by a concrete try_join! input *)
Definition ex_input_nt : input :=
  mkInput (i_branches ex_input) (Some (HMap, GenPropsA.T "hd")) None None (Some false) None.
Definition jnt := the_jout (mkConfig false true false) ex_input_nt.
Example ex_nt_hyps : is_try (j_cfg jnt) = true /\ j_transpose jnt = false /\ 0 + 3 = j_max jnt /\
  exists ss e, gen_steps jnt (map (branch_pat jnt) (seq 0 3)) (map (branch_name jnt) (seq 0 3)) 0 3 = Ok (Some (ss, e)).
Proof. vm_compute. repeat split. do 2 eexists. reflexivity. Qed.
Example ex_nt_census :
  let l := census (mkConfig false true false) ex_input_nt in
  negb (occurs KIfLetSome l) && negb (occurs KMatchIdx l) && occurs KMatchOk l = true.
Proof. vm_compute. reflexivity. Qed.
(* a given futures_crate_path reaches every futures item *)
Definition my_path : operand := [TI "my"; TP ":" true; TP ":" false; TI "futures03"].
Example ex_path :
  let l := census (mkConfig true true true)
                  (mkInput (i_branches ex_input) None (Some my_path) None None None) in
  occurs (KUseFutures my_path) l && occurs (KSpawnTokioFn my_path) l && occurs (KJoinMac my_path true) l &&
  negb (occurs (KUseFutures default_futures_path) l) = true.
Proof. vm_compute. reflexivity. Qed.
