(* Theorems about the thread machine of Threads.v - each one for EVERY world (`wstate`, `handle`
   are section variables that become universally quantified) and EVERY schedule (a list of thread
   indices of arbitrary length; every prefix of a schedule is a schedule, so "in every state
   reachable under every schedule" covers every prefix of every interleaving at event granularity).

   The letters in the section titles are the properties of a step that spawns one thread per
   branch: (a) barrier, (b) no deadlock and termination, (c) panic propagation, (d) all children
   alive at once and any finishing order, (e) thread names, (f) schedule independence - here for
   one block with events-only children; nested blocks of any depth: proofs/ThreadsIndep.v.
   Each `Ex*` module runs the machine on a small program (vm_compute); all but ExPanic also
   check the hypotheses of the sections before them on it.

   The only axiom that appears is functional_extensionality_dep (through CompLaws): in the
   equational lemmas of section 5 (bind_join_all_acc, bind_spawn_all_acc, bind_gblock, bind_block,
   std_join_all_is_join_all, std_spawn_all_is_spawn_all, std_spawn_join_is_ublock',
   std_spawn_join_is_ublock) and in tbnamed_std_thread_step, which rewrites with
   std_spawn_join_is_ublock'.  See THREADS_NOTES.md. *)
From Coq Require Import ZArith Lia List Relations Wellfounded Permutation FunctionalExtensionality.
From Join Require Import Tok Names Comp Std Threads CompLaws NamesInj.

(** * 0. [upd] and [nth_error] *)

Lemma upd_length {A} (l : list A) i x : List.length (upd l i x) = List.length l.
Proof. revert i; induction l as [|y l IH]; intros [|i]; cbn; auto. Qed.

Lemma nth_error_upd_eq {A} (l : list A) i x :
  i < List.length l -> nth_error (upd l i x) i = Some x.
Proof.
  revert i; induction l as [|y l IH]; intros [|i] Hlt; cbn in *; auto; try (now inversion Hlt).
  apply IH. now apply Nat.succ_lt_mono.
Qed.

Lemma nth_error_upd_neq {A} (l : list A) i j x :
  i <> j -> nth_error (upd l i x) j = nth_error l j.
Proof.
  revert i j; induction l as [|y l IH]; intros [|i] [|j] Hne; cbn; auto; try congruence.
Qed.

Lemma upd_app_mid {A} (l1 l2 : list A) c x :
  upd (l1 ++ c :: l2) (List.length l1) x = l1 ++ x :: l2.
Proof. induction l1 as [|y l1 IH]; cbn; [reflexivity|now rewrite IH]. Qed.

Lemma nth_error_Some_lt {A} (l : list A) i x : nth_error l i = Some x -> i < List.length l.
Proof. intros H. apply nth_error_Some. congruence. Qed.

Lemma nth_error_app_new {A} (l : list A) x : nth_error (l ++ [x]) (List.length l) = Some x.
Proof. rewrite nth_error_app2 by apply le_n. now rewrite Nat.sub_diag. Qed.

(** * 1. One thread's steps; the machine's step relation, its frame lemmas, the invariant rule *)

(* induction over `comp val` (the generated principle quantifies over the result type) *)
Lemma comp_val_ind (P : comp val -> Prop) :
  (forall v, P (Ret v)) -> (forall n, P (Panic n)) ->
  (forall e k, (forall v, P (k v)) -> P (Vis e k)) ->
  (forall name t k, P t -> (forall h, P (k h)) -> P (Spawn name t k)) ->
  (forall h k, (forall r, P (k r)) -> P (Join h k)) ->
  forall c, P c.
Proof.
  intros HR HP HV HS HJ. fix IH 1. intros [v|n|e k|name t k|h k].
  - apply HR.
  - apply HP.
  - apply HV. intros v. apply IH.
  - apply HS; [apply IH|intros h; apply IH].
  - apply HJ. intros r. apply IH.
Qed.

(* what one machine step can turn the code of the running thread into *)
Inductive tstep : comp val -> comp val -> Prop :=
| ts_vis e k r : tstep (Vis e k) (vis_next k r)
| ts_spawn n t k h : tstep (Spawn n t k) (k h)
| ts_join h k r : tstep (Join h k) (k r).

(* [cdesc c d]: d is what is left of c after some steps of the thread that runs c *)
Inductive cdesc (c : comp val) : comp val -> Prop :=
| cd_refl : cdesc c c
| cd_step d d' : cdesc c d -> tstep d d' -> cdesc c d'.

Lemma tstep_unfinished c d : tstep c d -> outcome c = None.
Proof. now destruct 1. Qed.

(* Threads.v tests "finished" in two ways: the boolean and the outcome *)
Lemma is_finished_outcome c : is_finished c = match outcome c with Some _ => true | None => false end.
Proof. now destruct c. Qed.

Section Props.
  Variable wstate : Type.
  Variable handle : option string -> ev -> wstate -> option val * wstate.
  (* each section abbreviates the machine at its `wstate` and `handle` like this; where a proof
     unfolds one of the functions it has to write the constant, `Threads.step_thr` *)
  Notation state := (state wstate).
  Notation step_thr := (step_thr handle).
  Notation run_thr := (run_thr handle).
  Notation enabled := (enabled handle).

  Definition thr_of (s : state) (i : nat) : option thread := nth_error (pool s) i.
  Notation thr := thr_of.

  Definition fin (s : state) (i : nat) (r : option val) : Prop :=
    exists th, thr s i = Some th /\ outcome (th_code th) = Some r.

  Definition unfinished (s : state) (i : nat) : Prop :=
    exists th, thr s i = Some th /\ outcome (th_code th) = None.

  Inductive step_rel (i : nat) (s s' : state) : Prop :=
  | SR_vis th e k r w' :
      thr s i = Some th -> th_code th = Vis e k ->
      answer handle (th_name th) e (world s) = (r, w') ->
      s' = mkState (upd (pool s) i (set_code th (vis_next k r))) w' ((i, e) :: trace s) ->
      step_rel i s s'
  | SR_spawn th name t k :
      thr s i = Some th -> th_code th = Spawn name t k ->
      s' = mkState (upd (pool s) i (set_code th (k (List.length (pool s))))
                      ++ [mkThread (Some name) (Some i) t]) (world s) (trace s) ->
      step_rel i s s'
  | SR_join th h k th' r :
      thr s i = Some th -> th_code th = Join h k ->
      thr s h = Some th' -> outcome (th_code th') = Some r ->
      s' = mkState (upd (pool s) i (set_code th (k r))) (world s) (trace s) ->
      step_rel i s s'.

  Lemma step_thr_rel i s s' : step_thr i s = Some s' <-> step_rel i s s'.
  Proof.
    unfold Threads.step_thr. split.
    - destruct (nth_error (pool s) i) as [th|] eqn:Hth; [|discriminate].
      destruct (th_code th) as [v|n|e k|name t k|h k] eqn:Hc; try discriminate.
      + intros H; injection H as <-.
        destruct (answer handle (th_name th) e (world s)) as [r w'] eqn:Ha.
        eapply SR_vis; eauto.
      + intros H; injection H as <-. eapply SR_spawn; eauto.
      + destruct (nth_error (pool s) h) as [th'|] eqn:Hth'; [|discriminate].
        destruct (outcome (th_code th')) as [r|] eqn:Ho; [|discriminate].
        intros H; injection H as <-. eapply SR_join; eauto.
    - intros [th e k r w' Hth Hc Ha ->|th name t k Hth Hc ->|th h k th' r Hth Hc Hth' Ho ->];
        unfold thr_of in *; rewrite Hth, Hc.
      + now rewrite Ha.
      + reflexivity.
      + now rewrite Hth', Ho.
  Qed.

  Lemma step_length i s s' : step_rel i s s' -> List.length (pool s) <= List.length (pool s').
  Proof.
    intros [th e k r w' Hth Hc Ha ->|th name t k Hth Hc ->|th h k th' r Hth Hc Hth' Ho ->]; cbn;
      rewrite ?app_length, ?upd_length; auto using Nat.le_add_r.
  Qed.

  Lemma step_other i s s' j :
    step_rel i s s' -> j <> i -> j < List.length (pool s) -> thr s' j = thr s j.
  Proof.
    intros [th e k r w' Hth Hc Ha ->|th name t k Hth Hc ->|th h k th' r Hth Hc Hth' Ho ->] Hne Hlt;
      unfold thr_of; cbn; rewrite ?nth_error_app1 by (now rewrite upd_length);
      apply nth_error_upd_neq; congruence.
  Qed.

  Lemma step_other_len i s s' :
    step_rel i s s' -> List.length (pool s') = List.length (pool s) -> forall j, j <> i -> thr s' j = thr s j.
  Proof.
    intros Hst Hlen j Hne. destruct (Nat.lt_ge_cases j (List.length (pool s))) as [Hlt|Hge]; [now apply (step_other i)|].
    unfold thr_of. rewrite (proj2 (nth_error_None (pool s) j) Hge). apply nth_error_None. now rewrite Hlen.
  Qed.

  Lemma step_self i s s' :
    step_rel i s s' ->
    exists th c', thr s i = Some th /\ thr s' i = Some (set_code th c') /\ tstep (th_code th) c'.
  Proof.
    intros [th e k r w' Hth Hc Ha ->|th name t k Hth Hc ->|th h k th' r Hth Hc Hth' Ho ->];
      pose proof (nth_error_Some_lt _ _ _ Hth) as Hlt;
      exists th; eexists; (split; [exact Hth|]); unfold thr_of; cbn;
      rewrite ?nth_error_app1 by (now rewrite upd_length);
      rewrite nth_error_upd_eq by exact Hlt; (split; [reflexivity|]); rewrite Hc; constructor.
  Qed.

  Lemma step_new i s s' j th' :
    step_rel i s s' -> List.length (pool s) <= j -> thr s' j = Some th' ->
    j = List.length (pool s) /\
    exists th name t k, thr s i = Some th /\ th_code th = Spawn name t k /\
                        th' = mkThread (Some name) (Some i) t.
  Proof.
    intros [th e k r w' Hth Hc Ha ->|th name t k Hth Hc ->|th h k th'' r Hth Hc Hth' Ho ->] Hge Hj;
      unfold thr_of in Hj; cbn in Hj.
    - apply nth_error_Some_lt in Hj. rewrite upd_length in Hj. now apply Nat.lt_nge in Hj.
    - assert (Hlt : j < List.length (upd (pool s) i (set_code th (k (List.length (pool s)))) ++
                                   [mkThread (Some name) (Some i) t]))
        by (eapply nth_error_Some_lt; eauto).
      rewrite app_length, upd_length in Hlt. cbn in Hlt.
      assert (j = List.length (pool s)) as -> by lia.
      split; [reflexivity|]. rewrite nth_error_app2 in Hj by (rewrite upd_length; apply le_n).
      rewrite upd_length, Nat.sub_diag in Hj. cbn in Hj. injection Hj as <-.
      exists th, name, t, k. auto.
    - apply nth_error_Some_lt in Hj. rewrite upd_length in Hj. now apply Nat.lt_nge in Hj.
  Qed.

  Lemma step_trace i s s' :
    step_rel i s s' -> trace s' = trace s \/ exists e, trace s' = (i, e) :: trace s.
  Proof.
    intros [th e k r w' Hth Hc Ha ->|th name t k Hth Hc ->|th h k th' r Hth Hc Hth' Ho ->]; cbn; eauto.
  Qed.

  Lemma step_thr_stable i s s' x th :
    step_rel i s s' -> thr s x = Some th ->
    exists th', thr s' x = Some th' /\ th_name th' = th_name th /\ th_parent th' = th_parent th /\
                (x <> i -> th' = th) /\ (x = i -> tstep (th_code th) (th_code th')).
  Proof.
    intros Hst Hx. destruct (Nat.eq_dec x i) as [->|Hne].
    - destruct (step_self _ _ _ Hst) as (th0 & c' & H1 & H2 & H3).
      rewrite Hx in H1; injection H1 as <-.
      exists (set_code th c'). cbn. repeat split; auto. congruence.
    - exists th. rewrite (step_other _ _ _ _ Hst Hne (nth_error_Some_lt _ _ _ Hx)).
      repeat split; auto. congruence.
  Qed.

  Lemma step_unfinished i s s' : step_rel i s s' -> unfinished s i.
  Proof.
    intros Hst. destruct (step_self _ _ _ Hst) as (th & c' & H1 & _ & H3).
    exists th. split; [exact H1|]. eapply tstep_unfinished; eauto.
  Qed.

  Lemma fin_not_unfinished s i r : fin s i r -> unfinished s i -> False.
  Proof. intros (th & H1 & H2) (th' & H3 & H4). congruence. Qed.

  Lemma step_fin_stable i s s' x r : step_rel i s s' -> fin s x r -> fin s' x r.
  Proof.
    intros Hst (th & Hx & Ho).
    destruct (step_thr_stable _ _ _ _ _ Hst Hx) as (th' & Hx' & _ & _ & Hne & Heq).
    destruct (Nat.eq_dec x i) as [->|Hn].
    - specialize (Heq eq_refl). apply tstep_unfinished in Heq. congruence.
    - rewrite (Hne Hn) in Hx'. exists th; auto.
  Qed.

  Lemma fin_inj s x r r' : fin s x r -> fin s x r' -> r = r'.
  Proof. intros (th & H1 & H2) (th' & H3 & H4). congruence. Qed.

  Lemma fin_result_of s i r : fin s i r <-> result_of i s = Some r.
  Proof.
    unfold fin, thr_of, result_of. split.
    - intros (th & -> & Ho). exact Ho.
    - destruct (nth_error (pool s) i) as [th|]; [eauto|discriminate].
  Qed.

  Lemma fin_thr_finished s i : (exists r, fin s i r) <-> thr_finished i s = true.
  Proof.
    unfold fin, thr_of, thr_finished. split.
    - intros (r & th & -> & Ho). now rewrite is_finished_outcome, Ho.
    - destruct (nth_error (pool s) i) as [th|]; [|discriminate]. rewrite is_finished_outcome.
      destruct (outcome (th_code th)) as [r|] eqn:Ho; [eauto|discriminate].
  Qed.

  Lemma step_not_fin i s s' r : step_rel i s s' -> fin s i r -> False.
  Proof. intros Hst Hf. eapply fin_not_unfinished; [exact Hf|eapply step_unfinished; eauto]. Qed.

  (* the head of the running thread's code decides the constructor, and with it the next state *)
  Lemma step_inv i s s' th :
    step_rel i s s' -> thr s i = Some th ->
    match th_code th with
    | Vis e k => exists r w', answer handle (th_name th) e (world s) = (r, w') /\
                   s' = mkState (upd (pool s) i (set_code th (vis_next k r))) w' ((i, e) :: trace s)
    | Spawn name t k =>
        s' = mkState (upd (pool s) i (set_code th (k (List.length (pool s))))
                        ++ [mkThread (Some name) (Some i) t]) (world s) (trace s)
    | Join h k => exists r, fin s h r /\
                   s' = mkState (upd (pool s) i (set_code th (k r))) (world s) (trace s)
    | Ret _ | Panic _ => False
    end.
  Proof.
    intros [th1 e k r w' H1 Hc Ha ->|th1 name t k H1 Hc ->|th1 h k th' r H1 Hc Hth' Ho ->] Hth;
      rewrite Hth in H1; injection H1 as <-; rewrite Hc.
    - eauto.
    - reflexivity.
    - exists r. split; [exists th'; auto|reflexivity].
  Qed.

  Lemma spawn_step i s s' th name t k :
    step_rel i s s' -> thr s i = Some th -> th_code th = Spawn name t k ->
    s' = mkState (upd (pool s) i (set_code th (k (List.length (pool s))))
                    ++ [mkThread (Some name) (Some i) t]) (world s) (trace s).
  Proof. intros Hst Hth Hc. generalize (step_inv _ _ _ _ Hst Hth). now rewrite Hc. Qed.

  Lemma join_step i s s' th h k :
    step_rel i s s' -> thr s i = Some th -> th_code th = Join h k ->
    exists r, fin s h r /\ s' = mkState (upd (pool s) i (set_code th (k r))) (world s) (trace s).
  Proof. intros Hst Hth Hc. generalize (step_inv _ _ _ _ Hst Hth). now rewrite Hc. Qed.

  Lemma thr_upd s s' i th t' :
    pool s' = upd (pool s) i t' -> thr s i = Some th ->
    thr s' i = Some t' /\ List.length (pool s') = List.length (pool s).
  Proof.
    intros Hp Hth. apply nth_error_Some_lt in Hth. unfold thr_of. rewrite Hp, upd_length. split; [|reflexivity].
    now apply nth_error_upd_eq.
  Qed.

  Lemma thr_upd_app s s' i th t' new :
    pool s' = upd (pool s) i t' ++ [new] -> thr s i = Some th ->
    thr s' i = Some t' /\ thr s' (List.length (pool s)) = Some new /\
    List.length (pool s') = S (List.length (pool s)).
  Proof.
    intros Hp Hth. apply nth_error_Some_lt in Hth. unfold thr_of. rewrite Hp. split; [|split].
    - rewrite nth_error_app1 by (now rewrite upd_length). now apply nth_error_upd_eq.
    - rewrite nth_error_app2 by (rewrite upd_length; apply le_n). rewrite upd_length, Nat.sub_diag. reflexivity.
    - rewrite app_length, upd_length. apply Nat.add_1_r.
  Qed.

  Lemma step_code i s s' th :
    step_rel i s s' -> thr s i = Some th ->
    exists c', thr s' i = Some (set_code th c') /\
      match th_code th with
      | Vis e k => exists r w', answer handle (th_name th) e (world s) = (r, w') /\ c' = vis_next k r
      | Spawn name t k => c' = k (List.length (pool s))
      | Join h k => exists r, fin s h r /\ c' = k r
      | Ret _ | Panic _ => False
      end.
  Proof.
    intros Hst Hth. pose proof (step_inv _ _ _ _ Hst Hth) as H.
    destruct (th_code th) as [v|n|e k|name t k|h k]; try contradiction.
    - destruct H as (r & w' & Ha & Es'). exists (vis_next k r). split; [|eauto].
      apply (proj1 (thr_upd s s' i th _ (f_equal pool Es') Hth)).
    - exists (k (List.length (pool s))). split; [|reflexivity].
      apply (proj1 (thr_upd_app s s' i th _ _ (f_equal pool H) Hth)).
    - destruct H as (r & Hf & Es'). exists (k r). split; [|eauto].
      apply (proj1 (thr_upd s s' i th _ (f_equal pool Es') Hth)).
  Qed.

  Lemma thr_init nm c w x th : thr (init nm c w) x = Some th -> x = 0 /\ th = mkThread nm None c.
  Proof. destruct x as [|[|x]]; cbn; [intros H; injection H as <-; auto|discriminate..]. Qed.

  Lemma thr_exists s x : x < List.length (pool s) -> exists th, thr s x = Some th.
  Proof.
    intros Hlt. unfold thr_of. destruct (nth_error (pool s) x) eqn:E; [eauto|].
    apply nth_error_None in E. now apply Nat.lt_nge in Hlt.
  Qed.

  (* backwards: where a thread of s' comes from.  Every invariant of the form
     "forall x th, thr s x = Some th -> P s x th" is proved preserved through this lemma. *)
  Lemma step_thr_inv i s s' x thx :
    step_rel i s s' -> thr s' x = Some thx ->
    (exists th, thr s x = Some th /\ th_name thx = th_name th /\ th_parent thx = th_parent th /\
                (x <> i -> thx = th) /\ (x = i -> tstep (th_code th) (th_code thx))) \/
    (x = List.length (pool s) /\
     exists th name t k, thr s i = Some th /\ th_code th = Spawn name t k /\
                         thx = mkThread (Some name) (Some i) t).
  Proof.
    intros Hst Hx. destruct (Nat.lt_ge_cases x (List.length (pool s))) as [Hlt|Hge].
    - left. destruct (thr_exists _ _ Hlt) as [th Hth]. exists th. split; [exact Hth|].
      destruct (step_thr_stable _ _ _ _ _ Hst Hth) as (th' & Hx' & H). rewrite Hx in Hx'. injection Hx' as <-. exact H.
    - right. destruct (step_new _ _ _ _ _ Hst Hge Hx) as (-> & H). auto.
  Qed.

  Lemma step_split i s s' :
    step_rel i s s' ->
    exists l1 th l2 c' new,
      pool s = l1 ++ th :: l2 /\ pool s' = l1 ++ set_code th c' :: l2 ++ new /\
      match th_code th with
      | Vis e k => (exists r, c' = vis_next k r) /\ new = []
      | Spawn name t k => c' = k (List.length (pool s)) /\ new = [mkThread (Some name) (Some i) t]
      | Join h k => (exists r, c' = k r) /\ new = []
      | Ret _ | Panic _ => False
      end.
  Proof.
    intros Hst. destruct (step_unfinished _ _ _ Hst) as (th & Hth & _).
    pose proof (step_inv _ _ _ _ Hst Hth) as H.
    destruct (nth_error_split _ _ Hth) as (l1 & l2 & Hp & <-). exists l1, th, l2.
    assert (Hu : forall c', upd (pool s) (List.length l1) (set_code th c') = l1 ++ set_code th c' :: l2)
      by (intros; rewrite Hp; apply upd_app_mid).
    destruct (th_code th) as [v|n|e k|name t k|h k]; try contradiction.
    - destruct H as (r & w' & _ & ->). exists (vis_next k r), []. cbn [pool]. rewrite Hu, app_nil_r. eauto.
    - subst s'. eexists _, _. cbn [pool]. rewrite Hu, <- app_assoc. cbn [app]. eauto.
    - destruct H as (r & _ & ->). exists (k r), []. cbn [pool]. rewrite Hu, app_nil_r. eauto.
  Qed.

  Lemma thread_code_invariant (Q : comp val -> Prop) i s s' x th :
    (forall c c', Q c -> tstep c c' -> Q c') ->
    step_rel i s s' -> thr s x = Some th -> Q (th_code th) ->
    exists th', thr s' x = Some th' /\ Q (th_code th').
  Proof.
    intros HQ Hst Hx Hq.
    destruct (step_thr_stable _ _ _ _ _ Hst Hx) as (th' & Hx' & _ & _ & Hsame & Hrun).
    exists th'. split; [exact Hx'|].
    destruct (Nat.eq_dec x i) as [E|E]; [eapply HQ; eauto|now rewrite (Hsame E)].
  Qed.

  Lemma trace_ext_step (P : nat -> Prop) i s s' tnew t0 :
    step_rel i s s' -> P i -> trace s = tnew ++ t0 -> (forall x, In x tnew -> P (fst x)) ->
    exists tnew', trace s' = tnew' ++ t0 /\ forall x, In x tnew' -> P (fst x).
  Proof.
    intros Hst Hi Ht HP. destruct (step_trace _ _ _ Hst) as [E|[e E]]; rewrite E, Ht.
    - now exists tnew.
    - exists ((i, e) :: tnew). split; [reflexivity|]. intros x [<-|Hin]; auto.
  Qed.

  Lemma run_thr_app a b s : run_thr (a ++ b) s = run_thr b (run_thr a s).
  Proof. revert s; induction a as [|i a IH]; intros s; cbn; auto. Qed.

  Lemma step_or_skip_cases i s :
    (step_thr i s = None /\ step_or_skip handle i s = s) \/ step_rel i s (step_or_skip handle i s).
  Proof.
    unfold step_or_skip. destruct (step_thr i s) as [s'|] eqn:E; [right|left; auto]. now apply step_thr_rel.
  Qed.

  (* THE proof rule for "every prefix of every schedule": an invariant of single steps.  Where a
     proof states its goal as `cut ((fun s => ..) (run_thr sched s0))`, the beta-redex is there so
     that `apply run_thr_invariant` finds P by first-order unification. *)
  Lemma run_thr_invariant (P : state -> Prop) :
    (forall i s s', P s -> step_rel i s s' -> P s') ->
    forall sched s, P s -> P (run_thr sched s).
  Proof.
    intros Hstep sched. induction sched as [|i r IH]; intros s Hs; cbn; [exact Hs|].
    apply IH. destruct (step_or_skip_cases i s) as [[_ ->]|Hst]; [exact Hs|]. eapply Hstep; eauto.
  Qed.

  Lemma run_thr_trace_invariant (I : state -> Prop) (P : nat -> Prop) :
    (forall i s s', I s -> step_rel i s s' -> I s' /\ (trace s' = trace s \/ P i)) ->
    forall sched s, I s ->
      I (run_thr sched s) /\
      exists tnew, trace (run_thr sched s) = tnew ++ trace s /\ forall x, In x tnew -> P (fst x).
  Proof.
    intros Hstep sched s Hs.
    apply (run_thr_invariant
             (fun s' => I s' /\ exists tnew, trace s' = tnew ++ trace s /\ forall x, In x tnew -> P (fst x))).
    - intros i s1 s2 [HI (tnew & Ht & Hn)] Hst. destruct (Hstep i s1 s2 HI Hst) as [HI' [E|Hp]]; (split; [exact HI'|]).
      + exists tnew. now rewrite E.
      + exact (trace_ext_step P i s1 s2 tnew (trace s) Hst Hp Ht Hn).
    - split; [exact Hs|]. exists []. split; [reflexivity|intros x []].
  Qed.

  Definition sstep (s' s : state) : Prop := exists i, step_rel i s s'.

  Lemma run_thr_steps sched s : clos_refl_trans _ sstep (run_thr sched s) s.
  Proof.
    apply (run_thr_invariant (fun s' => clos_refl_trans _ sstep s' s)); [|apply rt_refl].
    intros i s1 s2 H Hst. eapply rt_trans; [apply rt_step; exists i; exact Hst|exact H].
  Qed.

  Lemma run_thr_fin_stable sched s x r : fin s x r -> fin (run_thr sched s) x r.
  Proof.
    revert s. apply (run_thr_invariant (fun s => fin s x r)).
    intros i s s' H Hst. eapply step_fin_stable; eauto.
  Qed.

  Lemma run_thr_length sched s : List.length (pool s) <= List.length (pool (run_thr sched s)).
  Proof.
    apply (run_thr_invariant (fun s' => List.length (pool s) <= List.length (pool s'))); [|apply le_n].
    intros i s1 s2 H Hst. exact (Nat.le_trans _ _ _ H (step_length _ _ _ Hst)).
  Qed.

  Lemma run_thr_trace sched s : exists new, trace (run_thr sched s) = new ++ trace s.
  Proof.
    apply (run_thr_invariant (fun s' => exists new, trace s' = new ++ trace s)); [|now exists []].
    intros i s1 s2 [new H] Hst. destruct (step_trace _ _ _ Hst) as [E|[e E]]; rewrite E, H.
    - now exists new.
    - now exists ((i, e) :: new).
  Qed.

  Lemma enabled_iff i s : enabled i s = true <-> exists s', step_rel i s s'.
  Proof.
    unfold Threads.enabled. split.
    - destruct (step_thr i s) as [s'|] eqn:E; [|discriminate]. intros _. exists s'. now apply step_thr_rel.
    - intros [s' H]. apply step_thr_rel in H. now rewrite H.
  Qed.

  Lemma finished_iff s : finished s = true <-> forall i, ~ unfinished s i.
  Proof.
    unfold finished. rewrite forallb_forall. split.
    - intros H i (th & Hth & Ho). specialize (H th (nth_error_In _ _ Hth)).
      rewrite is_finished_outcome, Ho in H. discriminate.
    - intros H th Hin. apply In_nth_error in Hin. destruct Hin as [i Hi]. rewrite is_finished_outcome.
      destruct (outcome (th_code th)) eqn:Ho; [reflexivity|]. destruct (H i). exists th. auto.
  Qed.

  Lemma finished_false s : finished s = false -> exists i, unfinished s i.
  Proof.
    unfold finished. intros H.
    assert (Hex : existsb (fun th => negb (is_finished (th_code th))) (pool s) = true).
    { revert H. induction (pool s) as [|th l IH]; cbn; [discriminate|].
      destruct (is_finished (th_code th)); cbn; auto. }
    apply existsb_exists in Hex. destruct Hex as (th & Hin & Hn).
    apply In_nth_error in Hin. destruct Hin as [i Hi]. exists i, th. split; [exact Hi|].
    rewrite is_finished_outcome in Hn. now destruct (outcome (th_code th)).
  Qed.
End Props.

(* Below, the arguments of these lemmas that their hypotheses determine are left out. *)
Local Arguments step_inv {wstate handle i s s' th}.
Local Arguments spawn_step {wstate handle i s s' th name t k}.
Local Arguments join_step {wstate handle i s s' th h k}.
Local Arguments step_code {wstate handle i s s' th}.
Local Arguments step_split {wstate handle i s s'}.
Local Arguments step_self {wstate handle i s s'}.
Local Arguments step_length {wstate handle i s s'}.
Local Arguments step_other {wstate handle i s s' j}.
Local Arguments step_other_len {wstate handle i s s'}.
Local Arguments step_new {wstate handle i s s' j th'}.
Local Arguments step_thr_stable {wstate handle i s s' x th}.
Local Arguments step_thr_inv {wstate handle i s s' x thx}.
Local Arguments step_unfinished {wstate handle i s s'}.
Local Arguments step_not_fin {wstate handle i s s' r}.
Local Arguments step_fin_stable {wstate handle i s s' x r}.
Local Arguments fin_inj {wstate s x r r'}.
Local Arguments thr_init {wstate nm c w x th}.
Local Arguments fin_not_unfinished {wstate s i r}.
Local Arguments trace_ext_step {wstate} {handle} P {i} {s} {s'} {tnew} {t0}.
Local Arguments thread_code_invariant {wstate} {handle} Q {i} {s} {s'} {x} {th}.

(** * 2. (b) Well-scoped computations, no deadlock, fair termination *)

(* [ws c H]: every `Join h` in c joins a handle in H or one obtained from a `Spawn`
   executed earlier by the same thread; a spawned thread starts with no handles. *)
Fixpoint ws (c : comp val) (H : list nat) : Prop :=
  match c with
  | Ret _ | Panic _ => True
  | Vis e k => forall v, ws (k v) H
  | Spawn n t k => ws t [] /\ forall h, ws (k h) (h :: H)
  | Join h k => In h H /\ forall r, ws (k r) H
  end.

Lemma ws_mono c : forall H H', incl H H' -> ws c H -> ws c H'.
Proof.
  induction c as [v|n|e k IH|name t k IHt IH|h k IH] using comp_val_ind; cbn; intros H H' Hi Hw; auto.
  - intros v. eapply IH; eauto.
  - destruct Hw as [Ht Hk]. split; [exact Ht|]. intros h. eapply IH; [|apply Hk].
    intros x [->|Hx]; [now left|right; auto].
  - destruct Hw as [Hin Hk]. split; [auto|]. intros r. eapply IH; eauto.
Qed.

(* the order that makes computation trees a termination measure:
   a continuation, the panic a `Vis` may turn into, or the body of a spawned thread *)
Inductive csub : comp val -> comp val -> Prop :=
| csub_step c d : tstep c d -> csub d c
| csub_child n t k : csub t (Spawn n t k).

Lemma csub_inv d c :
  csub d c ->
  match c with
  | Vis e k => exists r, d = vis_next k r
  | Spawn n t k => d = t \/ exists h, d = k h
  | Join h k => exists r, d = k r
  | Ret _ | Panic _ => False
  end.
Proof. destruct 1 as [c d [e k r|n t k h|h k r]|n t k]; eauto. Qed.

Lemma csub_wf : well_founded csub.
Proof.
  assert (HP : forall n, Acc csub (Panic n)).
  { intros n. constructor. intros y Hy. destruct (csub_inv _ _ Hy). }
  intros c. induction c as [v|n|e k IH|name t k IHt IH|h k IH] using comp_val_ind;
    constructor; intros y Hy; apply csub_inv in Hy.
  - contradiction.
  - contradiction.
  - destruct Hy as [[v|] ->]; cbn; auto.
  - destruct Hy as [->|[h ->]]; auto.
  - destruct Hy as [r ->]. apply IH.
Qed.

(* one element of a list is replaced by a smaller one, and smaller elements are appended:
   the multiset extension, in the positional form the machine produces *)
Inductive lstep : list (comp val) -> list (comp val) -> Prop :=
| lstep_intro l1 c l2 c' K :
    csub c' c -> Forall (fun d => csub d c) K -> lstep (l1 ++ c' :: l2 ++ K) (l1 ++ c :: l2).

Lemma app_cons_split {A} (l1 : list A) a l2 m1 c m2 :
  l1 ++ a :: l2 = m1 ++ c :: m2 ->
  (exists x, m1 = l1 ++ a :: x /\ l2 = x ++ c :: m2) \/
  (m1 = l1 /\ a = c /\ l2 = m2) \/
  (exists x, l1 = m1 ++ c :: x /\ m2 = x ++ a :: l2).
Proof.
  revert m1. induction l1 as [|y l1 IH]; intros [|z m1] H; cbn in *.
  - injection H as -> ->. right; left; auto.
  - injection H as -> ->. left. exists m1; auto.
  - injection H as -> <-. right; right. exists l1; auto.
  - injection H as -> H. destruct (IH _ H) as [[x [-> ->]]|[[-> [-> ->]]|[x [-> ->]]]].
    + left. exists x; auto.
    + right; left; auto.
    + right; right. exists x; auto.
Qed.

(* accessibility survives the insertion of one more tree a, anywhere: outer induction on a along
   [csub], inner induction on the accessibility of the list; a step at a itself leads to smaller
   trees, which the outer hypothesis inserts one after the other *)
Lemma lstep_insert a :
  forall l, Acc lstep l -> forall l1 l2, l = l1 ++ l2 -> Acc lstep (l1 ++ a :: l2).
Proof.
  induction (csub_wf a) as [a _ IHa].
  intros l Hl. induction Hl as [l Hacc IHl]. intros l1 l2 ->.
  constructor. intros y Hy. inversion Hy as [m1 c m2 c' K Hc HK Ey Ex]; subst.
  symmetry in Ex. apply app_cons_split in Ex. destruct Ex as [[x [-> ->]]|[[-> [-> ->]]|[x [-> ->]]]].
  - (* the step is right of a *)
    replace ((l1 ++ a :: x) ++ c' :: m2 ++ K) with (l1 ++ a :: (x ++ c' :: m2 ++ K))
      by (now rewrite <- app_assoc).
    eapply IHl; [|reflexivity].
    replace (l1 ++ x ++ c' :: m2 ++ K) with ((l1 ++ x) ++ c' :: m2 ++ K) by (now rewrite <- app_assoc).
    replace (l1 ++ x ++ c :: m2) with ((l1 ++ x) ++ c :: m2) by (now rewrite <- app_assoc).
    now constructor.
  - (* the step is at a *)
    assert (Hbase : Acc lstep (l1 ++ c' :: m2)).
    { eapply IHa; [exact Hc| |reflexivity]. constructor. exact Hacc. }
    assert (Happ : forall K', Forall (fun d => csub d c) K' ->
                     forall M, Acc lstep M -> Acc lstep (M ++ K')).
    { induction K' as [|d K' IHK]; intros HK' M HM; [now rewrite app_nil_r|].
      eapply (IHa d (Forall_inv HK')); [apply (IHK (Forall_inv_tail HK') M HM)|reflexivity]. }
    replace (l1 ++ c' :: m2 ++ K) with ((l1 ++ c' :: m2) ++ K) by (now rewrite <- app_assoc).
    apply Happ; assumption.
  - (* the step is left of a *)
    replace (m1 ++ c' :: (x ++ a :: l2) ++ K) with ((m1 ++ c' :: x) ++ a :: (l2 ++ K))
      by (now rewrite <- !app_assoc).
    eapply IHl; [|reflexivity].
    replace ((m1 ++ c' :: x) ++ l2 ++ K) with (m1 ++ c' :: (x ++ l2) ++ K) by (now rewrite <- !app_assoc).
    replace ((m1 ++ c :: x) ++ l2) with (m1 ++ c :: (x ++ l2)) by (now rewrite <- !app_assoc).
    now constructor.
Qed.

Lemma lstep_wf : well_founded lstep.
Proof.
  intros l. induction l as [|a l IH].
  - constructor. intros y Hy. inversion Hy as [m1 c m2 c' K Hc HK Ey Ex]. destruct m1; discriminate.
  - apply (lstep_insert a l IH [] l eq_refl).
Qed.

Section Progress.
  Variable wstate : Type.
  Variable handle : option string -> ev -> wstate -> option val * wstate.
  Notation state := (state wstate).
  Notation run_thr := (run_thr handle).
  Notation run_fuel := (run_fuel handle).
  Notation round := (round handle).
  Notation enabled := (enabled handle).
  Notation step_rel := (step_rel wstate handle).
  Notation sstep := (sstep wstate handle).

  (* every thread is well-scoped w.r.t. a set of handles that exist and are younger than itself *)
  Definition ws_state (s : state) : Prop :=
    forall i th, thr_of _ s i = Some th ->
      exists H, ws (th_code th) H /\ forall h, In h H -> i < h < List.length (pool s).

  Lemma ws_init name c w : ws c [] -> ws_state (init name c w).
  Proof.
    intros Hc i th Hth. destruct (thr_init Hth) as [-> ->]. exists []. split; [exact Hc|]. intros h [].
  Qed.

  Lemma ws_tstep_same c d H : tstep c d -> (forall n t k, c <> Spawn n t k) -> ws c H -> ws d H.
  Proof.
    intros Ht Hns Hw. destruct Ht as [e k r|n t k h|h k r]; cbn in *.
    - destruct r; cbn; auto.
    - exfalso. eapply Hns; eauto.
    - apply Hw.
  Qed.

  Lemma ws_step i s s' : ws_state s -> step_rel i s s' -> ws_state s'.
  Proof.
    intros Hws Hst x thx Hx. pose proof (step_length Hst) as Hlen.
    destruct (step_thr_inv Hst Hx)
      as [(th & Hth & _ & _ & Hsame & _)|(-> & th & name & t & k & Hth & Hc & ->)];
      destruct (Hws _ _ Hth) as (H & HwH & Hb).
    2:{ (* the new thread starts without handles *)
        rewrite Hc in HwH. exists []. split; [apply HwH|intros h []]. }
    assert (Hb' : forall h, In h H -> x < h < List.length (pool s')).
    { intros h Hin. specialize (Hb _ Hin). lia. }
    destruct (Nat.eq_dec x i) as [->|Hne]; [|rewrite (Hsame Hne); eauto].
    (* the running thread: a spawn adds the new handle, an event or a join none *)
    destruct (step_code Hst Hth) as (c' & Hi & Hnew). rewrite Hi in Hx; injection Hx as <-.
    cbn [th_code set_code]. destruct (th_code th) as [v|n|e k|name t k|h k] eqn:Hc; try contradiction; cbn in HwH.
    - destruct Hnew as (r & _ & _ & ->). exists H. split; [destruct r; cbn; auto|exact Hb'].
    - subst c'. exists (List.length (pool s) :: H). split; [apply HwH|]. intros h [<-|Hin]; [|now apply Hb'].
      pose proof (spawn_step Hst Hth Hc) as Es'.
      destruct (thr_upd_app _ s s' i th _ _ (f_equal pool Es') Hth) as (_ & _ & Hl).
      apply nth_error_Some_lt in Hth. rewrite Hl. split; [exact Hth|apply Nat.lt_succ_diag_r].
    - destruct Hnew as (r & _ & ->). exists H. split; [apply HwH|exact Hb'].
  Qed.

  Lemma ws_reachable sched s : ws_state s -> ws_state (run_thr sched s).
  Proof. apply (run_thr_invariant _ handle ws_state). intros i s1 s2 H Hst. eapply ws_step; eauto. Qed.

  Lemma greatest_below (p : nat -> bool) n :
    (exists i, i < n /\ p i = true) ->
    exists m, m < n /\ p m = true /\ forall j, m < j < n -> p j = false.
  Proof.
    induction n as [|n IH]; intros (i & Hi & Hp); [lia|].
    destruct (p n) eqn:En.
    - exists n. repeat split; auto. intros j Hj. lia.
    - destruct IH as (m & Hm & Hpm & Hmax).
      + exists i. split; [|exact Hp]. destruct (Nat.eq_dec i n) as [->|]; [congruence|lia].
      + exists m. repeat split; auto. intros j Hj.
        destruct (Nat.eq_dec j n) as [->|]; [exact En|]. apply Hmax. lia.
  Qed.

  Definition unfin_b (s : state) (i : nat) : bool :=
    match thr_of _ s i with Some th => negb (is_finished (th_code th)) | None => false end.

  Lemma unfin_b_true s i : unfin_b s i = true <-> unfinished _ s i.
  Proof.
    unfold unfin_b, unfinished. split.
    - destruct (thr_of _ s i) as [th|]; [|discriminate]. rewrite is_finished_outcome. intros H. exists th. split; [reflexivity|].
      now destruct (outcome (th_code th)).
    - intros (th & -> & Ho). now rewrite is_finished_outcome, Ho.
  Qed.

  (* NO DEADLOCK, one state: the youngest unfinished thread is enabled *)
  Lemma ws_progress s : ws_state s -> (exists i, unfinished _ s i) -> exists j, enabled j s = true.
  Proof.
    intros Hws (i & Hi).
    destruct (greatest_below (unfin_b s) (List.length (pool s))) as (m & Hm & Hpm & Hmax).
    { exists i. split; [|now apply unfin_b_true]. destruct Hi as (th & Hth & _).
      eapply nth_error_Some_lt; eauto. }
    exists m. apply unfin_b_true in Hpm. destruct Hpm as (th & Hth & Ho).
    destruct (Hws _ _ Hth) as (H & HwH & Hb).
    unfold Threads.enabled, Threads.step_thr. unfold thr_of in Hth. rewrite Hth.
    destruct (th_code th) as [v|n|e k|name t k|h k] eqn:Hc; cbn in Ho; try discriminate; auto.
    cbn in HwH. destruct HwH as [Hin _]. specialize (Hb _ Hin).
    specialize (Hmax h Hb). unfold unfin_b, thr_of in Hmax.
    destruct (nth_error (pool s) h) as [th'|] eqn:Hh.
    - destruct (th_code th'); cbn in *; congruence.
    - apply nth_error_None in Hh. lia.
  Qed.

  (* (b) NO DEADLOCK: in every state reachable from a well-scoped state, under every schedule,
     if some thread is unfinished then some thread is enabled. *)
  Theorem no_deadlock s0 :
    ws_state s0 ->
    forall sched, let s := run_thr sched s0 in
    (exists i, unfinished _ s i) -> exists j, enabled j s = true.
  Proof. intros Hws sched s. apply ws_progress. now apply ws_reachable. Qed.

  (* the caller in particular is never left blocked for good: whenever it waits in a `Join`
     (or is unfinished in any other way), the machine can move *)
  Corollary caller_never_stuck s0 c :
    ws_state s0 ->
    forall sched, let s := run_thr sched s0 in
    unfinished _ s c -> exists j, enabled j s = true.
  Proof. intros Hws sched s Hu. apply (no_deadlock s0 Hws sched). now exists c. Qed.

  (** ** Termination: the pool of trees is a well-founded measure *)

  Lemma step_lstep i s s' :
    step_rel i s s' -> lstep (map th_code (pool s')) (map th_code (pool s)).
  Proof.
    intros Hst. destruct (step_split Hst) as (l1 & th & l2 & c' & new & -> & -> & H).
    rewrite !map_app. cbn [map th_code set_code]. rewrite map_app.
    destruct (th_code th) as [v|n|e k|name t k|h k]; try contradiction.
    - destruct H as [[r ->] ->]. constructor; [repeat constructor|constructor].
    - destruct H as [-> ->]. constructor; [repeat constructor|]. constructor; [apply csub_child|constructor].
    - destruct H as [[r ->] ->]. constructor; [repeat constructor|constructor].
  Qed.

  (* every state is strongly normalising: there is no infinite run, whatever the schedule *)
  Theorem sstep_wf : well_founded sstep.
  Proof.
    intros s.
    assert (H : Acc lstep (map th_code (pool s))) by apply lstep_wf.
    remember (map th_code (pool s)) as l eqn:El. revert s El.
    induction H as [l _ IH]. intros s ->. constructor. intros s' [i Hst].
    eapply IH; [|reflexivity]. eapply step_lstep; eauto.
  Qed.

  Lemma run_thr_progress sched s j :
    In j sched -> enabled j s = true -> clos_trans _ sstep (run_thr sched s) s.
  Proof.
    revert s. induction sched as [|i r IH]; intros s Hin He; [destruct Hin|]. cbn.
    destruct (step_or_skip_cases _ handle i s) as [[E ->]|Hst].
    - destruct Hin as [->|Hin]; [|now apply IH]. unfold Threads.enabled in He. rewrite E in He. discriminate.
    - eapply clos_rt_t; [apply run_thr_steps|]. apply t_step. now exists i.
  Qed.

  Lemma round_progress s : ws_state s -> finished s = false -> clos_trans _ sstep (round s) s.
  Proof.
    intros Hws Ef. destruct (finished_false _ _ Ef) as [i Hi].
    destruct (ws_progress s Hws (ex_intro _ i Hi)) as [j Hj].
    apply (run_thr_progress _ s j); [|exact Hj].
    apply in_seq. apply enabled_iff in Hj. destruct Hj as [s' Hs'].
    apply step_unfinished in Hs'. destruct Hs' as (th & Hth & _). apply nth_error_Some_lt in Hth. lia.
  Qed.

  (* the round-robin is one of the schedules the theorems quantify over *)
  Lemma run_fuel_is_a_schedule fuel : forall s, exists sched, run_fuel fuel s = run_thr sched s.
  Proof.
    induction fuel as [|f IH]; intros s; cbn; [now exists []|].
    destruct (finished s); [now exists []|].
    destruct (IH (round s)) as [sched Hs]. exists (seq 0 (List.length (pool s)) ++ sched).
    rewrite run_thr_app. exact Hs.
  Qed.

  (* (b) A FAIR SCHEDULE FINISHES: the round-robin, given enough fuel, ends with every thread
     finished - for every well-scoped state, every world, and ALL trees (they are well-founded:
     the measure is the pool of trees itself under the multiset order [lstep]). *)
  Theorem fair_schedule_finishes s0 :
    ws_state s0 -> exists fuel, finished (run_fuel fuel s0) = true.
  Proof.
    intros Hws.
    pose proof (Acc_clos_trans _ _ _ (sstep_wf s0)) as Hacc.
    induction Hacc as [s _ IH].
    destruct (finished s) eqn:Ef.
    - exists 0. exact Ef.
    - destruct (IH (round s) (round_progress s Hws Ef)) as [fuel Hf].
      { apply ws_reachable; exact Hws. }
      exists (S fuel). cbn. rewrite Ef. exact Hf.
  Qed.
End Progress.

Print Assumptions no_deadlock.
Print Assumptions caller_never_stuck.
Print Assumptions sstep_wf.
Print Assumptions fair_schedule_finishes.

(** * 3. Blocks: spawn all, then join all in order *)

Lemma Forall2_impl' {A B} (R1 R2 : A -> B -> Prop) l1 l2 :
  (forall a b, R1 a b -> R2 a b) -> Forall2 R1 l1 l2 -> Forall2 R2 l1 l2.
Proof. intros H. induction 1; constructor; auto. Qed.

Lemma Forall2_len {A B} (R : A -> B -> Prop) l1 l2 : Forall2 R l1 l2 -> List.length l1 = List.length l2.
Proof. induction 1; cbn; auto. Qed.

Lemma Forall2_In_l {A B} (R : A -> B -> Prop) l1 l2 x :
  Forall2 R l1 l2 -> In x l1 -> exists y, In y l2 /\ R x y.
Proof.
  induction 1 as [|a b l1 l2 Hab HF IH]; intros Hin; [destruct Hin|].
  destruct Hin as [->|Hin]; [exists b; cbn; auto|].
  destruct (IH Hin) as (y & Hy & HR). exists y; cbn; auto.
Qed.

Lemma Forall2_snoc {A B} (R : A -> B -> Prop) l1 l2 x y :
  Forall2 R l1 l2 -> R x y -> Forall2 R (l1 ++ [x]) (l2 ++ [y]).
Proof. intros H1 H2. apply Forall2_app; auto. Qed.

Lemma NoDup_snoc {A} (l : list A) x : NoDup l -> ~ In x l -> NoDup (l ++ [x]).
Proof.
  induction 1 as [|y l Hy Hl IH]; intros Hx; cbn.
  - constructor; [intros []|constructor].
  - constructor.
    + rewrite in_app_iff. cbn. intros [H|[H|[]]]; [auto|subst; apply Hx; now left].
    + apply IH. intros H. apply Hx. now right.
Qed.

Section BlockDef.
  Context {B : Type}.
  (* what the caller does with the outcome of one join, before the next join:
     inl b = go on with b, inr n = panic with code n.  (`.join()` alone: inl;  `.join().unwrap()`:
     None |-> inr P_UNWRAP.)  It is pure: no events, no spawns, no joins. *)
  Variable post : option val -> B + N.

  Fixpoint join_all_acc (hs : list nat) (acc : list B) (K : list B -> comp val) : comp val :=
    match hs with
    | [] => K (rev acc)
    | h :: r => Join h (fun x => match post x with
                                 | inl b => join_all_acc r (b :: acc) K
                                 | inr n => Panic n
                                 end)
    end.

  Fixpoint spawn_all_acc (nts : list (string * comp val)) (acc : list nat) (k : list nat -> comp val)
    : comp val :=
    match nts with
    | [] => k (rev acc)
    | nt :: r => Spawn (fst nt) (snd nt) (fun h => spawn_all_acc r (h :: acc) k)
    end.

  (* spawn t_1 .. t_n under the given names, in order; join the n handles in order
     (each outcome goes through [post]); continue with K [b_1 .. b_n] *)
  Definition gblock (nts : list (string * comp val)) (K : list B -> comp val) : comp val :=
    spawn_all_acc nts [] (fun hs => join_all_acc hs [] K).
End BlockDef.

(* the block without post-processing: K receives the raw outcomes r_i : option val *)
Definition block (names : list string) (ts : list (comp val)) (K : list (option val) -> comp val)
  : comp val := gblock (@inl (option val) N) (combine names ts) K.

(* the post-processing of the generated `.join().unwrap()` *)
Definition unwrap_post (r : option val) : val + N :=
  match r with Some v => inl v | None => inr P_UNWRAP end.
Definition ublock (names : list string) (ts : list (comp val)) (K : list val -> comp val) : comp val :=
  gblock unwrap_post (combine names ts) K.

Example block_shape_2 n1 n2 t1 t2 K :
  block [n1; n2] [t1; t2] K =
  Spawn n1 t1 (fun h1 => Spawn n2 t2 (fun h2 =>
    Join h1 (fun r1 => Join h2 (fun r2 => K [r1; r2])))).
Proof. reflexivity. Qed.

Example ublock_shape_2 n1 n2 t1 t2 K :
  ublock [n1; n2] [t1; t2] K =
  Spawn n1 t1 (fun h1 => Spawn n2 t2 (fun h2 =>
    Join h1 (fun r1 => match unwrap_post r1 with
                       | inl v1 => Join h2 (fun r2 => match unwrap_post r2 with
                                                      | inl v2 => K [v1; v2]
                                                      | inr n => Panic n end)
                       | inr n => Panic n end))).
Proof. reflexivity. Qed.

(* a join that delivers "the thread panicked" makes the caller panic (`.join().unwrap()`) *)
Definition strict_post {B} (post : option val -> B + N) : Prop := exists n, post None = inr n.

Lemma unwrap_post_strict : strict_post unwrap_post.
Proof. exists P_UNWRAP. reflexivity. Qed.

(** * 4. The block invariant; (a) barrier, (d) all children alive at once *)

Section BlockInv.
  Variable wstate : Type.
  Variable handle : option string -> ev -> wstate -> option val * wstate.
  Notation state := (state wstate).
  Notation run_thr := (run_thr handle).
  Notation step_rel := (step_rel wstate handle).
  Notation thr := (thr_of wstate).
  Notation fin := (fin wstate).

  Context {B : Type}.
  Variable post : option val -> B + N.
  Variable nts : list (string * comp val).       (* names and bodies of the children *)
  Variable K : list B -> comp val.               (* what follows the block *)
  Variable s0 : state.                           (* the state in which the caller is about to run the block *)
  Variable c : nat.                              (* the caller: ANY thread of the pool *)

  (* the i-th child so far is thread h_i: it carries the i-th name, was spawned by c,
     and did not exist in s0; the h_i are pairwise distinct *)
  Definition kids (s : state) (hs : list nat) (nts' : list (string * comp val)) : Prop :=
    Forall2 (fun h nt => exists th, thr s h = Some th /\ th_name th = Some (fst nt) /\
                                    th_parent th = Some c) hs nts' /\
    NoDup hs /\ (forall h, In h hs -> List.length (pool s0) <= h).

  Definition joined (s : state) (hs : list nat) (bs : list B) : Prop :=
    Forall2 (fun h b => exists r, fin s h r /\ post r = inl b) hs bs.

  (* the caller has made no trace entry since s0 *)
  Definition quiet (s : state) : Prop :=
    exists tnew, trace s = tnew ++ trace s0 /\ forall x, In x tnew -> fst x <> c.

  Definition ccode (s : state) (d : comp val) : Prop :=
    exists th, thr s c = Some th /\ th_code th = d.

  (* the caller is still spawning: the children hs exist, nt is next; the caller has been silent *)
  Definition spawning (s : state) (hs : list nat) : Prop :=
    exists ntsd nt todo,
      nts = ntsd ++ nt :: todo /\ kids s hs ntsd /\
      List.length (pool s0) <= List.length (pool s) /\
      ccode s (spawn_all_acc (nt :: todo) (rev hs) (fun hs' => join_all_acc post hs' [] K)) /\
      quiet s.

  (* ALL n children exist (n distinct threads, names as given, spawned by c) and the caller has not
     joined any of them yet *)
  Definition all_alive (s : state) (hs : list nat) : Prop :=
    kids s hs nts /\ ccode s (join_all_acc post hs [] K) /\ quiet s.

  (* Where the caller is; hs = the children spawned so far.  The cases are exhaustive:
     theorem [spawn_all_join_all] below says one of them holds in EVERY reachable state. *)
  Inductive block_inv (s : state) (hs : list nat) : Prop :=
  | BI_spawning : spawning s hs -> block_inv s hs
  | BI_joining done bs h todo :
      (* all n children exist; those in [done] are finished and joined; the caller waits for h *)
      kids s hs nts -> hs = done ++ h :: todo -> joined s done bs ->
      ccode s (join_all_acc post (h :: todo) (rev bs) K) ->
      quiet s -> block_inv s hs
  | BI_past bs th tpost tpre :
      (* the caller is past the block: ALL n children are finished; what the caller runs is what is
         left of K [b_1..b_n]; the trace splits into what happened before the caller left the block
         (no entry of the caller) and after it (no entry of a child) *)
      kids s hs nts -> joined s hs bs ->
      thr s c = Some th -> cdesc (K bs) (th_code th) ->
      trace s = tpost ++ tpre ++ trace s0 ->
      (forall x, In x tpre -> fst x <> c) ->
      (forall x, In x tpost -> ~ In (fst x) hs) ->
      block_inv s hs
  | BI_failed done bs h todo r n :
      (* a join delivered an outcome that [post] turns into a panic: the caller is finished with
         that panic, was silent, and never looked at the children after h *)
      kids s hs nts -> hs = done ++ h :: todo -> joined s done bs ->
      fin s h r -> post r = inr n -> ccode s (Panic n) ->
      quiet s -> block_inv s hs.

  Lemma kids_stable i s s' hs nts' : step_rel i s s' -> kids s hs nts' -> kids s' hs nts'.
  Proof.
    intros Hst (HF & Hnd & Hge). split; [|split; auto].
    eapply Forall2_impl'; [|exact HF]. cbn. intros h nt (th & Hth & Hn & Hp).
    destruct (step_thr_stable Hst Hth) as (th' & Hth' & Hn' & Hp' & _).
    exists th'. rewrite Hn', Hp'. auto.
  Qed.

  Lemma joined_stable i s s' hs bs : step_rel i s s' -> joined s hs bs -> joined s' hs bs.
  Proof.
    intros Hst HF. eapply Forall2_impl'; [|exact HF]. cbn. intros h b (r & Hf & Hp).
    exists r. split; [|exact Hp]. eapply step_fin_stable; eauto.
  Qed.

  Lemma ccode_stable i s s' d : step_rel i s s' -> i <> c -> ccode s d -> ccode s' d.
  Proof.
    intros Hst Hne (th & Hth & Hc).
    destruct (step_thr_stable Hst Hth) as (th' & Hth' & _ & _ & Hsame & _).
    rewrite (Hsame (not_eq_sym Hne)) in Hth'. exists th; auto.
  Qed.

  Lemma quiet_stable i s s' : step_rel i s s' -> i <> c -> quiet s -> quiet s'.
  Proof.
    intros Hst Hne (tnew & Ht & Hq). exact (trace_ext_step (fun x => x <> c) Hst Hne Ht Hq).
  Qed.

  Lemma quiet_same s s' : trace s' = trace s -> quiet s -> quiet s'.
  Proof. intros E (tnew & Ht & Hq). exists tnew. rewrite E; auto. Qed.

  Lemma kids_lt s hs nts' h : kids s hs nts' -> In h hs -> h < List.length (pool s).
  Proof.
    intros (HF & _) Hin. destruct (Forall2_In_l _ _ _ _ HF Hin) as (nt & _ & th & Hth & _).
    eapply nth_error_Some_lt; eauto.
  Qed.

  Lemma joined_fin s hs bs h : joined s hs bs -> In h hs -> exists r b, fin s h r /\ post r = inl b.
  Proof.
    intros HF Hin. destruct (Forall2_In_l _ _ _ _ HF Hin) as (b & _ & r & Hf & Hp). eauto.
  Qed.

  Lemma joined_strict_returned s hs bs h :
    strict_post post -> joined s hs bs -> In h hs -> exists v, fin s h (Some v).
  Proof.
    intros [n Hn] Hj Hin. destruct (joined_fin _ _ _ _ Hj Hin) as ([v|] & b & Hf & Hp); [eauto|congruence].
  Qed.

  Lemma all_alive_inv s hs : all_alive s hs -> block_inv s hs.
  Proof.
    intros (Hk & Hcode & Hq). destruct hs as [|h todo].
    - destruct Hcode as (th & Hth & Hcode). destruct Hq as (tnew & Htr & Hqn).
      apply (BI_past s [] [] th [] tnew); auto.
      + constructor.
      + cbn in Hcode. rewrite Hcode. constructor.
    - apply (BI_joining s (h :: todo) [] [] h todo); auto. constructor.
  Qed.

  Lemma spawning_step i s s' hs :
    spawning s hs -> step_rel i s s' ->
    exists ext, spawning s' (hs ++ ext) \/ all_alive s' (hs ++ ext).
  Proof.
    intros (ntsd & nt & todo & Hnts & Hk & Hlen & Hcode & Hq) Hst.
    pose proof (step_length Hst) as Hlen'.
    destruct (Nat.eq_dec i c) as [->|Hne].
    2:{ exists []. rewrite app_nil_r. left. exists ntsd, nt, todo.
        split; [|split; [|split; [|split]]]; eauto using kids_stable, ccode_stable, quiet_stable, Nat.le_trans. }
    pose proof (kids_stable _ _ _ _ _ Hst Hk) as Hk'.
    destruct Hcode as (th & Hth & Hcode). cbn in Hcode.
    pose proof (spawn_step Hst Hth Hcode) as Es'.
    destruct (thr_upd_app _ s s' c th _ _ (f_equal pool Es') Hth) as (Hc1 & HL & _).
    set (L := List.length (pool s)) in *.
    assert (Hc' : ccode s' (spawn_all_acc todo (rev (hs ++ [L])) (fun hs' => join_all_acc post hs' [] K))).
    { eexists. split; [exact Hc1|]. cbn. now rewrite rev_unit. }
    assert (Hk2 : kids s' (hs ++ [L]) (ntsd ++ [nt])).
    { destruct Hk' as (HF & Hnd & Hge). split; [|split].
      - apply Forall2_snoc; [exact HF|]. eexists; split; [exact HL|]. cbn; auto.
      - apply NoDup_snoc; [exact Hnd|]. intros Hin.
        exact (Nat.lt_irrefl _ (kids_lt _ _ _ _ Hk Hin)).
      - intros h Hin. apply in_app_iff in Hin. destruct Hin as [Hin|[<-|[]]]; [auto|exact Hlen]. }
    assert (Hq' : quiet s') by (apply (quiet_same s); [now rewrite Es'|exact Hq]).
    exists [L]. destruct todo as [|nt' todo'].
    - (* that was the last spawn *)
      right. cbn in Hc'. rewrite rev_involutive in Hc'. split; [|split]; auto.
      rewrite Hnts. exact Hk2.
    - left. exists (ntsd ++ [nt]), nt', todo'.
      split; [|split; [|split; [|split]]]; eauto using Nat.le_trans.
      rewrite Hnts, <- app_assoc. reflexivity.
  Qed.

  (* by the case of the invariant, and in each case by who steps: a step of another thread keeps
     the case (the `_stable` lemmas: `kids`, `joined`, the caller's code and its silence are
     untouched); a step of the caller moves to the next case, as its code prescribes *)
  Lemma block_inv_step i s s' hs :
    block_inv s hs -> step_rel i s s' -> exists ext, block_inv s' (hs ++ ext).
  Proof.
    intros Hinv Hst.
    destruct Hinv as [Hsp
                     |done bs h todo Hk Hhs Hj Hcode Hq
                     |bs th tpost tpre Hk Hj Hth Hcd Htr Hpre Hpost
                     |done bs h todo r n Hk Hhs Hj Hf Hp Hcode Hq].
    - destruct (spawning_step _ _ _ _ Hsp Hst) as [ext [H|H]]; exists ext.
      + now apply BI_spawning.
      + now apply all_alive_inv.
    - exists []. rewrite app_nil_r.
      destruct (Nat.eq_dec i c) as [->|Hne].
      2:{ eapply BI_joining; eauto using kids_stable, joined_stable, ccode_stable, quiet_stable. }
      pose proof (kids_stable _ _ _ _ _ Hst Hk) as Hk'.
      pose proof (joined_stable _ _ _ _ _ Hst Hj) as Hj'.
      destruct Hcode as (th & Hth & Hcode). cbn in Hcode.
      destruct (join_step Hst Hth Hcode) as (r & Hfin & Es').
      destruct (thr_upd _ s s' c th _ (f_equal pool Es') Hth) as (Hthc & _).
      apply (step_fin_stable Hst) in Hfin.
      assert (Hq' : quiet s') by (apply (quiet_same s); [now rewrite Es'|exact Hq]).
      destruct (post r) as [b|n] eqn:Epost.
      * assert (Hj2 : joined s' (done ++ [h]) (bs ++ [b])).
        { apply Forall2_snoc; [exact Hj'|]. exists r; auto. }
        destruct todo as [|h' todo'].
        -- (* that was the last join: the caller leaves the block *)
           destruct Hq' as (tnew & Htr & Hqn).
           apply (BI_past s' hs (bs ++ [b]) (set_code th (K (bs ++ [b]))) [] tnew); auto.
           ++ rewrite Hhs. exact Hj2.
           ++ rewrite Hthc. cbn. now rewrite rev_involutive.
           ++ cbn. constructor.
        -- apply (BI_joining s' hs (done ++ [h]) (bs ++ [b]) h' todo'); auto.
           ++ rewrite Hhs, <- app_assoc. reflexivity.
           ++ eexists; split; [exact Hthc|]. cbn. now rewrite rev_unit.
      * apply (BI_failed s' hs done bs h todo r n); auto.
        eexists; split; [exact Hthc|]. reflexivity.
    - exists []. rewrite app_nil_r.
      pose proof (kids_stable _ _ _ _ _ Hst Hk) as Hk'.
      pose proof (joined_stable _ _ _ _ _ Hst Hj) as Hj'.
      destruct (thread_code_invariant (cdesc (K bs)) (cd_step (K bs)) Hst Hth Hcd) as (th' & Hth' & Hcd').
      assert (Hnot : ~ In i hs).
      { intros Hin. destruct (joined_fin _ _ _ _ Hj Hin) as (r & b & Hr & _). eapply step_not_fin; eauto. }
      destruct (trace_ext_step (fun x => ~ In x hs) Hst Hnot Htr Hpost) as (tpost' & Htr' & Hpost').
      apply (BI_past s' hs bs th' tpost' tpre); auto.
    - exists []. rewrite app_nil_r.
      destruct (Nat.eq_dec i c) as [->|Hne].
      + exfalso. destruct Hcode as (th & Hth & Hcode). apply (step_not_fin (r := None) Hst).
        exists th. split; [exact Hth|now rewrite Hcode].
      + eapply BI_failed; eauto using kids_stable, joined_stable, ccode_stable, quiet_stable, step_fin_stable.
  Qed.

  Lemma block_inv_run sched : forall s hs,
    block_inv s hs -> exists ext, block_inv (run_thr sched s) (hs ++ ext).
  Proof.
    intros s hs Hinv. apply (run_thr_invariant _ handle (fun s' => exists ext, block_inv s' (hs ++ ext))).
    - intros i s1 s2 [ext1 H1] Hst. destruct (block_inv_step _ _ _ _ H1 Hst) as [ext2 H2].
      exists (ext1 ++ ext2). now rewrite app_assoc.
    - exists []. now rewrite app_nil_r.
  Qed.

  Lemma kids_length s hs nts' : kids s hs nts' -> List.length hs = List.length nts'.
  Proof. intros (HF & _). eapply Forall2_len; eauto. Qed.

  Lemma quiet_no_entry s tnew x :
    quiet s -> trace s = tnew ++ trace s0 -> In x tnew -> fst x <> c.
  Proof.
    intros (tnew' & Ht & Hq) Ht' Hin. rewrite Ht in Ht'. apply app_inv_tail in Ht'. subst. auto.
  Qed.

  Lemma spawning_quiet s hs : spawning s hs -> quiet s.
  Proof. intros (? & ? & ? & _ & _ & _ & _ & Hq). exact Hq. Qed.

  Lemma ccode_fin s d r : ccode s d -> fin s c r -> outcome d = Some r.
  Proof. intros (th & Hth & <-) (th' & Hth' & Ho). congruence. Qed.

  Lemma block_inv_kids s hs : block_inv s hs -> kids s hs (firstn (List.length hs) nts).
  Proof.
    intros [Hsp|done bs h todo Hk _ _ _ _|bs th tpost tpre Hk _ _ _ _ _ _|done bs h todo r n Hk _ _ _ _ _ _];
      try (rewrite (kids_length _ _ _ Hk), firstn_all; exact Hk).
    destruct Hsp as (ntsd & nt & todo & Hnts & Hk & _).
    rewrite (kids_length _ _ _ Hk), Hnts, firstn_app, firstn_all, Nat.sub_diag. cbn. now rewrite app_nil_r.
  Qed.

  Lemma block_inv_quiet s hs :
    block_inv s hs ->
    quiet s \/
    exists bs tpost tpre, kids s hs nts /\ joined s hs bs /\ trace s = tpost ++ tpre ++ trace s0 /\
      (forall x, In x tpre -> fst x <> c) /\ (forall x, In x tpost -> ~ In (fst x) hs).
  Proof.
    intros [Hsp|done bs h todo _ _ _ _ Hq|bs th tpost tpre Hk Hj _ _ Htr Hpre Hpost|done bs h todo r n _ _ _ _ _ _ Hq];
      [left; eapply spawning_quiet; eauto|now left|right|now left].
    exists bs, tpost, tpre. auto.
  Qed.

  Lemma block_inv_fin s hs r :
    block_inv s hs -> fin s c r ->
    kids s hs nts /\
    ((exists bs, joined s hs bs) \/
     exists done bs h todo r' n, hs = done ++ h :: todo /\ joined s done bs /\ fin s h r' /\ post r' = inr n /\
                                 ccode s (Panic n) /\ r = None).
  Proof.
    intros [Hsp|done bs h todo Hk Hhs Hj Hcode Hq|bs th tpost tpre Hk Hj _ _ _ _ _|done bs h todo r' n Hk Hhs Hj Hf Hp Hcode Hq] Hfin.
    - destruct Hsp as (? & ? & ? & _ & _ & _ & Hcode & _). discriminate (ccode_fin _ _ _ Hcode Hfin).
    - discriminate (ccode_fin _ _ _ Hcode Hfin).
    - eauto.
    - pose proof (ccode_fin _ _ _ Hcode Hfin) as E. injection E as <-.
      split; [exact Hk|right]. exists done, bs, h, todo, r', n. auto 10.
  Qed.

  Lemma block_inv_caller s hs : block_inv s hs -> exists th, thr s c = Some th.
  Proof.
    intros [Hsp|? ? ? ? _ _ _ (th & Hth & _) _|? th ? ? _ _ Hth|? ? ? ? ? ? _ _ _ _ _ (th & Hth & _) _]; eauto.
    destruct Hsp as (? & ? & ? & _ & _ & _ & (th & Hth & _) & _). eauto.
  Qed.

  Hypothesis Hc0 : ccode s0 (gblock post nts K).

  Lemma block_start : spawning s0 [] \/ all_alive s0 [].
  Proof.
    assert (Hk : forall l, l = [] -> kids s0 [] l).
    { intros l ->. split; [constructor|]. split; [constructor|]. intros h []. }
    assert (Hq : quiet s0) by (exists []; split; [reflexivity|intros x []]).
    unfold gblock in Hc0. destruct nts as [|nt todo] eqn:En.
    - right. split; [|split]; auto.
    - left. exists [], nt, todo. split; [|split; [|split; [|split]]]; auto.
  Qed.

  Lemma block_inv_init : block_inv s0 [].
  Proof. destruct block_start as [H|H]; [now apply BI_spawning|now apply all_alive_inv]. Qed.

  (* (a) THE BARRIER, state form: under EVERY schedule, in every
     reachable state, the caller is spawning, or joining, or has failed in a join, or - only with
     ALL n children finished - is past the block. *)
  Theorem spawn_all_join_all sched : exists hs, block_inv (run_thr sched s0) hs.
  Proof. destruct (block_inv_run sched _ _ block_inv_init) as [ext H]. now exists ([] ++ ext). Qed.

  (* (a) the caller makes an event (it "executes a part of K": the block itself is silent)
     only if all n children are finished *)
  Theorem barrier_events sched :
    let s := run_thr sched s0 in
    forall tnew x, trace s = tnew ++ trace s0 -> In x tnew -> fst x = c ->
    exists hs bs, kids s hs nts /\ joined s hs bs.
  Proof.
    intros s tnew x Htr Hin Hx. destruct (spawn_all_join_all sched) as [hs Hinv]. fold s in Hinv.
    destruct (block_inv_quiet _ _ Hinv) as [Hq|(bs & _ & _ & Hk & Hj & _)]; [|eauto].
    exfalso. eapply quiet_no_entry; eauto.
  Qed.

  (* (a) the caller is finished only if all n children are finished, or a join failed *)
  Theorem barrier_finished sched :
    let s := run_thr sched s0 in
    forall r, fin s c r ->
    exists hs, (exists bs, kids s hs nts /\ joined s hs bs) \/
               (exists done h todo r' n, hs = done ++ h :: todo /\ kids s hs nts /\
                                         fin s h r' /\ post r' = inr n /\ r = None).
  Proof.
    intros s r Hfin. destruct (spawn_all_join_all sched) as [hs Hinv]. fold s in Hinv. exists hs.
    destruct (block_inv_fin _ _ _ Hinv Hfin) as [Hk [[bs Hj]|(done & bs & h & todo & r' & n & Hhs & _ & Hf & Hp & _ & ->)]];
      [left; eauto|right].
    exists done, h, todo, r', n. auto.
  Qed.

  (* (a) THE BARRIER, trace form.  The trace is most recent first.  In every reachable state the
     new part of the trace splits into an older part [tpre] without any entry of the caller and a
     more recent part [tpost] without any entry of a child: every entry made by a child precedes
     every entry the caller makes after s0 (= after the block, which is silent). *)
  Theorem barrier_trace sched :
    let s := run_thr sched s0 in
    exists hs tpost tpre,
      kids s hs (firstn (List.length hs) nts) /\
      trace s = tpost ++ tpre ++ trace s0 /\
      (forall x, In x tpre -> fst x <> c) /\
      (forall x, In x tpost -> ~ In (fst x) hs).
  Proof.
    intros s. destruct (spawn_all_join_all sched) as [hs Hinv]. fold s in Hinv. exists hs.
    pose proof (block_inv_kids _ _ Hinv) as Hk.
    destruct (block_inv_quiet _ _ Hinv) as [(tnew & Ht & Hq)|(bs & tpost & tpre & _ & _ & H)].
    - exists [], tnew. split; [exact Hk|]. split; [exact Ht|]. split; [exact Hq|intros x []].
    - exists tpost, tpre. auto.
  Qed.

  (* the same by positions in the trace (position 0 = the most recent entry): an entry of the
     caller made after s0 is more recent than any entry of any child *)
  Corollary barrier_trace_positions sched :
    let s := run_thr sched s0 in
    exists hs, kids s hs (firstn (List.length hs) nts) /\
    forall i j x y,
      nth_error (trace s) i = Some x -> fst x = c ->
      i < List.length (trace s) - List.length (trace s0) ->
      nth_error (trace s) j = Some y -> In (fst y) hs ->
      i < j.
  Proof.
    intros s. destruct (barrier_trace sched) as (hs & tpost & tpre & Hk & Htr & Hpre & Hpost).
    fold s in Hk, Htr. exists hs. split; [exact Hk|].
    intros i j x y Hi Hx Hnew Hj Hy. rewrite Htr in Hi, Hj, Hnew.
    rewrite !app_length in Hnew.
    destruct (Nat.lt_ge_cases i (List.length tpost)) as [Hlt|Hge].
    - destruct (Nat.lt_ge_cases j (List.length tpost)) as [Hjlt|Hjge]; [|lia].
      exfalso. rewrite nth_error_app1 in Hj by exact Hjlt.
      apply nth_error_In in Hj. exact (Hpost _ Hj Hy).
    - exfalso. rewrite nth_error_app2 in Hi by exact Hge.
      rewrite nth_error_app1 in Hi by lia. apply nth_error_In in Hi. exact (Hpre _ Hi Hx).
  Qed.

  Lemma block_inv_length s hs : block_inv s hs -> List.length hs <= List.length nts.
  Proof. intros H. rewrite (kids_length _ _ _ (block_inv_kids _ _ H)), firstn_length. lia. Qed.

  (* (d) EVERY schedule that takes the caller beyond its last spawn passes through a state in which
     all n children exist at once - n distinct threads with the given names - while the caller has
     not yet joined (waited for) any of them. *)
  Theorem all_alive_at_once sched :
    (exists hs, spawning (run_thr sched s0) hs) \/
    (exists sched1 sched2 hs, sched = sched1 ++ sched2 /\ all_alive (run_thr sched1 s0) hs).
  Proof.
    induction sched as [|i sched IH] using rev_ind.
    - cbn. destruct block_start as [H|H]; [left; eauto|right]. exists [], [], []. auto.
    - destruct IH as [[hs Hsp]|(sched1 & sched2 & hs & -> & Hal)].
      + rewrite run_thr_app. cbn.
        destruct (step_or_skip_cases _ handle i (run_thr sched s0)) as [[_ ->]|Hst]; [left; eauto|].
        destruct (spawning_step _ _ _ _ Hsp Hst) as [ext [H|H]]; [left; eauto|].
        right. exists (sched ++ [i]), [], (hs ++ ext). rewrite app_nil_r. split; [reflexivity|].
        now rewrite run_thr_app.
      + right. exists sched1, (sched2 ++ [i]), hs. split; [now rewrite app_assoc|exact Hal].
  Qed.

  (* ... and these children are the ones every later state knows: the list of children of a later
     state extends the one of an earlier state *)
  Theorem children_persist sched1 sched2 hs1 :
    block_inv (run_thr sched1 s0) hs1 ->
    exists ext, block_inv (run_thr (sched1 ++ sched2) s0) (hs1 ++ ext).
  Proof. intros H. rewrite run_thr_app. now apply block_inv_run. Qed.
End BlockInv.

Local Arguments kids_stable {wstate handle s0 c i s s' hs nts'}.
Local Arguments kids_lt {wstate s0 c s hs nts' h}.
Local Arguments kids_length {wstate s0 c s hs nts'}.
Local Arguments joined_stable {wstate handle B post i s s' hs bs}.
Local Arguments joined_fin {wstate B post s hs bs h}.
Local Arguments joined_strict_returned {wstate B post s hs bs h}.
Local Arguments block_inv_fin {wstate B post nts K s0 c s hs r}.
Local Arguments block_inv_quiet {wstate B post nts K s0 c s hs}.
Local Arguments block_inv_caller {wstate B post nts K s0 c s hs}.

Print Assumptions spawn_all_join_all.
Print Assumptions barrier_events.
Print Assumptions barrier_finished.
Print Assumptions barrier_trace.
Print Assumptions barrier_trace_positions.
Print Assumptions all_alive_at_once.
Print Assumptions children_persist.

(** * 4'. (b) with an explicit fuel bound, from a numeric measure *)

(* [size_le c n]: along every path (whatever the world answers, whatever handles come back) c makes
   at most n steps, the steps of the threads it spawns included *)
Inductive size_le : comp val -> nat -> Prop :=
| sz_ret v n : size_le (Ret v) n
| sz_panic w n : size_le (Panic w) n
| sz_vis e k n : (forall v, size_le (k v) n) -> size_le (Vis e k) (S n)
| sz_spawn name t k a b : size_le t a -> (forall h, size_le (k h) b) -> size_le (Spawn name t k) (S (a + b))
| sz_join h k n : (forall r, size_le (k r) n) -> size_le (Join h k) (S n).

Lemma size_le_plus c n : size_le c n -> forall d, size_le c (n + d).
Proof.
  induction 1 as [v n|w n|e k n Hk IH|name t k a b Ht IHt Hk IH|h k n Hk IH]; intros d; cbn [Nat.add].
  - constructor.
  - constructor.
  - constructor. intros v. apply IH.
  - rewrite <- Nat.add_assoc. constructor; [exact Ht|]. intros h. apply IH.
  - constructor. intros r. apply IH.
Qed.

Lemma size_le_mono c n : size_le c n -> forall m, n <= m -> size_le c m.
Proof. intros H m Hm. rewrite <- (Nat.sub_add n m Hm), Nat.add_comm. now apply size_le_plus. Qed.

Lemma size_le_inv c a :
  size_le c a ->
  match c with
  | Vis e k => exists n, a = S n /\ forall v, size_le (k v) n
  | Spawn name t k => exists x y, a = S (x + y) /\ size_le t x /\ forall h, size_le (k h) y
  | Join h k => exists n, a = S n /\ forall r, size_le (k r) n
  | Ret _ | Panic _ => True
  end.
Proof. destruct 1; eauto. Qed.

Lemma size_le_join_all {B} (post : option val -> B + N) K b hs : forall acc,
  (forall bs, size_le (K bs) b) -> size_le (join_all_acc post hs acc K) (List.length hs + b).
Proof.
  induction hs as [|h r IH]; intros acc HK; cbn; [apply HK|].
  constructor. intros x. destruct (post x); [now apply IH|constructor].
Qed.

(* the measure of a block: its children, one step per spawn and per join, its continuation *)
Lemma size_le_gblock {B} (post : option val -> B + N) nts K szs b :
  Forall2 (fun nt a => size_le (snd nt) a) nts szs -> (forall bs, size_le (K bs) b) ->
  size_le (gblock post nts K) (list_sum szs + 2 * List.length nts + b).
Proof.
  intros HF HK. unfold gblock.
  (* the list of handles has the length of nts: generalise over it *)
  assert (H : forall todo szs' acc, Forall2 (fun nt a => size_le (snd nt) a) todo szs' ->
            List.length acc + List.length todo = List.length nts ->
            size_le (spawn_all_acc todo acc (fun hs => join_all_acc post hs [] K))
                    (list_sum szs' + List.length todo + (List.length nts + b))).
  { induction todo as [|nt r IH]; intros szs' acc HF' Hlen; inversion HF' as [|? a ? szs'' Ha HF'']; subst.
    - cbn. rewrite <- Hlen, Nat.add_0_r, <- rev_length. now apply size_le_join_all.
    - cbn [spawn_all_acc]. change (list_sum (a :: szs'')) with (a + list_sum szs'').
      eapply (size_le_mono _ (S (a + (list_sum szs'' + List.length r + (List.length nts + b)))));
        [|cbn [List.length]; lia].
      constructor; [exact Ha|]. intros h. apply IH; [exact HF''|]. cbn in *. lia. }
  eapply size_le_mono; [apply (H nts szs [] HF eq_refl)|]. lia.
Qed.

Section Fuel.
  Variable wstate : Type.
  Variable handle : option string -> ev -> wstate -> option val * wstate.
  Notation state := (state wstate).
  Notation run_fuel := (run_fuel handle).
  Notation round := (round handle).
  Notation step_rel := (step_rel wstate handle).
  Notation sstep := (sstep wstate handle).

  Definition pool_size_le (s : state) (N : nat) : Prop :=
    exists ns, Forall2 size_le (map th_code (pool s)) ns /\ list_sum ns <= N.

  Lemma size_step i s s' N :
    step_rel i s s' -> pool_size_le s N -> exists M, N = S M /\ pool_size_le s' M.
  Proof.
    intros Hst (ns & HF & Hsum). destruct (step_split Hst) as (l1 & th & l2 & c' & new & Hp & Hp' & H).
    rewrite Hp, map_app in HF. cbn [map] in HF.
    apply Forall2_app_inv_l in HF. destruct HF as (n1 & n2' & HF1 & HF2 & ->).
    inversion HF2 as [|? a ? n2 Ha HF2']; subst. rewrite list_sum_app in Hsum.
    change (list_sum (a :: n2)) with (a + list_sum n2) in Hsum.
    (* the running thread's tree loses its root: what is left of it and what it spawned are smaller *)
    assert (Hgoal : forall a' nn, size_le c' a' -> Forall2 size_le (map th_code new) nn ->
                      S (a' + list_sum nn) <= a -> exists M, N = S M /\ pool_size_le s' M).
    { intros a' nn Hc' Hn Hle. exists (N - 1). split; [lia|]. exists (n1 ++ a' :: n2 ++ nn).
      rewrite Hp', map_app. cbn [map th_code set_code]. rewrite map_app. split.
      - apply Forall2_app; [exact HF1|]. constructor; [exact Hc'|]. now apply Forall2_app.
      - rewrite list_sum_app. change (list_sum (a' :: n2 ++ nn)) with (a' + list_sum (n2 ++ nn)).
        rewrite list_sum_app. lia. }
    pose proof (size_le_inv _ _ Ha) as Hi.
    destruct (th_code th) as [v|n|e k|name t k|h k]; try contradiction.
    - destruct H as [[r ->] ->]. destruct Hi as (a' & -> & Hk).
      apply (Hgoal a' []); [destruct r; cbn; [apply Hk|constructor]|constructor|cbn; lia].
    - destruct H as [-> ->]. destruct Hi as (x & y & -> & Ht & Hk).
      apply (Hgoal y [x]); [apply Hk|repeat constructor; exact Ht|cbn; lia].
    - destruct H as [[r ->] ->]. destruct Hi as (a' & -> & Hk).
      apply (Hgoal a' []); [apply Hk|constructor|cbn; lia].
  Qed.

  (* every step costs at least one *)
  Lemma size_steps s s' :
    clos_trans _ sstep s' s -> forall N, pool_size_le s N -> exists M, N = S M /\ pool_size_le s' M.
  Proof.
    induction 1 as [x y [i Hst]|x y z _ IHxy _ IHyz]; intros N Hs; [eapply size_step; eauto|].
    destruct (IHyz N Hs) as (M & -> & Hy). destruct (IHxy M Hy) as (M' & -> & ns & HF & Hsum).
    exists (S M'). split; [reflexivity|]. exists ns. split; [exact HF|lia].
  Qed.

  (* (b) with an explicit bound: if the trees of the pool make at most N steps altogether, the fair
     round-robin with fuel N ends with every thread finished *)
  Theorem fair_schedule_finishes_within N : forall s,
    ws_state _ s -> pool_size_le s N -> finished (run_fuel N s) = true.
  Proof.
    induction N as [|N IH]; intros s Hws Hsz.
    - cbn. destruct (finished s) eqn:Ef; [reflexivity|].
      destruct (size_steps _ _ (round_progress _ handle s Hws Ef) _ Hsz) as (M & E & _). discriminate.
    - cbn. destruct (finished s) eqn:Ef; [exact Ef|].
      destruct (size_steps _ _ (round_progress _ handle s Hws Ef) _ Hsz) as (M & E & HM). injection E as <-.
      apply IH; [now apply ws_reachable|exact HM].
  Qed.
End Fuel.

Print Assumptions fair_schedule_finishes_within.

(** * 5. Blocks: algebra, well-scopedness, the shape of the generated step *)

Lemma bind_join_all_acc {B} (post : option val -> B + N) hs : forall acc K (f : val -> comp val),
  bind (join_all_acc post hs acc K) f = join_all_acc post hs acc (fun bs => bind (K bs) f).
Proof.
  induction hs as [|h r IH]; intros acc K f; cbn; [reflexivity|].
  f_equal. extensionality x. destruct (post x); [apply IH|reflexivity].
Qed.

Lemma bind_spawn_all_acc nts : forall acc k (f : val -> comp val),
  bind (spawn_all_acc nts acc k) f = spawn_all_acc nts acc (fun hs => bind (k hs) f).
Proof.
  induction nts as [|nt r IH]; intros acc k f; cbn; [reflexivity|].
  f_equal. extensionality h. apply IH.
Qed.

(* a block followed by more code is a block with a longer continuation *)
Lemma bind_gblock {B} (post : option val -> B + N) nts K (f : val -> comp val) :
  bind (gblock post nts K) f = gblock post nts (fun bs => bind (K bs) f).
Proof.
  unfold gblock. rewrite bind_spawn_all_acc. f_equal. extensionality hs. apply bind_join_all_acc.
Qed.

Lemma bind_block names ts K (f : val -> comp val) :
  bind (block names ts K) f = block names ts (fun rs => bind (K rs) f).
Proof. apply bind_gblock. Qed.

Lemma ws_join_all_acc {B} (post : option val -> B + N) hs : forall acc K H,
  incl hs H -> (forall bs, ws (K bs) H) -> ws (join_all_acc post hs acc K) H.
Proof.
  induction hs as [|h r IH]; intros acc K H Hi HK; cbn; [apply HK|].
  split; [apply Hi; now left|]. intros x. destruct (post x); cbn; auto.
  apply IH; auto. intros y Hy. apply Hi. now right.
Qed.

Lemma ws_spawn_all_acc nts : forall acc k H,
  Forall (fun nt => ws (snd nt) []) nts ->
  (forall hs H', incl H H' -> incl hs H' -> ws (k hs) H') ->
  incl acc H ->
  ws (spawn_all_acc nts acc k) H.
Proof.
  induction nts as [|nt r IH]; intros acc k H Hts Hk Hacc; cbn.
  - apply Hk; [apply incl_refl|]. intros x Hx. apply Hacc. now apply in_rev.
  - split; [exact (Forall_inv Hts)|]. intros h. apply IH; [exact (Forall_inv_tail Hts)| |].
    + intros hs H' Hi Hhs. apply Hk; auto. intros x Hx. apply Hi. now right.
    + intros x [->|Hx]; [now left|right; auto].
Qed.

Theorem ws_gblock {B} (post : option val -> B + N) nts K H :
  Forall (fun nt => ws (snd nt) []) nts -> (forall bs, ws (K bs) H) -> ws (gblock post nts K) H.
Proof.
  intros Hts HK. apply ws_spawn_all_acc.
  - exact Hts.
  - intros hs H' Hi Hhs. apply ws_join_all_acc; [exact Hhs|].
    intros bs. apply (ws_mono _ H H' Hi). apply HK.
  - intros x [].
Qed.

Corollary ws_block names ts K H :
  Forall (fun t => ws t []) ts -> (forall rs, ws (K rs) H) -> ws (block names ts K) H.
Proof.
  intros Hts HK. apply ws_gblock; auto.
  revert names. induction Hts as [|t ts Ht Hts IH]; intros [|n names]; cbn; constructor; auto.
Qed.

(** ** The generated code of a step with n > 1 active branches of a spawn kind
       (transcribed from Spec.step_result, the `is_spawn cfg && multi` branch) is a block *)

Definition vals_tuple (ds : list dval) : comp dval :=
  match all_vals ds with Some vs => Ret (DV (VTuple vs)) | None => Panic P_ILLTYPED end.

Definition std_spawn_one (child : nat -> comp val) (nb : dval * nat) : comp dval :=
  match fst nb with
  | DBuilder name => let! h := std_spawn name (fun _ => child (snd nb)) in std_unwrap h
  | _ => Panic P_ILLTYPED
  end.
Definition std_join_one (h : val) : comp val :=
  match h with
  | VHandle i => let! r := std_join i in let! u := std_unwrap r in to_val u
  | _ => Panic P_ILLTYPED
  end.

(* after the builders and the captures: spawn one thread per branch (unwrap), join each in branch
   order (unwrap), deliver the tuple *)
Definition std_spawn_join (builders : list dval) (acts : list nat) (child : nat -> comp val) : comp dval :=
  let! handles := mapM (std_spawn_one child) (combine builders acts) in
  let! hs := vals_tuple handles in
  let! vs := mapM std_join_one (match hs with DV (VTuple l) => l | _ => [] end) in
  Ret (DV (VTuple vs)).

(* the whole step: builders first (each reads the current thread's name), then the captures *)
Definition std_thread_step {C} (acts : list nat) (caps : comp C) (child : C -> nat -> comp val) : comp dval :=
  let! builders := mapM (fun b => thread_builder (Z.of_nat b)) acts in
  let! cp := caps in
  std_spawn_join builders acts (child cp).

Lemma std_join_all_is_join_all hs : forall acc (g : list val -> comp val),
  bind (mapM std_join_one (map VHandle hs)) (fun vs => g (rev acc ++ vs)) =
  join_all_acc unwrap_post hs acc g.
Proof.
  induction hs as [|h r IH]; intros acc g; cbn.
  - now rewrite app_nil_r.
  - f_equal. extensionality x. destruct x as [v|]; cbn; [|reflexivity].
    rewrite bind_assoc. rewrite <- IH. apply bind_ext. intros vs. cbn.
    now rewrite <- app_assoc.
Qed.

Lemma std_spawn_all_is_spawn_all (child : nat -> comp val) names acts :
  forall acc (g : list dval -> comp val),
  bind (mapM (std_spawn_one child) (combine (map DBuilder names) acts))
       (fun ds => g (map (fun h => DV (VHandle h)) (rev acc) ++ ds)) =
  spawn_all_acc (combine names (map child acts)) acc (fun hs => g (map (fun h => DV (VHandle h)) hs)).
Proof.
  revert acts. induction names as [|n names IH]; intros [|a acts] acc g; cbn; try (now rewrite app_nil_r).
  f_equal. extensionality h. rewrite bind_assoc.
  rewrite <- (IH acts (h :: acc) g).
  apply bind_ext. intros ds. cbn. rewrite map_app, <- app_assoc. reflexivity.
Qed.

Lemma all_vals_handles hs : all_vals (map (fun h => DV (VHandle h)) hs) = Some (map VHandle hs).
Proof. induction hs as [|h r IH]; cbn; [reflexivity|now rewrite IH]. Qed.

(* THE GENERATED SHAPE IS A BLOCK (with `.join().unwrap()` as post-processing); when the two
   lists differ in length, `combine` cuts both sides to the shorter one *)
Theorem std_spawn_join_is_ublock' names acts (child : nat -> comp val) (f : dval -> comp val) :
  bind (std_spawn_join (map DBuilder names) acts child) f =
  ublock names (map child acts) (fun vs => f (DV (VTuple vs))).
Proof.
  unfold std_spawn_join, ublock, gblock.
  rewrite bind_assoc.
  pose proof (std_spawn_all_is_spawn_all child names acts []
                (fun ds => bind (let! hs := vals_tuple ds in
                                 let! vs := mapM std_join_one (match hs with DV (VTuple l) => l | _ => [] end) in
                                 Ret (DV (VTuple vs))) f)) as H.
  cbn [rev map app] in H. rewrite H. f_equal. extensionality hs.
  unfold vals_tuple. rewrite all_vals_handles. cbn [bind].
  rewrite bind_assoc.
  pose proof (std_join_all_is_join_all hs [] (fun vs => f (DV (VTuple vs)))) as H2.
  cbn [rev app] in H2. exact H2.
Qed.

Theorem std_spawn_join_is_ublock names acts (child : nat -> comp val) (f : dval -> comp val) :
  List.length names = List.length acts ->
  bind (std_spawn_join (map DBuilder names) acts child) f =
  ublock names (map child acts) (fun vs => f (DV (VTuple vs))).
Proof. intros _. apply std_spawn_join_is_ublock'. Qed.

(** * 6. (c) Panic propagation through `.join().unwrap()` *)

Section Panic.
  Variable wstate : Type.
  Variable handle : option string -> ev -> wstate -> option val * wstate.
  Notation state := (state wstate).
  Notation run_thr := (run_thr handle).
  Notation fin := (fin wstate).

  Variable nts : list (string * comp val).
  Variable K : list val -> comp val.
  Variable s0 : state.
  Variable c : nat.
  Hypothesis Hc0 : ccode wstate c s0 (gblock unwrap_post nts K).

  Notation binv := (block_inv wstate unwrap_post nts K s0 c).
  Notation quiet := (quiet wstate s0 c).
  Notation ccode := (ccode wstate c).

  Lemma unwrap_post_inl r b : unwrap_post r = inl b -> r = Some b.
  Proof. destruct r; cbn; congruence. Qed.
  Lemma unwrap_post_inr r n : unwrap_post r = inr n -> r = None /\ n = P_UNWRAP.
  Proof. destruct r; cbn; [discriminate|]. intros H; injection H as <-. auto. Qed.

  Lemma panic_state s hs h :
    binv s hs -> In h hs -> fin s h None ->
    quiet s /\
    forall r, fin s c r ->
      r = None /\ ccode s (Panic P_UNWRAP) /\
      exists done h1 todo, hs = done ++ h1 :: todo /\ fin s h1 None /\
                           forall d, In d done -> exists v, fin s d (Some v).
  Proof.
    intros Hinv Hin Hpan.
    assert (Hnj : forall bs, joined wstate unwrap_post s hs bs -> False).
    { intros bs Hj. destruct (joined_strict_returned unwrap_post_strict Hj Hin) as [v Hv].
      pose proof (fin_inj Hv Hpan). discriminate. }
    split.
    - destruct (block_inv_quiet Hinv) as [Hq|(bs & _ & _ & _ & Hj & _)]; [exact Hq|destruct (Hnj _ Hj)].
    - intros r Hfin.
      destruct (block_inv_fin Hinv Hfin)
        as [_ [[bs Hj]|(done & bs & h1 & todo & r' & n & Hhs & Hj & Hf & Hp & Hcode & ->)]]; [destruct (Hnj _ Hj)|].
      apply unwrap_post_inr in Hp. destruct Hp as [-> ->].
      split; [reflexivity|]. split; [exact Hcode|].
      exists done, h1, todo. split; [exact Hhs|]. split; [exact Hf|].
      intros d Hd. exact (joined_strict_returned unwrap_post_strict Hj Hd).
  Qed.

  (* (c) PANIC PROPAGATION.  Once a child of the block has ended in `Panic` (state reached by
     sched1), then under EVERY continuation sched2: the caller makes no event - no event of K
     ever occurs -, and if the caller is finished, it is finished with `Panic P_UNWRAP`, having
     joined exactly the children before the first panicked one h1, all of which had returned.
     What the model gives for the children AFTER h1: nothing - they are never waited for
     (see the examples ExPanic.unwaited_child_1/2 below). *)
  Theorem panic_propagation sched1 hs1 h :
    binv (run_thr sched1 s0) hs1 -> In h hs1 -> fin (run_thr sched1 s0) h None ->
    forall sched2, let s := run_thr (sched1 ++ sched2) s0 in
    quiet s /\
    forall r, fin s c r ->
      r = None /\ ccode s (Panic P_UNWRAP) /\
      exists hs done h1 todo, hs = done ++ h1 :: todo /\ kids wstate s0 c s hs nts /\
                              fin s h1 None /\ forall d, In d done -> exists v, fin s d (Some v).
  Proof.
    intros Hinv Hin Hpan sched2 s.
    destruct (children_persist _ handle _ _ _ _ _ sched1 sched2 hs1 Hinv) as [ext Hinv2]. fold s in Hinv2.
    assert (Hpan2 : fin s h None).
    { unfold s. rewrite run_thr_app. now apply run_thr_fin_stable. }
    destruct (panic_state s (hs1 ++ ext) h Hinv2 (in_or_app _ _ _ (or_introl Hin)) Hpan2) as [Hq Hr].
    split; [exact Hq|]. intros r Hfin. destruct (Hr r Hfin) as (-> & Hcode & done & h1 & todo & Hhs & Hf1 & Hd).
    split; [reflexivity|]. split; [exact Hcode|]. exists (hs1 ++ ext), done, h1, todo.
    split; [exact Hhs|]. split; [|split; [exact Hf1|exact Hd]].
    apply (block_inv_fin Hinv2 Hfin).
  Qed.

  (* with a complete schedule (every thread finished, e.g. the fair round-robin of theorem
     [fair_schedule_finishes]): the caller HAS ended in `Panic P_UNWRAP`, silently *)
  Corollary caller_ends_in_unwrap_panic sched hs h :
    let s := run_thr sched s0 in
    binv s hs -> In h hs -> fin s h None -> finished s = true ->
    ccode s (Panic P_UNWRAP) /\ quiet s.
  Proof.
    intros s Hinv Hin Hpan Hfin.
    destruct (panic_state s hs h Hinv Hin Hpan) as [Hq Hr]. split; [|exact Hq].
    destruct (block_inv_caller Hinv) as [th Hth]. rewrite finished_iff in Hfin.
    destruct (outcome (th_code th)) as [r|] eqn:Eo.
    - destruct (Hr r) as (_ & Hcode & _); [exists th; auto|exact Hcode].
    - exfalso. apply (Hfin c). exists th; auto.
  Qed.

  (* the converse reading: the caller gets past the block only if every child RETURNED *)
  Theorem past_block_all_returned sched :
    let s := run_thr sched s0 in
    forall tnew x, trace s = tnew ++ trace s0 -> In x tnew -> fst x = c ->
    exists hs vs, kids wstate s0 c s hs nts /\ Forall2 (fun h v => fin s h (Some v)) hs vs.
  Proof.
    intros s tnew x Htr Hin Hx.
    destruct (barrier_events _ handle _ _ _ _ _ Hc0 sched tnew x Htr Hin Hx) as (hs & bs & Hk & Hj).
    exists hs, bs. split; [exact Hk|]. eapply Forall2_impl'; [|exact Hj].
    cbn. intros h b (r & Hf & Hp). apply unwrap_post_inl in Hp. now subst.
  Qed.
End Panic.

(** * 7. The block without post-processing (post = inl): no failure case *)

Section PlainBlock.
  Variable wstate : Type.
  Variable handle : option string -> ev -> wstate -> option val * wstate.
  Notation state := (state wstate).
  Notation run_thr := (run_thr handle).
  Notation fin := (fin wstate).

  Variable names : list string.
  Variable ts : list (comp val).
  Variable K : list (option val) -> comp val.
  Variable s0 : state.
  Variable c : nat.
  Hypothesis Hlen : List.length names = List.length ts.
  Hypothesis Hc0 : ccode wstate c s0 (block names ts K).

  (* the children hs are n distinct new threads, named as given, spawned by c, ALL finished,
     and rs are their outcomes *)
  Definition all_children_finished (s : state) (hs : list nat) (rs : list (option val)) : Prop :=
    kids wstate s0 c s hs (combine names ts) /\ List.length hs = List.length ts /\
    Forall2 (fun h r => fin s h r) hs rs.

  (* (a) `spawn_all_join_all` for `block names ts K`: in every state reachable under every schedule,
     EITHER the caller is still inside the block - its code has a `Spawn` or `Join` at its head and
     it has made no event since s0 - OR all n children are finished and the caller runs what is
     left of K [r_1 .. r_n], r_i the outcome of child i. *)
  Theorem block_barrier_nolen sched :
    let s := run_thr sched s0 in
    (exists th, thr_of _ s c = Some th /\ quiet wstate s0 c s /\
                ((exists n t k, th_code th = Spawn n t k) \/ (exists h k, th_code th = Join h k))) \/
    (exists hs rs th, (kids wstate s0 c s hs (combine names ts) /\ Forall2 (fun h r => fin s h r) hs rs) /\
                      thr_of _ s c = Some th /\ cdesc (K rs) (th_code th)).
  Proof.
    intros s. destruct (spawn_all_join_all _ handle _ _ _ _ _ Hc0 sched) as [hs Hinv]. fold s in Hinv.
    destruct Hinv as [Hsp
                     |done bs h1 todo Hk Hhs Hj Hcode Hq
                     |bs th tpost tpre Hk Hj Hth Hcd Htr' Hpre Hpost
                     |done bs h1 todo r' n Hk Hhs Hj Hf Hp Hcode Hq].
    - left. destruct Hsp as (? & nt & ? & _ & _ & _ & (th & Hth & Hcode) & Hq).
      exists th. split; [exact Hth|]. split; [exact Hq|]. left. rewrite Hcode. cbn. eauto.
    - left. destruct Hcode as (th & Hth & Hcode).
      exists th. split; [exact Hth|]. split; [exact Hq|]. right. rewrite Hcode. cbn. eauto.
    - right. exists hs, bs, th. split; [|auto]. split; [exact Hk|].
      eapply Forall2_impl'; [|exact Hj]. cbn. intros h b (r & Hf & Hp). now injection Hp as <-.
    - discriminate.
  Qed.

  (* with as many names as bodies, there are as many children as bodies *)
  Theorem block_barrier sched :
    let s := run_thr sched s0 in
    (exists th, thr_of _ s c = Some th /\ quiet wstate s0 c s /\
                ((exists n t k, th_code th = Spawn n t k) \/ (exists h k, th_code th = Join h k))) \/
    (exists hs rs th, all_children_finished s hs rs /\ thr_of _ s c = Some th /\ cdesc (K rs) (th_code th)).
  Proof.
    intros s. destruct (block_barrier_nolen sched) as [H|(hs & rs & th & [Hk Hf] & H)]; [left; exact H|right].
    exists hs, rs, th. split; [|exact H]. split; [exact Hk|]. split; [|exact Hf].
    rewrite (kids_length Hk), combine_length, Hlen. apply Nat.min_id.
  Qed.
End PlainBlock.

Print Assumptions bind_gblock.
Print Assumptions ws_gblock.
Print Assumptions std_spawn_join_is_ublock.
Print Assumptions panic_propagation.
Print Assumptions caller_ends_in_unwrap_panic.
Print Assumptions past_block_all_returned.
Print Assumptions block_barrier.

Module ExBlock.
  (* a world with ONE shared counter: every event bumps it, a call of closure n answers n + counter,
     closure 13 panics.  (Threads do communicate through this world: results depend on the schedule.) *)
  Definition w_handle (nm : option string) (e : ev) (w : nat) : option val * nat :=
    match e with
    | ECall (VOpq 13) _ => (None, S w)
    | ECall (VOpq n) _ => (Some (VInt (n + Z.of_nat w)), S w)
    | _ => (Some VUnit, S w)
    end.

  Definition call (n : Z) (k : val -> comp val) : comp val := Vis (ECall (VOpq n) []) k.
  (* a child: two calls, returns the first answer *)
  Definition child (n : Z) : comp val := call n (fun v => call (n + 100) (fun _ => Ret v)).

  Definition K3 (rs : list (option val)) : comp val :=
    call 7 (fun v => Ret (VTuple (v :: map (fun r => match r with Some x => VSome x | None => VNone end) rs))).
  Definition prog3 : comp val := block ["a"; "b"; "c"] [child 1; child 2; child 3] K3.

  Definition s3 := init None prog3 0.

  (* the caller spawns (3 steps); then children in order 1,2,3; then the caller joins and runs K *)
  Definition schedA := [0;0;0; 1;1; 2;2; 3;3; 0;0;0; 0].
  (* interleaved, youngest first; entries for blocked / finished / non-existent threads are skipped *)
  Definition schedB := [0;3;0;0;7; 3;2;0;1;3; 2;1;0;1;0; 0;0;0;0].

  Example run_A :
    result_of 0 (run_thr w_handle schedA s3) =
      Some (Some (VTuple [VInt 13; VSome (VInt 1); VSome (VInt 4); VSome (VInt 7)])) /\
    map fst (rev (trace (run_thr w_handle schedA s3))) = [1;1;2;2;3;3;0].
  Proof. vm_compute. split; reflexivity. Qed.

  Example run_B :
    result_of 0 (run_thr w_handle schedB s3) =
      Some (Some (VTuple [VInt 13; VSome (VInt 3); VSome (VInt 3); VSome (VInt 3)])) /\
    map fst (rev (trace (run_thr w_handle schedB s3))) = [3;2;1;3;2;1;0].
  Proof. vm_compute. split; reflexivity. Qed.
  (* in run_A and in run_B the caller's only entry is the most recent one - after all entries of the children *)

  Example run_fair : finished (run_fuel w_handle 10 s3) = true /\
                     finished (run_fuel w_handle 4 s3) = false.
  Proof. vm_compute. split; reflexivity. Qed.

  (* hypotheses of the theorems hold for this program *)
  Example prog3_ws : ws prog3 [].
  Proof. apply ws_block; [repeat constructor|]; cbn; auto. Qed.
  Example prog3_ws_state : ws_state nat s3.
  Proof. apply ws_init, prog3_ws. Qed.
  Example prog3_ccode : ccode nat 0 s3 (block ["a"; "b"; "c"] [child 1; child 2; child 3] K3).
  Proof. eexists. split; reflexivity. Qed.

  (* the numeric measure: children 2 steps each, 3 spawns, 3 joins, K 1 step *)
  Lemma size_child n : size_le (child n) 2.
  Proof. constructor; intros v. constructor; intros w. constructor. Qed.
  Example prog3_size : pool_size_le nat s3 13.
  Proof.
    exists [13]. split; [|cbn; lia]. constructor; [|constructor].
    apply (size_le_gblock (@inl (option val) N) (combine ["a"; "b"; "c"] [child 1; child 2; child 3]) K3 [2; 2; 2] 1).
    - repeat constructor; apply size_child.
    - intros bs. constructor; intros v. constructor.
  Qed.
  (* theorem (b) with explicit fuel, instantiated (not computed) *)
  Example prog3_finishes_within : finished (run_fuel w_handle 13 s3) = true.
  Proof. apply fair_schedule_finishes_within; [apply prog3_ws_state|apply prog3_size]. Qed.
End ExBlock.

Module ExPanic.
  Import ExBlock.
  (* (c) panic propagation, and what is NOT guaranteed: child "a" panics, child "c" is slow *)
  Definition slow : comp val := call 1 (fun _ => call 2 (fun _ => call 3 (fun _ => Ret VUnit))).
  Definition progP : comp val :=
    ublock ["a"; "b"; "c"] [call 13 (fun v => Ret v); child 2; slow] (fun vs => call 7 (fun _ => Ret (VTuple vs))).
  Definition sP := init (Some "main") progP 0.
  (* spawn all; a panics; b runs; c makes one step; the caller joins a: panic *)
  Definition schedP := [0;0;0; 1; 2;2; 3; 0].

  Example unwaited_child_1 :
    let s := run_thr w_handle schedP sP in
    result_of 0 s = Some None /\                      (* the caller has panicked ... *)
    option_map th_code (nth_error (pool s) 0) = Some (Panic P_UNWRAP) /\
    result_of 1 s = Some None /\                      (* ... because child a panicked; *)
    thr_finished 3 s = false /\                       (* child c is still running: it was never waited for *)
    filter (fun p => Nat.eqb (fst p) 0) (trace s) = [].   (* no event of K *)
  Proof. vm_compute. repeat split; reflexivity. Qed.

  (* ... and goes on making events after the caller's panic *)
  Example unwaited_child_2 :
    let s := run_thr w_handle (schedP ++ [3; 3; 0; 0]) sP in
    result_of 0 s = Some None /\ result_of 3 s = Some (Some VUnit) /\
    map fst (firstn 2 (trace s)) = [3; 3] /\
    filter (fun p => Nat.eqb (fst p) 0) (trace s) = [].
  Proof. vm_compute. repeat split; reflexivity. Qed.

  (* a smaller block of the same shape in which nobody panics reaches K *)
  Definition progOK : comp val :=
    ublock ["a"; "b"] [child 1; child 2] (fun vs => call 7 (fun _ => Ret (VTuple vs))).
  Example run_ok :
    result_of 0 (run_fuel w_handle 10 (init None progOK 0)) = Some (Some (VTuple [VInt 1; VInt 4])).
  Proof. vm_compute. reflexivity. Qed.
End ExPanic.

(** * 8. (d) None waits for a sibling: any finishing order; sibling independence *)

Lemma upd_upd_comm {A} (l : list A) i j x y : i <> j -> upd (upd l i x) j y = upd (upd l j y) i x.
Proof.
  revert i j; induction l as [|a l IH]; intros [|i] [|j] Hne; cbn; auto; try congruence.
  f_equal. apply IH. congruence.
Qed.

Lemma upd_upd_same {A} (l : list A) i x y : upd (upd l i x) i y = upd l i y.
Proof. revert i; induction l as [|a l IH]; intros [|i]; cbn; auto. f_equal. apply IH. Qed.

Lemma upd_app_l {A} (l m : list A) j x : j < List.length l -> upd (l ++ m) j x = upd l j x ++ m.
Proof.
  revert j; induction l as [|a l IH]; intros [|j] Hlt; cbn in *; auto; try (now inversion Hlt).
  f_equal. apply IH. now apply Nat.succ_lt_mono.
Qed.

Lemma Forall2_of_nth_error {A B} (R : A -> B -> Prop) l1 l2 :
  List.length l1 = List.length l2 ->
  (forall i a b, nth_error l1 i = Some a -> nth_error l2 i = Some b -> R a b) ->
  Forall2 R l1 l2.
Proof.
  revert l2; induction l1 as [|a l1 IH]; intros [|b l2] Hlen H; cbn in *; try discriminate; constructor.
  - apply (H 0); reflexivity.
  - apply IH; [lia|]. intros i a' b' Ha Hb. apply (H (S i)); assumption.
Qed.

(* join-free: the computation never waits for another thread (it may spawn) *)
Fixpoint jf (c : comp val) : Prop :=
  match c with
  | Ret _ | Panic _ => True
  | Vis e k => forall v, jf (k v)
  | Spawn n t k => forall h, jf (k h)
  | Join _ _ => False
  end.

Lemma jf_tstep c c' : jf c -> tstep c c' -> jf c'.
Proof.
  intros Hj Ht. destruct Ht as [e k r|n t k h|h k r]; cbn in *; auto; [|contradiction].
  destruct r; cbn; auto.
Qed.

Section Order.
  Variable wstate : Type.
  Variable handle : option string -> ev -> wstate -> option val * wstate.
  Notation state := (state wstate).
  Notation step_thr := (step_thr handle).
  Notation run_thr := (run_thr handle).
  Notation step_rel := (step_rel wstate handle).
  Notation thr := (thr_of wstate).
  Notation fin := (fin wstate).
  Notation unfinished := (unfinished wstate).

  Lemma run_alone t :
    jf t -> forall s i th, thr s i = Some th -> th_code th = t ->
    exists m r, fin (run_thr (repeat i m) s) i r /\
                forall j, j <> i -> j < List.length (pool s) -> thr (run_thr (repeat i m) s) j = thr s j.
  Proof.
    induction (csub_wf t) as [t _ IH]. intros Hjf s i th Hth Hc.
    destruct (outcome t) as [o|] eqn:Eo.
    - exists 0, o. cbn. split; [|auto]. exists th. subst t. auto.
    - assert (Hen : exists s1, step_thr i s = Some s1).
      { unfold Threads.step_thr. unfold thr_of in Hth. rewrite Hth, Hc.
        destruct t; cbn in *; try discriminate; eauto. contradiction. }
      destruct Hen as [s1 E]. pose proof E as Hst. apply step_thr_rel in Hst.
      destruct (step_self Hst) as (th0 & c' & H1 & H2 & H3).
      rewrite Hth in H1; injection H1 as <-. rewrite Hc in H3.
      destruct (IH c' (csub_step _ _ H3) (jf_tstep _ _ Hjf H3) s1 i (set_code th c') H2 eq_refl)
        as (m & r & Hf & Ho).
      exists (S m), r. cbn. unfold step_or_skip. rewrite E. split; [exact Hf|].
      intros j Hne Hlt. rewrite Ho; auto.
      + eapply step_other; eauto.
      + exact (Nat.lt_le_trans _ _ _ Hlt (step_length Hst)).
  Qed.

  (* [in_order s p]: from s there is a schedule that finishes the threads p one after the other, in
     exactly this order: when h is finished, all threads after h in p are still unfinished *)
  Fixpoint in_order (s : state) (p : list nat) : Prop :=
    match p with
    | [] => True
    | h :: rest =>
        exists seg, let s' := run_thr seg s in
          (exists r, fin s' h r) /\ (forall x, In x rest -> unfinished s' x) /\ in_order s' rest
    end.

  (* the segments concatenate to ONE schedule *)
  Lemma in_order_one_schedule p : forall s,
    in_order s p -> exists sched, forall h, In h p -> exists r, fin (run_thr sched s) h r.
  Proof.
    induction p as [|h rest IH]; intros s Hio; [exists []; intros h []|].
    destruct Hio as (seg & (r & Hf) & _ & Hrest). destruct (IH _ Hrest) as [sched Hs].
    exists (seg ++ sched). intros x [<-|Hx]; rewrite run_thr_app; [|auto].
    exists r. now apply run_thr_fin_stable.
  Qed.

  Lemma any_order_of_join_free p : forall s,
    NoDup p ->
    (forall h, In h p -> exists th, thr s h = Some th /\ jf (th_code th) /\ outcome (th_code th) = None) ->
    in_order s p.
  Proof.
    induction p as [|h rest IH]; intros s Hnd Hall; cbn; [exact I|].
    apply NoDup_cons_iff in Hnd. destruct Hnd as [Hnotin Hnd'].
    destruct (Hall h (or_introl eq_refl)) as (th & Hth & Hjf & Hout).
    destruct (run_alone _ Hjf s h th Hth eq_refl) as (m & r & Hf & Hothers).
    exists (repeat h m). cbn.
    assert (Hsame : forall x, In x rest -> thr (run_thr (repeat h m) s) x = thr s x).
    { intros x Hx. apply Hothers; [intros ->; contradiction|].
      destruct (Hall x (or_intror Hx)) as (thx & Hthx & _). eapply nth_error_Some_lt; eauto. }
    split; [eauto|]. split.
    - intros x Hx. destruct (Hall x (or_intror Hx)) as (thx & Hthx & _ & Hox).
      exists thx. rewrite Hsame; auto.
    - apply IH; [exact Hnd'|]. intros x Hx. rewrite Hsame by exact Hx. apply Hall. now right.
  Qed.

  (** ** The caller alone: n steps of the caller create the n children *)

  Definition child_thread (c : nat) (nt : string * comp val) : thread :=
    mkThread (Some (fst nt)) (Some c) (snd nt).

  Lemma spawn_run c (k : list nat -> comp val) todo : forall s done th,
    thr s c = Some th -> th_code th = spawn_all_acc todo (rev done) k ->
    let L := List.length (pool s) in
    let s' := run_thr (repeat c (List.length todo)) s in
    List.length (pool s') = L + List.length todo /\
    thr s' c = Some (set_code th (k (done ++ seq L (List.length todo)))) /\
    (forall i nt, nth_error todo i = Some nt -> thr s' (L + i) = Some (child_thread c nt)) /\
    (forall j, j <> c -> j < L -> thr s' j = thr s j) /\
    world s' = world s /\ trace s' = trace s.
  Proof.
    induction todo as [|nt r IH]; intros s done th Hth Hc L s'.
    - cbn in *. rewrite rev_involutive in Hc. rewrite app_nil_r, <- Hc.
      repeat split; auto.
      + rewrite Hth. destruct th; reflexivity.
      + intros [|i] nt; discriminate.
    - cbn in Hc. assert (Hcl : c < L) by (eapply nth_error_Some_lt; eauto). set (s1 := step_or_skip handle c s).
      assert (Hs' : s' = run_thr (repeat c (List.length r)) s1) by reflexivity.
      assert (Hst : step_rel c s s1).
      { destruct (step_or_skip_cases _ handle c s) as [[E _]|Hst]; [exfalso|exact Hst].
        unfold Threads.step_thr in E. unfold thr_of in Hth. rewrite Hth, Hc in E. discriminate. }
      pose proof (spawn_step Hst Hth Hc) as Es1.
      destruct (thr_upd_app _ s s1 c th _ _ (f_equal pool Es1) Hth) as (Hth1 & Hnew & HL1).
      fold L in Hth1, Hnew, HL1.
      destruct (IH s1 (done ++ [L]) _ Hth1) as (H1 & H2 & H3 & H4 & H5 & H6); [cbn; now rewrite rev_unit|].
      rewrite <- Hs', HL1 in *. cbn [List.length].
      split; [rewrite H1; apply plus_n_Sm|]. split; [|split; [|split; [|split]]].
      + rewrite H2. cbn. now rewrite <- app_assoc.
      + intros [|i] nt' Hnt; cbn in Hnt.
        * injection Hnt as <-. rewrite Nat.add_0_r, H4 by lia. exact Hnew.
        * rewrite <- plus_n_Sm. now apply H3.
      + intros j Hne Hlt. rewrite H4 by auto using Nat.lt_lt_succ_r. now apply (step_other Hst).
      + rewrite H5. now rewrite Es1.
      + rewrite H6. now rewrite Es1.
  Qed.

  (* (d) ALL ALIVE AT ONCE, and ANY FINISHING ORDER.  After the caller's n spawn steps all n
     children exist, none of them has made a step (so, if their bodies are not already values, none
     is finished), the caller has joined none; and if the children are join-free then for EVERY
     permutation p of the children there is a schedule that finishes them in exactly the order p. *)
  Theorem all_alive_any_order {B} (post : option val -> B + N) nts K s0 c :
    ccode wstate c s0 (gblock post nts K) ->
    let n := List.length nts in
    let hs := seq (List.length (pool s0)) n in
    let s1 := run_thr (repeat c n) s0 in
    all_alive wstate post nts K s0 c s1 hs /\
    Forall2 (fun h nt => thr s1 h = Some (child_thread c nt)) hs nts /\
    (Forall (fun nt => jf (snd nt) /\ outcome (snd nt) = None) nts ->
     forall p, Permutation p hs -> in_order s1 p).
  Proof.
    intros (th & Hth & Hc) n hs s1. unfold gblock in Hc.
    destruct (spawn_run c _ nts s0 [] th Hth Hc) as (H1 & H2 & H3 & H4 & H5 & H6).
    fold n s1 in H1, H2, H3, H4, H5, H6. cbn [app] in H2. fold hs in H2.
    assert (HF : Forall2 (fun h nt => thr s1 h = Some (child_thread c nt)) hs nts).
    { apply Forall2_of_nth_error; [unfold hs; now rewrite seq_length|].
      intros i h nt Hh Hnt. pose proof (nth_error_Some_lt _ _ _ Hnt) as Hi.
      unfold hs in Hh. rewrite (nth_error_nth' _ 0) in Hh by (rewrite seq_length; exact Hi).
      rewrite seq_nth in Hh by exact Hi. injection Hh as <-. now apply H3. }
    split; [|split; [exact HF|]].
    - split; [|split].
      + split; [|split].
        * eapply Forall2_impl'; [|exact HF]. cbn. intros h nt Hh. eexists; split; [exact Hh|]. cbn; auto.
        * apply seq_NoDup.
        * intros h Hh. apply in_seq in Hh. lia.
      + eexists; split; [exact H2|]. reflexivity.
      + exists []. split; [exact H6|]. intros x [].
    - intros Hjf p Hperm. apply any_order_of_join_free.
      + eapply Permutation_NoDup; [apply Permutation_sym; exact Hperm|apply seq_NoDup].
      + intros h Hh. apply (Permutation_in _ Hperm) in Hh.
        destruct (Forall2_In_l _ _ _ _ HF Hh) as (nt & Hnt & Hthh).
        rewrite Forall_forall in Hjf. destruct (Hjf _ Hnt) as [Hj Ho].
        eexists; split; [exact Hthh|]. cbn. auto.
  Qed.

  (** ** A thread's step does not depend on its siblings' codes *)

  (* replace the code of thread j *)
  Definition poke (j : nat) (d : comp val) (s : state) : state :=
    match nth_error (pool s) j with
    | Some th => mkState (upd (pool s) j (set_code th d)) (world s) (trace s)
    | None => s
    end.

  (* (d) Enabledness and the result of a step of thread i depend on i's own code and the world only:
     replacing the code of ANY other existing thread j by ANY code d commutes with the step - unless
     i's head is `Join j`, and then only j's OUTCOME (finished or not, which result) matters. *)
  Theorem step_ignores_sibling_code i j d s thi thj :
    i <> j -> thr s i = Some thi -> thr s j = Some thj ->
    (forall k, th_code thi <> Join j k) \/ outcome d = outcome (th_code thj) ->
    step_thr i (poke j d s) = option_map (poke j d) (step_thr i s).
  Proof.
    intros Hne Hi Hj Hcond. unfold thr_of in Hi, Hj.
    pose proof (nth_error_Some_lt _ _ _ Hi) as Hil. pose proof (nth_error_Some_lt _ _ _ Hj) as Hjl.
    unfold poke at 1. rewrite Hj. unfold Threads.step_thr. cbn [pool world trace].
    rewrite (nth_error_upd_neq _ j i) by congruence. rewrite Hi.
    destruct (th_code thi) as [v|n|e k|name t k|h k] eqn:Ec; cbn [option_map]; try reflexivity.
    - unfold poke. cbn [pool world trace]. rewrite (nth_error_upd_neq _ i j) by congruence. rewrite Hj.
      rewrite (upd_upd_comm _ j i) by congruence. reflexivity.
    - unfold poke. cbn [pool world trace]. rewrite upd_length.
      rewrite nth_error_app1 by (rewrite upd_length; exact Hjl).
      rewrite (nth_error_upd_neq _ i j) by congruence. rewrite Hj.
      rewrite upd_app_l by (rewrite upd_length; exact Hjl).
      rewrite (upd_upd_comm _ j i) by congruence. reflexivity.
    - assert (Hout : match nth_error (upd (pool s) j (set_code thj d)) h with
                     | Some th' => outcome (th_code th') | None => None end =
                     match nth_error (pool s) h with
                     | Some th' => outcome (th_code th') | None => None end).
      { destruct (Nat.eq_dec h j) as [->|Hh].
        - rewrite nth_error_upd_eq by exact Hjl. rewrite Hj. cbn.
          destruct Hcond as [Hc|Hc]; [exfalso; eapply Hc; reflexivity|exact Hc].
        - now rewrite nth_error_upd_neq by congruence. }
      destruct (nth_error (upd (pool s) j (set_code thj d)) h) as [th1|];
        destruct (nth_error (pool s) h) as [th2|]; cbn in Hout.
      + rewrite Hout. destruct (outcome (th_code th2)) as [r|]; cbn [option_map]; [|reflexivity].
        unfold poke. cbn [pool world trace]. rewrite (nth_error_upd_neq _ i j) by congruence. rewrite Hj.
        rewrite (upd_upd_comm _ j i) by congruence. reflexivity.
      + rewrite Hout. reflexivity.
      + rewrite <- Hout. reflexivity.
      + reflexivity.
  Qed.

  Corollary enabled_ignores_sibling_code i j d s thi thj :
    i <> j -> thr s i = Some thi -> thr s j = Some thj ->
    (forall k, th_code thi <> Join j k) \/ outcome d = outcome (th_code thj) ->
    enabled handle i (poke j d s) = enabled handle i s.
  Proof.
    intros Hne Hi Hj Hc. unfold enabled.
    rewrite (step_ignores_sibling_code i j d s thi thj Hne Hi Hj Hc).
    destruct (step_thr i s); reflexivity.
  Qed.
End Order.

Print Assumptions all_alive_any_order.
Print Assumptions step_ignores_sibling_code.
Print Assumptions enabled_ignores_sibling_code.

Module ExOrder.
  Import ExBlock.
  Example prog3_children_join_free :
    Forall (fun nt => jf (snd nt) /\ outcome (snd nt) = None) (combine ["a"; "b"; "c"] [child 1; child 2; child 3]).
  Proof. repeat constructor; cbn; auto. Qed.
  (* theorem (d) instantiated: any of the 6 orders, e.g. c, a, b *)
  Example prog3_order_cab :
    in_order nat w_handle (run_thr w_handle [0;0;0] s3) [3; 1; 2].
  Proof.
    destruct (all_alive_any_order nat w_handle _ _ _ s3 0 prog3_ccode) as (_ & _ & H).
    apply (H prog3_children_join_free).
    change (seq (List.length (pool s3)) 3) with [1;2;3].
    apply perm_trans with [1;3;2]; [apply perm_swap|]. apply perm_skip. apply perm_swap.
  Qed.
End ExOrder.

(** * 9. (e) Thread names; a single active branch stays on the caller *)

Lemma sapp_assoc (a b c : string) : (a +++ b) +++ c = a +++ (b +++ c).
Proof. induction a as [|ch a IH]; cbn; [reflexivity|now rewrite IH]. Qed.

Lemma sapp_nil_r (a : string) : a +++ "" = a.
Proof. induction a as [|ch a IH]; cbn; [reflexivity|now rewrite IH]. Qed.

Lemma sapp_inj_l (a b c : string) : a +++ b = a +++ c -> b = c.
Proof. induction a as [|ch a IH]; cbn; intros H; [exact H|]. injection H as H. auto. Qed.

(* the name `__tb(i)` gives a thread spawned by a thread named nm *)
Definition child_name (nm : option string) (i : nat) : string :=
  match nm with
  | Some s => s +++ "_join_" +++ dec i
  | None => "join_" +++ dec i
  end.

(* what Std.tb_name computes - the name the generated code passes to
   `::std::thread::Builder::new().name(..)` - is [child_name] *)
Lemma tb_name_child_name nm i : tb_name (name_val nm) (Z.of_nat i) = Some (child_name nm i).
Proof. destruct nm; cbn; now rewrite Nat2Z.id. Qed.

Lemma child_name_named p i : child_name (Some p) i = p +++ "_join_" +++ dec i.
Proof. reflexivity. Qed.
Lemma child_name_unnamed i : child_name None i = "join_" +++ dec i.
Proof. reflexivity. Qed.

Lemma child_name_inj nm i j : child_name nm i = child_name nm j -> i = j.
Proof.
  destruct nm as [s|]; cbn; intros H.
  - apply sapp_inj_l in H. apply (sapp_inj_l "_join_") in H. now apply dec_inj.
  - apply (sapp_inj_l "join_") in H. now apply dec_inj.
Qed.

(* the name at the end of a nesting path *)
Fixpoint path_name (nm : option string) (p : list nat) : option string :=
  match p with
  | [] => nm
  | i :: r => path_name (Some (child_name nm i)) r
  end.

Lemma path_name_snoc nm p i : path_name nm (p ++ [i]) = Some (child_name (path_name nm p) i).
Proof. revert nm; induction p as [|j p IH]; intros nm; cbn; auto. Qed.

Fixpoint path_suffix (p : list nat) : string :=
  match p with [] => "" | i :: r => "_join_" +++ dec i +++ path_suffix r end.

(* the name at path i1 .. im below a caller named c, as a string: c_join_i1_..._join_im *)
Lemma path_name_named c p : path_name (Some c) p = Some (c +++ path_suffix p).
Proof.
  revert c; induction p as [|i p IH]; intros c; cbn.
  - now rewrite sapp_nil_r.
  - rewrite IH. f_equal. now rewrite !sapp_assoc.
Qed.

Lemma path_name_unnamed i p : path_name None (i :: p) = Some ("join_" +++ dec i +++ path_suffix p).
Proof. cbn [path_name child_name]. rewrite path_name_named. reflexivity. Qed.

Example path_name_ex : path_name (Some "main") [2; 0; 11] = Some "main_join_2_join_0_join_11".
Proof. reflexivity. Qed.
Example path_name_ex' : path_name None [1; 3] = Some "join_1_join_3".
Proof. reflexivity. Qed.

(* the naming discipline of generated code: a thread named nm gives every thread it spawns a name
   `child_name nm i` - where nm is what `EThreadName` answers; hereditarily for the spawned bodies.
   Q is a postcondition on the returned value (used to follow the builders through `bind`). *)
Fixpoint tbn (A : Type) (nm : option string) (Q : A -> Prop) (c : comp A) {struct c} : Prop :=
  match c with
  | Ret a => Q a
  | Panic _ => True
  | Vis e k => match e with
               | EThreadName => tbn A nm Q (k (name_val nm))
               | _ => forall v, tbn A nm Q (k v)
               end
  | Spawn name t k => (exists i, name = child_name nm i) /\ tbn val (Some name) (fun _ => True) t /\
                      forall h, tbn A nm Q (k h)
  | Join h k => forall r, tbn A nm Q (k r)
  end.
Arguments tbn {A} nm Q c.
Definition tbnamed {A} (nm : option string) (c : comp A) : Prop := tbn nm (fun _ => True) c.

Lemma tbn_bind {A B} nm (c : comp A) (f : A -> comp B) Q R :
  tbn nm Q c -> (forall a, Q a -> tbn nm R (f a)) -> tbn nm R (bind c f).
Proof.
  revert B f Q R. induction c as [A a|A n|A e k IH|A name t IHt k IH|A h k IH];
    intros B f Q R Hc Hf; cbn in *; auto.
  - destruct e; eauto.
  - destruct Hc as (Hn & Ht & Hk). eauto.
  - eauto.
Qed.

Lemma tbn_weaken {A} nm (c : comp A) (Q R : A -> Prop) :
  (forall a, Q a -> R a) -> tbn nm Q c -> tbn nm R c.
Proof.
  intros HQR. revert Q R HQR. induction c as [A a|A n|A e k IH|A name t IHt k IH|A h k IH];
    intros Q R HQR Hc; cbn in *; auto.
  - destruct e; eauto.
  - destruct Hc as (Hn & Ht & Hk). eauto.
  - eauto.
Qed.

Lemma tbnamed_bind {A B} nm (c : comp A) (f : A -> comp B) :
  tbnamed nm c -> (forall a, tbnamed nm (f a)) -> tbnamed nm (bind c f).
Proof. intros Hc Hf. eapply tbn_bind; [exact Hc|]. intros a _. apply Hf. Qed.

(* `__tb(i)` followed by `builder.spawn(thunk)`: the generated way to spawn *)
Definition tb_spawn (i : nat) (thunk : closure) (k : dval -> comp val) : comp val :=
  let! b := thread_builder (Z.of_nat i) in
  match b with
  | DBuilder name => let! h := std_spawn name thunk in k h
  | _ => Panic P_ILLTYPED
  end.

Lemma tbnamed_tb_spawn nm i thunk k :
  tbnamed (Some (child_name nm i)) (thunk []) -> (forall d, tbnamed nm (k d)) ->
  tbnamed nm (tb_spawn i thunk k).
Proof.
  intros Ht Hk. unfold tbnamed, tb_spawn, thread_builder. cbn. rewrite tb_name_child_name. cbn.
  split; [eauto|]. split; [exact Ht|]. intros h. apply Hk.
Qed.

Lemma tbn_builders nm acts :
  tbn nm (fun bs => bs = map (fun b => DBuilder (child_name nm b)) acts)
      (mapM (fun b => thread_builder (Z.of_nat b)) acts).
Proof.
  induction acts as [|b r IH]; cbn [mapM map]; [reflexivity|].
  unfold thread_builder at 1. cbn. rewrite tb_name_child_name. cbn.
  eapply tbn_bind; [exact IH|]. intros bs ->. reflexivity.
Qed.

Lemma tbnamed_join_all_acc {B} (post : option val -> B + N) nm hs : forall acc K,
  (forall bs, tbnamed nm (K bs)) -> tbnamed nm (join_all_acc post hs acc K).
Proof.
  induction hs as [|h r IH]; intros acc K HK; cbn; [apply HK|].
  intros x. destruct (post x); [now apply IH|exact I].
Qed.

Lemma tbnamed_spawn_all_acc nm nts : forall acc k,
  Forall (fun nt => (exists i, fst nt = child_name nm i) /\ tbnamed (Some (fst nt)) (snd nt)) nts ->
  (forall hs, tbnamed nm (k hs)) -> tbnamed nm (spawn_all_acc nts acc k).
Proof.
  induction nts as [|nt r IH]; intros acc k Hts Hk; cbn; [apply Hk|].
  destruct (Forall_inv Hts) as [Hn Ht]. split; [exact Hn|]. split; [exact Ht|].
  intros h. apply IH; [exact (Forall_inv_tail Hts)|exact Hk].
Qed.

Lemma tbnamed_gblock {B} (post : option val -> B + N) nm nts K :
  Forall (fun nt => (exists i, fst nt = child_name nm i) /\ tbnamed (Some (fst nt)) (snd nt)) nts ->
  (forall bs, tbnamed nm (K bs)) -> tbnamed nm (gblock post nts K).
Proof.
  intros Hts HK. apply tbnamed_spawn_all_acc; [exact Hts|]. intros hs. now apply tbnamed_join_all_acc.
Qed.

(* (e) THE GENERATED STEP (builders, captures, spawn all, join all) follows the discipline: the
   child for branch b of a caller named nm is named child_name nm b *)
Theorem tbnamed_std_thread_step {C} nm acts (caps : comp C) (child : C -> nat -> comp val)
        (f : dval -> comp val) :
  tbnamed nm caps ->
  (forall cp b, tbnamed (Some (child_name nm b)) (child cp b)) ->
  (forall d, tbnamed nm (f d)) ->
  tbnamed nm (bind (std_thread_step acts caps child) f).
Proof.
  intros Hcaps Hchild Hf. unfold std_thread_step. rewrite !CompLaws.bind_assoc.
  eapply tbn_bind; [apply tbn_builders|]. intros bs ->. cbn beta.
  rewrite CompLaws.bind_assoc. eapply tbn_bind; [exact Hcaps|]. intros cp _.
  rewrite <- (map_map (child_name nm) DBuilder).
  rewrite std_spawn_join_is_ublock'.
  apply tbnamed_gblock; [|intros; apply Hf].
  clear - Hchild. induction acts as [|b r IH]; cbn; constructor; auto. cbn. split; [eauto|apply Hchild].
Qed.

Section NamesMachine.
  Variable wstate : Type.
  Variable handle : option string -> ev -> wstate -> option val * wstate.
  Notation state := (state wstate).
  Notation step_thr := (step_thr handle).
  Notation run_thr := (run_thr handle).
  Notation step_rel := (step_rel wstate handle).
  Notation thr := (thr_of wstate).

  (* (e) two steps of a thread named nm that runs `tb_spawn i thunk k` create a thread named
     child_name nm i = nm_join_i (join_i for an unnamed thread) that runs the thunk *)
  Theorem builder_spawn_name s x th i thunk k :
    thr s x = Some th -> th_code th = tb_spawn i thunk k ->
    let s' := run_thr [x; x] s in
    thr s' (List.length (pool s)) =
      Some (mkThread (Some (child_name (th_name th) i)) (Some x) (thunk [])) /\
    thr s' x = Some (set_code th (k (DV (VOk (VHandle (List.length (pool s))))))).
  Proof.
    intros Hth Hc s'.
    set (th1 := set_code th (Spawn (child_name (th_name th) i) (thunk [])
                                   (fun h => k (DV (VOk (VHandle h)))))).
    set (s1 := mkState (upd (pool s) x th1) (world s) ((x, EThreadName) :: trace s)).
    assert (E1 : step_thr x s = Some s1).
    { unfold Threads.step_thr. unfold thr_of in Hth. rewrite Hth, Hc. cbn.
      rewrite tb_name_child_name. reflexivity. }
    destruct (thr_upd _ s s1 x th th1 eq_refl Hth) as [Hth1 Hl1].
    set (s2 := mkState (upd (pool s1) x (set_code th1 (k (DV (VOk (VHandle (List.length (pool s1)))))))
                          ++ [mkThread (Some (child_name (th_name th) i)) (Some x) (thunk [])])
                       (world s1) (trace s1)).
    assert (E2 : step_thr x s1 = Some s2).
    { unfold Threads.step_thr. unfold thr_of in Hth1. rewrite Hth1. reflexivity. }
    destruct (thr_upd_app _ s1 s2 x th1 _ _ eq_refl Hth1) as (H2 & Hnew & _).
    assert (Es : s' = s2) by (unfold s'; cbn; unfold step_or_skip; now rewrite E1, E2).
    rewrite Es, <- Hl1. split; [exact Hnew|exact H2].
  Qed.

  Definition tb_state (s : state) : Prop :=
    forall x th, thr s x = Some th -> tbnamed (th_name th) (th_code th).

  (* every spawned thread carries the name `__tb` gives: its spawner's name, "_join_", an index *)
  Definition named_ok (s : state) : Prop :=
    forall x th p, thr s x = Some th -> th_parent th = Some p ->
      exists thp i, thr s p = Some thp /\ th_name th = Some (child_name (th_name thp) i).

  Lemma tb_step i s s' : tb_state s /\ named_ok s -> step_rel i s s' -> tb_state s' /\ named_ok s'.
  Proof.
    intros [Htb Hok] Hst. split.
    - intros x thx Hx.
      destruct (step_thr_inv Hst Hx)
        as [(th & Hth & _ & _ & Hsame & _)|(-> & th & name & t & k & Hth & Hc & ->)];
        pose proof (Htb _ _ Hth) as Hd.
      2:{ rewrite Hc in Hd. apply Hd. }
      destruct (Nat.eq_dec x i) as [->|Hne]; [|now rewrite (Hsame Hne)].
      destruct (step_code Hst Hth) as (c' & Hi & Hnew). rewrite Hi in Hx; injection Hx as <-.
      cbn [th_name th_code set_code].
      destruct (th_code th) as [v|n|e k|name t k|h k]; try contradiction; cbn in Hd.
      + (* the machine answers `EThreadName` with the name of the thread that asks *)
        destruct Hnew as (r & w' & Ha & ->).
        destruct e; cbn in Ha; try (destruct r; cbn; [apply Hd|exact I]). injection Ha as <- <-. exact Hd.
      + subst c'. apply Hd.
      + destruct Hnew as (r & _ & ->). apply Hd.
    - intros x thx p Hx Hp.
      destruct (step_thr_inv Hst Hx)
        as [(th0 & Hx0 & Hn' & Hp' & _)|(-> & th & name & t & k & Hth & Hc & ->)].
      + rewrite Hp' in Hp. destruct (Hok _ _ _ Hx0 Hp) as (thp & j & Hthp & Hname).
        destruct (step_thr_stable Hst Hthp) as (thp' & Hthp' & Hnp' & _).
        exists thp', j. split; [exact Hthp'|]. now rewrite Hn', Hnp'.
      + cbn in Hp. injection Hp as <-.
        pose proof (Htb _ _ Hth) as Hd. rewrite Hc in Hd. cbn in Hd. destruct Hd as ((j & ->) & _).
        destruct (step_thr_stable Hst Hth) as (th' & Hth' & Hn' & _).
        exists th', j. split; [exact Hth'|]. cbn. now rewrite Hn'.
  Qed.

  (* (e) under EVERY schedule, every thread spawned by code that follows the `__tb` discipline is
     named after its spawner: spawner's name (if any), "_join_" / "join_", a branch index *)
  Theorem thread_names_all_schedules s0 :
    tb_state s0 -> named_ok s0 -> forall sched, named_ok (run_thr sched s0).
  Proof.
    intros Htb Hok sched.
    apply (run_thr_invariant _ handle (fun s => tb_state s /\ named_ok s)); [|auto].
    intros i s s' H Hst. eapply tb_step; eauto.
  Qed.

  Lemma tb_init nm c w : tbnamed nm c -> tb_state (init nm c w) /\ named_ok (init nm c w).
  Proof.
    intros Hc. split.
    - intros x th Hx. destruct (thr_init Hx) as [-> ->]. exact Hc.
    - intros x th p Hx. destruct (thr_init Hx) as [-> ->]. discriminate.
  Qed.

  (* thread x sits at the nesting path p = i_1 .. i_m below thread c *)
  Inductive at_path (s : state) (c : nat) : nat -> list nat -> Prop :=
  | ap_here : at_path s c c []
  | ap_child y x p i thx thy :
      at_path s c y p -> thr s x = Some thx -> th_parent thx = Some y ->
      thr s y = Some thy -> th_name thx = Some (child_name (th_name thy) i) ->
      at_path s c x (p ++ [i]).

  (* (e) by induction over the nesting path: the thread at path
     i_1 .. i_m below a caller named c is named c_join_i1_..._join_im *)
  Theorem nested_thread_name s c x p thc thx :
    at_path s c x p -> thr s c = Some thc -> thr s x = Some thx ->
    th_name thx = path_name (th_name thc) p.
  Proof.
    intros Hp Hc. revert thx. induction Hp as [|y x p i thx' thy Hp IH Hx' Hpar Hy Hname]; intros thx Hx.
    - cbn. congruence.
    - rewrite Hx' in Hx; injection Hx as <-. rewrite path_name_snoc, Hname.
      now rewrite (IH thy Hy).
  Qed.

  Corollary nested_thread_name_string s c x p thc thx cname :
    at_path s c x p -> thr s c = Some thc -> thr s x = Some thx -> th_name thc = Some cname ->
    th_name thx = Some (cname +++ path_suffix p).
  Proof.
    intros Hp Hc Hx Hn. rewrite (nested_thread_name _ _ _ _ _ _ Hp Hc Hx), Hn. apply path_name_named.
  Qed.

  (* in a state that is [named_ok], the parent links are such paths *)
  Lemma child_at_path s c y x p thx :
    named_ok s -> at_path s c y p -> thr s x = Some thx -> th_parent thx = Some y ->
    exists i, at_path s c x (p ++ [i]).
  Proof.
    intros Hok Hp Hx Hpar. destruct (Hok _ _ _ Hx Hpar) as (thy & i & Hy & Hname).
    exists i. eapply ap_child; eauto.
  Qed.

  Fixpoint nospawn (c : comp val) : Prop :=
    match c with
    | Ret _ | Panic _ => True
    | Vis e k => forall v, nospawn (k v)
    | Spawn _ _ _ => False
    | Join h k => forall r, nospawn (k r)
    end.

  Lemma nospawn_tstep c c' : nospawn c -> tstep c c' -> nospawn c'.
  Proof.
    intros Hn Ht. destruct Ht as [e k r|n t k h|h k r]; cbn in *; auto; [|contradiction].
    destruct r; cbn; auto.
  Qed.

  (* (e) A computation without a `Spawn` node, run by thread c while
     every other thread is finished: under every schedule no thread is created and EVERY new trace
     entry carries the caller's index c. *)
  Theorem single_branch_on_caller s0 c th0 :
    thr s0 c = Some th0 -> nospawn (th_code th0) ->
    (forall x, x <> c -> ~ unfinished wstate s0 x) ->
    forall sched, let s := run_thr sched s0 in
    List.length (pool s) = List.length (pool s0) /\
    exists tnew, trace s = tnew ++ trace s0 /\ forall y, In y tnew -> fst y = c.
  Proof.
    intros Hth Hns Hfin sched s.
    destruct (run_thr_trace_invariant _ handle
                (fun s => (exists th, thr s c = Some th /\ nospawn (th_code th)) /\
                          (forall x, x <> c -> ~ unfinished wstate s x) /\
                          List.length (pool s) = List.length (pool s0)) (fun x => x = c))
      with (sched := sched) (s := s0) as [(_ & _ & Hl) Ht]; [|eauto|auto].
    intros i s1 s' ((th & Hc & Hn) & Hothers & Hlen) Hst.
    assert (i = c) as ->.
    { destruct (Nat.eq_dec i c); [assumption|]. exfalso. eapply Hothers; eauto. eapply step_unfinished; eauto. }
    assert (Hlen' : List.length (pool s') = List.length (pool s1)).
    { pose proof (step_inv Hst Hc) as H. destruct (th_code th); try contradiction.
      - destruct H as (? & ? & _ & ->). apply upd_length.
      - destruct H as (? & _ & ->). apply upd_length. }
    split; [|now right].
    split; [exact (thread_code_invariant nospawn nospawn_tstep Hst Hc Hn)|].
    split; [|congruence].
    intros x Hne (thx & Hx & Hox).
    assert (Hxl : x < List.length (pool s1)).
    { rewrite <- Hlen'. eapply nth_error_Some_lt; eauto. }
    rewrite (step_other Hst Hne Hxl) in Hx. eapply Hothers; eauto. exists thx; auto.
  Qed.

  (* in any pool, whatever the others do: a thread running spawn-free code never gets a child *)
  Theorem nospawn_never_spawns s0 c th0 :
    thr s0 c = Some th0 -> nospawn (th_code th0) ->
    forall sched x th, thr (run_thr sched s0) x = Some th -> List.length (pool s0) <= x ->
    th_parent th <> Some c.
  Proof.
    intros Hth Hns sched.
    cut ((fun s =>
      List.length (pool s0) <= List.length (pool s) /\
      (exists th, thr s c = Some th /\ nospawn (th_code th)) /\
      forall x th, thr s x = Some th -> List.length (pool s0) <= x -> th_parent th <> Some c)
         (run_thr sched s0)).
    { intros H. destruct H as (_ & _ & Hall). exact Hall. }
    apply run_thr_invariant.
    2:{ split; [apply le_n|]. split; [eauto|]. intros x th Hx Hge. apply nth_error_Some_lt in Hx.
        now apply Nat.lt_nge in Hx. }
    1:{ intros i s s' (Hlen & (thc & Hc & Hn) & Hall) Hst.
        pose proof (step_length Hst) as Hlen'.
        split; [exact (Nat.le_trans _ _ _ Hlen Hlen')|]. split; [exact (thread_code_invariant nospawn nospawn_tstep Hst Hc Hn)|].
        intros x th Hx Hge.
        destruct (step_thr_inv Hst Hx)
          as [(th1 & Hx1 & _ & -> & _)|(_ & thi & name & t & k & Hthi & Hci & ->)].
        - eapply Hall; eauto.
        - cbn. intros E; injection E as ->. rewrite Hc in Hthi; injection Hthi as <-.
          rewrite Hci in Hn. destruct Hn. }
  Qed.
End NamesMachine.

Print Assumptions child_name_inj.
Print Assumptions builder_spawn_name.
Print Assumptions thread_names_all_schedules.
Print Assumptions nested_thread_name.
Print Assumptions tbnamed_std_thread_step.
Print Assumptions single_branch_on_caller.
Print Assumptions nospawn_never_spawns.

Module ExNames.
  Import ExBlock.
  (* (e) names: the generated step shape, nested two levels deep, under an unnamed caller.
     Leaves report `thread::current().name()`. *)
  Definition leaf : comp val := Vis EThreadName (fun v => Ret v).
  Definition level2 (_ : unit) (b : nat) : comp val := leaf.
  Definition step2 : comp val :=
    let! d := std_thread_step [0; 1] (Ret Datatypes.tt) level2 in to_val d.
  Definition level1 (_ : unit) (b : nat) : comp val :=
    match b with 2 => step2 | _ => leaf end.
  Definition progE : comp val :=
    let! d := std_thread_step [2; 5] (Ret Datatypes.tt) level1 in to_val d.

  Example names_run :
    let s := run_fuel w_handle 30 (init None progE 0) in
    finished s = true /\
    map th_name (pool s) = [None; Some "join_2"; Some "join_5"; Some "join_2_join_0"; Some "join_2_join_1"] /\
    result_of 0 s = Some (Some (VTuple [VTuple [VSome (VStr "join_2_join_0"); VSome (VStr "join_2_join_1")];
                                        VSome (VStr "join_5")])).
  Proof. vm_compute. repeat split; reflexivity. Qed.

  Example names_run_named :
    let s := run_fuel w_handle 30 (init (Some "main") progE 0) in
    map th_name (pool s) = [Some "main"; Some "main_join_2"; Some "main_join_5";
                            Some "main_join_2_join_0"; Some "main_join_2_join_1"].
  Proof. vm_compute. reflexivity. Qed.

  Example progE_tbnamed nm : tbnamed nm progE.
  Proof.
    unfold progE. apply tbnamed_std_thread_step; [exact I| |intros []; exact I].
    intros [] b. unfold level1. destruct b as [|[|[|b]]]; try exact I.
    unfold step2. apply tbnamed_std_thread_step; [exact I| |intros []; exact I].
    intros [] b'. exact I.
  Qed.

  (* one active branch: no Spawn node; everything happens on the caller *)
  Definition single : comp val := call 1 (fun v => call 2 (fun _ => Ret v)).
  Example single_nospawn : nospawn single.
  Proof. cbn. auto. Qed.
  Example single_run :
    let s := run_fuel w_handle 5 (init (Some "t") single 0) in
    List.length (pool s) = 1 /\ map fst (trace s) = [0; 0].
  Proof. vm_compute. split; reflexivity. Qed.
End ExNames.

(** * 10. (a) Nesting: blocks inside children; descendants *)

(* hereditarily block-structured code: events, and blocks (n >= 1, strict post-processing) whose
   children and continuations are again of this kind.  This is the thread structure of generated
   code: every thread a thread spawns belongs to a block, and is joined before the block ends. *)
Inductive hb : comp val -> Prop :=
| hb_ret v : hb (Ret v)
| hb_panic n : hb (Panic n)
| hb_vis e k : (forall v, hb (k v)) -> hb (Vis e k)
| hb_block B (post : option val -> B + N) nts K :
    nts <> [] -> strict_post post ->
    Forall (fun nt => hb (snd nt)) nts -> (forall bs, hb (K bs)) ->
    hb (gblock post nts K).

Lemma hb_inv c :
  hb c ->
  match c with
  | Ret _ | Panic _ => True
  | Vis e k => forall v, hb (k v)
  | Join _ _ => False
  | Spawn name t k =>
      exists B (post : option val -> B + N) K nt todo,
        strict_post post /\ hb (snd nt) /\ Forall (fun nt => hb (snd nt)) todo /\ (forall bs, hb (K bs)) /\
        Spawn name t k = spawn_all_acc (nt :: todo) (rev []) (fun hs' => join_all_acc post hs' [] K)
  end.
Proof.
  destruct 1 as [v|n|e k Hk|B post nts K Hne Hs Hts HK]; auto.
  destruct nts as [|nt r]; [contradiction|]. cbn.
  exists B, post, K, nt, r. repeat split; auto; [exact (Forall_inv Hts)|exact (Forall_inv_tail Hts)].
Qed.

Section Nested.
  Variable wstate : Type.
  Variable handle : option string -> ev -> wstate -> option val * wstate.
  Notation state := (state wstate).
  Notation run_thr := (run_thr handle).
  Notation step_rel := (step_rel wstate handle).
  Notation thr := (thr_of wstate).
  Notation fin := (fin wstate).

  (* all threads spawned by x are finished with a value, except possibly those in P *)
  Definition children_returned (s : state) (x : nat) (P : list nat) : Prop :=
    forall y thy, thr s y = Some thy -> th_parent thy = Some x -> In y P \/ exists v, fin s y (Some v).

  (* where thread x (running c) is, with respect to the blocks of its own code *)
  Inductive tinv (s : state) (x : nat) (c : comp val) : Prop :=
  | TI_idle : hb c -> children_returned s x [] -> tinv s x c
  | TI_spawning B (post : option val -> B + N) K nt todo hs :
      strict_post post -> hb (snd nt) -> Forall (fun nt => hb (snd nt)) todo -> (forall bs, hb (K bs)) ->
      c = spawn_all_acc (nt :: todo) (rev hs) (fun hs' => join_all_acc post hs' [] K) ->
      children_returned s x hs -> tinv s x c
  | TI_joining B (post : option val -> B + N) K h todo acc :
      strict_post post -> (forall bs, hb (K bs)) ->
      c = join_all_acc post (h :: todo) acc K ->
      children_returned s x (h :: todo) -> tinv s x c
  | TI_dead n : c = Panic n -> tinv s x c.

  Definition parent_ok (s : state) : Prop :=
    forall y thy p, thr s y = Some thy -> th_parent thy = Some p -> p < List.length (pool s).

  Definition hb_state (s : state) : Prop :=
    parent_ok s /\ forall x th, thr s x = Some th -> tinv s x (th_code th).

  Lemma hb_init nm c w : hb c -> hb_state (init nm c w).
  Proof.
    intros Hc. split.
    - intros y thy p Hy. destruct (thr_init Hy) as [-> ->]. discriminate.
    - intros x th Hx. destruct (thr_init Hx) as [-> ->]. apply TI_idle; [exact Hc|].
      intros y thy Hy. destruct (thr_init Hy) as [-> ->]. discriminate.
  Qed.

  Lemma parent_ok_step i s s' : step_rel i s s' -> parent_ok s -> parent_ok s'.
  Proof.
    intros Hst Hpok y thy p Hy Hp. pose proof (step_length Hst).
    destruct (step_thr_inv Hst Hy) as [(th & Hth & _ & Hp' & _)|(_ & th & name & t & k & Hth & _ & ->)].
    - rewrite Hp' in Hp. exact (Nat.lt_le_trans _ _ _ (Hpok _ _ _ Hth Hp) H).
    - injection Hp as <-. exact (Nat.lt_le_trans _ _ _ (nth_error_Some_lt _ _ _ Hth) H).
  Qed.

  (* children_returned survives a step of a thread other than the spawner; and a step of the
     spawner that does not spawn *)
  Lemma children_returned_stable i s s' x P :
    step_rel i s s' ->
    (forall th name t k, thr s i = Some th -> th_code th = Spawn name t k -> i <> x) ->
    children_returned s x P -> children_returned s' x P.
  Proof.
    intros Hst Hns Hcr y thy Hy Hp.
    destruct (step_thr_inv Hst Hy) as [(th & Hth & _ & Hp' & _)|(_ & th & name & t & k & Hth & Hc & ->)].
    - rewrite Hp' in Hp. destruct (Hcr _ _ Hth Hp) as [Hin|[v Hv]]; [now left|right].
      exists v. eapply step_fin_stable; eauto.
    - injection Hp as <-. exfalso. eapply Hns; eauto.
  Qed.

  Lemma children_returned_weaken s x P P' :
    (forall y, In y P -> In y P' \/ exists v, fin s y (Some v)) ->
    children_returned s x P -> children_returned s x P'.
  Proof.
    intros HPP Hcr y thy Hy Hp. destruct (Hcr _ _ Hy Hp) as [Hin|Hv]; [|now right]. now apply HPP.
  Qed.

  Lemma tinv_stable i s s' x c :
    step_rel i s s' -> i <> x -> tinv s x c -> tinv s' x c.
  Proof.
    intros Hst Hne Ht.
    assert (Hcs : forall P, children_returned s x P -> children_returned s' x P).
    { intros P. eapply children_returned_stable; eauto. }
    destruct Ht as [Hhb Hcr|B post K nt todo hs Hs Hnt Htodo HK Hc Hcr|B post K h todo acc Hs HK Hc Hcr|n Hc].
    - apply TI_idle; auto.
    - eapply TI_spawning; eauto.
    - eapply TI_joining; eauto.
    - eapply TI_dead; eauto.
  Qed.

  (* a thread about to spawn is spawning the children of a block: one it has just reached (no
     child yet) or one it is inside *)
  Lemma tinv_spawn s x name t k :
    tinv s x (Spawn name t k) ->
    exists B (post : option val -> B + N) K nt todo hs,
      strict_post post /\ hb (snd nt) /\ Forall (fun nt => hb (snd nt)) todo /\ (forall bs, hb (K bs)) /\
      Spawn name t k = spawn_all_acc (nt :: todo) (rev hs) (fun hs' => join_all_acc post hs' [] K) /\
      children_returned s x hs.
  Proof.
    intros [Hhb Hcr|B post K nt todo hs Hs Hnt Htodo HK Hc Hcr|B post K h todo acc Hs HK Hc Hcr|n Hc];
      try discriminate.
    - destruct (hb_inv _ Hhb) as (B & post & K & nt & todo & Hs & Hnt & Htodo & HK & E).
      exists B, post, K, nt, todo, []. auto 10.
    - exists B, post, K, nt, todo, hs. auto 10.
  Qed.

  (* for each thread x of s': a new thread is idle without children; the thread that stepped moves
     along its `tinv` case (a spawn adds the new handle to the exempted list, a join of h removes h
     because h has returned - `strict_post` - or kills x); any other thread keeps its case, and
     its children only get more finished *)
  Lemma hb_step i s s' : hb_state s -> step_rel i s s' -> hb_state s'.
  Proof.
    intros [Hpok Hall] Hst. split; [eapply parent_ok_step; eauto|].
    intros x thx Hx.
    destruct (step_thr_inv Hst Hx)
      as [(th & Hth & _ & _ & Hsame & _)|(-> & th & name & t & k & Hth & Hc & ->)].
    2:{ (* a new thread: its body is hb, it has no children *)
      apply TI_idle.
      - pose proof (Hall _ _ Hth) as Ht. rewrite Hc in Ht.
        destruct (tinv_spawn _ _ _ _ _ Ht) as (B & post & K & nt & todo & hs & _ & Hnt & _ & _ & E & _).
        cbn in E. injection E as _ -> _. exact Hnt.
      - intros y thy Hy Hp. exfalso.
        destruct (step_thr_inv Hst Hy) as [(th0 & Hy0 & _ & Hp' & _)|(_ & th1 & ? & ? & ? & Hth1 & _ & ->)].
        + rewrite Hp' in Hp. exact (Nat.lt_irrefl _ (Hpok _ _ _ Hy0 Hp)).
        + injection Hp as Hp. apply nth_error_Some_lt in Hth1. rewrite Hp in Hth1. exact (Nat.lt_irrefl _ Hth1). }
    destruct (Nat.eq_dec x i) as [->|Hne]; [|rewrite (Hsame Hne); eapply tinv_stable; eauto].
    destruct (step_code Hst Hth) as (c' & Hi & Hnew). rewrite Hi in Hx; injection Hx as <-.
    cbn [th_code set_code]. pose proof (Hall _ _ Hth) as Ht.
    assert (Hcs_nospawn : forall P, (forall name t k, th_code th <> Spawn name t k) ->
                                    children_returned s i P -> children_returned s' i P).
    { intros P Hns. eapply children_returned_stable; eauto.
      intros th1 name t k Hth1 Hc1 _. rewrite Hth in Hth1; injection Hth1 as <-. eapply Hns; eauto. }
    destruct (th_code th) as [v|n|e k|name t k|hj k]; try contradiction.
    - (* Vis: only an idle thread has a Vis at its head *)
      destruct Hnew as (r & _ & _ & ->).
      destruct Ht as [Hhb Hcr|B post K nt todo hs Hs Hnt Htodo HK Hc' Hcr|B post K h todo acc Hs HK Hc' Hcr|n Hc'];
        try discriminate.
      apply TI_idle.
      + destruct r; cbn; [apply (hb_inv _ Hhb)|constructor].
      + apply Hcs_nospawn; [discriminate|exact Hcr].
    - subst c'. set (L := List.length (pool s)).
      destruct (tinv_spawn _ _ _ _ _ Ht) as (B & post & K & nt & todo & hs & Hs & Hnt & Htodo & HK & E & Hcr).
      cbn in E. injection E as -> -> ->.
      assert (Hcr' : children_returned s' i (hs ++ [L])).
      { intros y thy Hy Hp.
        destruct (step_thr_inv Hst Hy) as [(th0 & Hy0 & _ & Hp' & _)|(-> & _)].
        - rewrite Hp' in Hp. destruct (Hcr _ _ Hy0 Hp) as [Hin|[v Hv]]; [left; apply in_or_app; now left|right].
          exists v. eapply step_fin_stable; eauto.
        - left. apply in_or_app. right. now left. }
      destruct todo as [|nt' todo'].
      + (* last spawn: the joins begin *)
        cbn. rewrite rev_involutive.
        destruct (hs ++ [L]) as [|h0 rest] eqn:Ehs; [destruct hs; discriminate|].
        eapply TI_joining; eauto.
      + apply (TI_spawning _ _ _ _ post K nt' todo' (hs ++ [L]) Hs (Forall_inv Htodo) (Forall_inv_tail Htodo) HK);
          [|exact Hcr']. now rewrite rev_unit.
    - (* Join: only a joining thread has a Join at its head *)
      destruct Hnew as (r & Hf & ->).
      destruct Ht as [Hhb Hcr|B post K nt todo hs Hs Hnt Htodo HK Hc' Hcr|B post K h0 todo acc Hs HK Hc' Hcr|n Hc'];
        try discriminate.
      + exfalso. exact (hb_inv _ Hhb).
      + cbn in Hc'. injection Hc' as -> ->.
        assert (Hcr' : children_returned s' i (h0 :: todo)).
        { apply Hcs_nospawn; [discriminate|exact Hcr]. }
        destruct (post r) as [b|n] eqn:Ep; [|eapply TI_dead; eauto].
        assert (Hret : exists v, fin s' h0 (Some v)).
        { destruct r as [v|]; [|destruct Hs as [n Hn]; congruence].
          exists v. eapply step_fin_stable; eauto. }
        destruct todo as [|h' todo'].
        * cbn. apply TI_idle; [apply HK|].
          eapply children_returned_weaken; [|exact Hcr']. intros y [<-|[]]. now right.
        * eapply (TI_joining _ _ _ _ post K h' todo' (b :: acc)); eauto.
          eapply children_returned_weaken; [|exact Hcr']. intros y [<-|Hy]; [now right|now left].
  Qed.

  Lemma hb_reachable sched s : hb_state s -> hb_state (run_thr sched s).
  Proof. apply (run_thr_invariant _ handle hb_state). intros i s1 s2 H Hst. eapply hb_step; eauto. Qed.

  (* y was spawned by x, or by a thread spawned by x, ... *)
  Inductive anc (s : state) : nat -> nat -> Prop :=
  | anc_parent y thy x : thr s y = Some thy -> th_parent thy = Some x -> anc s y x
  | anc_up y thy p x : thr s y = Some thy -> th_parent thy = Some p -> anc s p x -> anc s y x.

  (* code that is outside every block: about to make an event, or returned *)
  Definition idle_head (c : comp val) : Prop := match c with Ret _ | Vis _ _ => True | _ => False end.

  Lemma idle_children_returned s x th :
    hb_state s -> thr s x = Some th -> idle_head (th_code th) -> children_returned s x [].
  Proof.
    intros [_ Hall] Hth Hi.
    destruct (Hall _ _ Hth) as [Hhb Hcr|B post K nt todo hs Hs Hnt Htodo HK Hc Hcr|B post K h0 todo acc Hs HK Hc Hcr|n Hc];
      auto; rewrite Hc in Hi; destruct Hi.
  Qed.

  (* a thread outside every block has joined everything below it: all its descendants have returned
     (each of them has RETURNED, hence is itself outside every block: induction along `anc`) *)
  Theorem idle_means_descendants_returned s x th :
    hb_state s -> thr s x = Some th -> idle_head (th_code th) ->
    forall y, anc s y x -> exists v, fin s y (Some v).
  Proof.
    intros Hs Hth Hi y Hanc. revert th Hth Hi.
    induction Hanc as [y thy x Hy Hp|y thy p x Hy Hp Hanc IH]; intros th Hth Hi.
    - destruct (idle_children_returned s x th Hs Hth Hi y thy Hy Hp) as [[]|Hv]. exact Hv.
    - destruct (IH th Hth Hi) as [vp (thp & Hthp & Hop)].
      assert (Hip : idle_head (th_code thp)) by (destruct (th_code thp); try discriminate; exact I).
      destruct (idle_children_returned s p thp Hs Hthp Hip y thy Hy Hp) as [[]|Hv]. exact Hv.
  Qed.

  Theorem returned_means_descendants_returned s x v :
    hb_state s -> fin s x (Some v) -> forall y, anc s y x -> exists v', fin s y (Some v').
  Proof.
    intros Hs (th & Hth & Ho). apply (idle_means_descendants_returned s x th Hs Hth).
    destruct (th_code th); try discriminate; exact I.
  Qed.

  Lemma anc_backward i s s' y h :
    step_rel i s s' -> parent_ok s -> y < List.length (pool s) -> anc s' y h -> anc s y h.
  Proof.
    intros Hst Hpok Hlt Hanc. induction Hanc as [y thy x Hy Hp|y thy p x Hy Hp Hanc IH];
      (destruct (step_thr_inv Hst Hy) as [(th0 & Hy0 & _ & Hp' & _)|(-> & _)]; [rewrite Hp' in Hp|destruct (Nat.lt_irrefl _ Hlt)]).
    - eapply anc_parent; eauto.
    - eapply anc_up; eauto.
  Qed.

  (* once a set of threads has returned, they and all their descendants stay silent for ever *)
  Theorem returned_subtrees_silent s1 hs :
    hb_state s1 -> (forall h, In h hs -> exists v, fin s1 h (Some v)) ->
    forall sched, let s2 := run_thr sched s1 in
    exists tnew, trace s2 = tnew ++ trace s1 /\
      forall x, In x tnew -> forall h, In h hs -> fst x <> h /\ ~ anc s2 (fst x) h.
  Proof.
    intros Hhb Hret sched.
    cut ((fun s => hb_state s /\ (forall h, In h hs -> exists v, fin s h (Some v)) /\
            exists tnew, trace s = tnew ++ trace s1 /\
              forall x, In x tnew -> fst x < List.length (pool s) /\
                forall h, In h hs -> fst x <> h /\ ~ anc s (fst x) h) (run_thr sched s1)).
    { intros (_ & _ & tnew & Htr & Hall). exists tnew. split; [exact Htr|]. intros x Hx. now apply Hall. }
    apply run_thr_invariant.
    - intros i s s' (Hs & Hr & tnew & Htr & Hall) Hst.
      pose proof (step_length Hst) as Hlen.
      assert (Hr' : forall h, In h hs -> exists v, fin s' h (Some v)).
      { intros h Hh. destruct (Hr h Hh) as [v Hv]. exists v. eapply step_fin_stable; eauto. }
      split; [eapply hb_step; eauto|]. split; [exact Hr'|].
      assert (Hold : forall x, In x tnew -> fst x < List.length (pool s') /\
                       forall h, In h hs -> fst x <> h /\ ~ anc s' (fst x) h).
      { intros x Hx. destruct (Hall x Hx) as [Hlt Hh]. split; [exact (Nat.lt_le_trans _ _ _ Hlt Hlen)|].
        intros h Hin. destruct (Hh h Hin) as [Hne Hna]. split; [exact Hne|].
        intros Ha. apply Hna. eapply anc_backward; eauto. apply Hs. }
      (* the thread that ran is unfinished, hence none of hs nor below one of them *)
      apply (trace_ext_step (fun y => y < List.length (pool s') /\ forall h, In h hs -> y <> h /\ ~ anc s' y h)
               (tnew := tnew) (t0 := trace s1) Hst); [|exact Htr|exact Hold].
      pose proof (step_unfinished Hst) as Hun.
      assert (Hil : i < List.length (pool s)).
      { destruct Hun as (th & Hth & _). eapply nth_error_Some_lt; eauto. }
      split; [exact (Nat.lt_le_trans _ _ _ Hil Hlen)|]. intros h Hin. destruct (Hr h Hin) as [v Hv]. split.
      + intros ->. eapply fin_not_unfinished; eauto.
      + intros Ha. apply (anc_backward _ _ _ _ _ Hst (proj1 Hs) Hil) in Ha.
        destruct (returned_means_descendants_returned _ _ _ Hs Hv _ Ha) as [v' Hv'].
        eapply fin_not_unfinished; eauto.
    - split; [exact Hhb|]. split; [exact Hret|]. exists []. split; [reflexivity|intros x []].
  Qed.

  (** ** The barrier for a block with nested blocks inside its children *)

  Context {B : Type}.
  Variable post : option val -> B + N.
  Variable nts : list (string * comp val).
  Variable K : list B -> comp val.
  Variable s0 : state.
  Variable c : nat.
  Hypothesis Hstrict : strict_post post.
  Hypothesis Hhb0 : hb_state s0.
  Hypothesis Hc0 : ccode wstate c s0 (gblock post nts K).

  (* (a) NESTED BARRIER, state form: the caller makes an event after the block only when every
     child AND every descendant of a child (threads of nested blocks, at any depth) has returned. *)
  Theorem nested_barrier sched :
    let s := run_thr sched s0 in
    forall tnew x, trace s = tnew ++ trace s0 -> In x tnew -> fst x = c ->
    exists hs, kids wstate s0 c s hs nts /\
      forall h, In h hs -> forall y, y = h \/ anc s y h -> exists v, fin s y (Some v).
  Proof.
    intros s tnew x Htr Hin Hx.
    destruct (barrier_events _ handle _ _ _ _ _ Hc0 sched tnew x Htr Hin Hx) as (hs & bs & Hk & Hj).
    exists hs. split; [exact Hk|]. intros h Hh y Hy.
    destruct (joined_strict_returned Hstrict Hj Hh) as [v Hv].
    destruct Hy as [->|Ha]; [eauto|].
    eapply returned_means_descendants_returned; eauto. now apply hb_reachable.
  Qed.

  (* (a) NESTED BARRIER, trace form.  Let sched1 lead to ANY state s1 in which the caller has left
     the block (all n children joined; before that the caller was silent, theorem [barrier_trace]).
     Then under every continuation sched2 no child and no descendant of a child makes any further
     trace entry: all their entries precede s1, hence precede every entry the caller makes after
     the block. *)
  Theorem nested_barrier_trace sched1 hs bs :
    let s1 := run_thr sched1 s0 in
    kids wstate s0 c s1 hs nts -> joined wstate post s1 hs bs ->
    forall sched2, let s2 := run_thr sched2 s1 in
    exists tnew, trace s2 = tnew ++ trace s1 /\
      forall x, In x tnew -> forall h, In h hs -> fst x <> h /\ ~ anc s2 (fst x) h.
  Proof.
    intros s1 Hk Hj sched2. apply returned_subtrees_silent.
    - now apply hb_reachable.
    - intros h Hh. exact (joined_strict_returned Hstrict Hj Hh).
  Qed.
End Nested.

Print Assumptions returned_means_descendants_returned.
Print Assumptions returned_subtrees_silent.
Print Assumptions nested_barrier.
Print Assumptions nested_barrier_trace.

Module ExNested.
  Import ExBlock.
  (* hereditarily block-structured code (theorems of section 10): a block whose first child
     contains a block *)
  Definition inner : comp val := ublock ["x"; "y"] [child 4; child 5] (fun vs => Ret (VTuple vs)).
  Definition progN : comp val := ublock ["p"; "q"] [inner; child 6] (fun vs => call 8 (fun _ => Ret (VTuple vs))).

  Lemma hb_call n k : (forall v, hb (k v)) -> hb (call n k).
  Proof. intros H. now constructor. Qed.
  Lemma hb_child n : hb (child n).
  Proof. apply hb_call; intros v. apply hb_call; intros _. constructor. Qed.
  Example progN_hb : hb progN.
  Proof.
    unfold progN, ublock. apply hb_block; [discriminate|apply unwrap_post_strict| |].
    - apply Forall_cons; [|apply Forall_cons; [apply hb_child|apply Forall_nil]].
      change (hb inner). unfold inner, ublock. apply hb_block; [discriminate|apply unwrap_post_strict| |].
      + apply Forall_cons; [apply hb_child|apply Forall_cons; [apply hb_child|apply Forall_nil]].
      + intros vs. constructor.
    - intros vs. apply hb_call. intros _. constructor.
  Qed.
  Example progN_hb_state : hb_state nat (init None progN 0).
  Proof. apply hb_init, progN_hb. Qed.
  Example run_nested :
    let s := run_fuel w_handle 20 (init None progN 0) in
    finished s = true /\ List.length (pool s) = 5 /\
    map th_parent (pool s) = [None; Some 0; Some 0; Some 1; Some 1].
  Proof. vm_compute. repeat split; reflexivity. Qed.
End ExNested.

(** * 11. (f) Schedule independence for a world with one component per thread NAME (one block) *)

Lemma firstn_snoc {A} (l : list A) m x : nth_error l m = Some x -> firstn (S m) l = firstn m l ++ [x].
Proof.
  revert m; induction l as [|a l IH]; intros [|m] H; cbn in *; try discriminate.
  - now injection H as ->.
  - f_equal. now apply IH.
Qed.

Lemma skipn_nth {A} (l : list A) j x : nth_error l j = Some x -> skipn j l = x :: skipn (S j) l.
Proof.
  revert j; induction l as [|a l IH]; intros [|j] H; cbn in *; try discriminate.
  - now injection H as ->.
  - now apply IH.
Qed.

Lemma NoDup_map_nth {A B} (f : A -> B) l i j a b :
  NoDup (map f l) -> nth_error l i = Some a -> nth_error l j = Some b -> f a = f b -> i = j.
Proof.
  intros Hnd Hi Hj Hf.
  apply (map_nth_error f) in Hi. apply (map_nth_error f) in Hj. rewrite Hf in Hi.
  eapply NoDup_nth_error; eauto. - eapply nth_error_Some_lt; eauto. - congruence.
Qed.

(* only events: no Spawn, no Join *)
Fixpoint visonly (c : comp val) : Prop :=
  match c with
  | Ret _ | Panic _ => True
  | Vis e k => forall v, visonly (k v)
  | _ => False
  end.

Lemma visonly_vis_next k r : (forall v, visonly (k v)) -> visonly (vis_next k r).
Proof. intros H. destruct r; cbn; auto. Qed.

Definition evs_of (i : nat) (t : list (nat * ev)) : list ev :=
  rev (map snd (filter (fun p => Nat.eqb (fst p) i) t)).

(* Threads.events_of is [evs_of] of the state's trace; the lemmas are about traces *)
Lemma events_of_evs_of {W} i (s : state W) : events_of i s = evs_of i (trace s).
Proof. reflexivity. Qed.

Lemma evs_of_cons_same i e t : evs_of i ((i, e) :: t) = evs_of i t ++ [e].
Proof. unfold evs_of. cbn. now rewrite Nat.eqb_refl. Qed.
Lemma evs_of_cons_other i j e t : j <> i -> evs_of i ((j, e) :: t) = evs_of i t.
Proof. intros H. unfold evs_of. cbn. apply Nat.eqb_neq in H. now rewrite H. Qed.
Lemma evs_of_none i t : (forall x, In x t -> fst x <> i) -> evs_of i t = [].
Proof.
  intros H. unfold evs_of. induction t as [|x t IH]; [reflexivity|]. cbn.
  destruct (Nat.eqb_spec (fst x) i) as [E|E]; [exfalso; eapply H; [now left|exact E]|].
  apply IH. intros y Hy. apply H. now right.
Qed.

Lemma seq_cons_lt a m n : m < n -> seq (a + m) (n - m) = (a + m) :: seq (a + S m) (n - S m).
Proof. intros H. replace (n - m) with (S (n - S m)) by lia. cbn [seq]. now rewrite Nat.add_succ_r. Qed.

Section Independent.
  Variable cstate : Type.
  (* the per-thread component of the world: thread NAME, event, that thread's own state *)
  Variable h : option string -> ev -> cstate -> option val * cstate.

  Definition name_eqb (a b : option string) : bool :=
    match a, b with
    | Some x, Some y => String.eqb x y
    | None, None => true
    | _, _ => false
    end.
  Lemma name_eqb_spec a b : name_eqb a b = true <-> a = b.
  Proof.
    destruct a as [x|], b as [y|]; cbn; split; try discriminate; auto.
    - intros H. apply String.eqb_eq in H. now subst.
    - intros H. injection H as ->. apply String.eqb_refl.
  Qed.

  Lemma name_eqb_refl a : name_eqb a a = true.
  Proof. now apply name_eqb_spec. Qed.

  Lemma name_eqb_neq a b : a <> b -> name_eqb a b = false.
  Proof. intros H. destruct (name_eqb a b) eqn:E; [|reflexivity]. apply name_eqb_spec in E. contradiction. Qed.

  (* THE PRODUCT WORLD: one component per thread name; an event of a thread named nm reads and
     writes the component nm only - threads with different names do not communicate *)
  Definition pworld := option string -> cstate.
  Definition pw_handle (nm : option string) (e : ev) (w : pworld) : option val * pworld :=
    let rs := h nm e (w nm) in
    (fst rs, fun n => if name_eqb n nm then snd rs else w n).

  Lemma answer_pw nm e w :
    fst (answer pw_handle nm e w) = fst (answer h nm e (w nm)) /\
    snd (answer pw_handle nm e w) nm = snd (answer h nm e (w nm)) /\
    forall n, n <> nm -> snd (answer pw_handle nm e w) n = w n.
  Proof.
    destruct e; cbn; rewrite ?name_eqb_refl; repeat split; auto; intros n Hn; now rewrite (name_eqb_neq n nm Hn).
  Qed.

  (* the reference: an events-only computation run ALONE on its own component *)
  Fixpoint seq_run (nm : option string) (c : comp val) (sg : cstate) : option val * cstate * list ev :=
    match c with
    | Ret v => (Some v, sg, [])
    | Panic _ => (None, sg, [])
    | Vis e k =>
        let a := answer h nm e sg in
        match fst a with
        | Some v => let r := seq_run nm (k v) (snd a) in (fst (fst r), snd (fst r), e :: snd r)
        | None => (None, snd a, [e])
        end
    | _ => (None, sg, [])
    end.

  (* a thread in the pool is on track towards the reference result [exp]: what it has done
     ([done]) followed by what it will do alone from here is the reference run *)
  Definition tracks (nm : option string) (code : comp val) (sg : cstate) (done : list ev)
             (exp : option val * cstate * list ev) : Prop :=
    let r := seq_run nm code sg in exp = (fst (fst r), snd (fst r), done ++ snd r).

  Lemma tracks_start nm code sg : tracks nm code sg [] (seq_run nm code sg).
  Proof. unfold tracks. now destruct (seq_run nm code sg) as [[o s'] evs]. Qed.

  Lemma tracks_step nm e k sg done exp :
    tracks nm (Vis e k) sg done exp ->
    tracks nm (vis_next k (fst (answer h nm e sg))) (snd (answer h nm e sg)) (done ++ [e]) exp.
  Proof.
    unfold tracks. intros ->. cbn [seq_run]. destruct (fst (answer h nm e sg)) as [v|]; cbn; now rewrite <- app_assoc.
  Qed.

  Lemma tracks_fin nm c sg done exp r :
    tracks nm c sg done exp -> outcome c = Some r -> r = fst (fst exp) /\ done = snd exp.
  Proof.
    unfold tracks. intros -> Ho. destruct c; cbn in *; try discriminate; injection Ho as <-; now rewrite app_nil_r.
  Qed.

  Notation state := (state pworld).
  Notation run_thr := (run_thr pw_handle).
  Notation step_rel := (step_rel pworld pw_handle).
  Notation thr := (thr_of pworld).
  Notation fin := (fin pworld).
  Notation unfinished := (unfinished pworld).

  Context {B : Type}.
  Variable post : option val -> B + N.
  Variable nts : list (string * comp val).
  Variable K : list B -> comp val.
  Variable s0 : state.
  Variable c : nat.
  Variable cn : option string.       (* the caller's name *)
  Variable th0 : thread.

  Hypothesis Hc0 : thr s0 c = Some th0.
  Hypothesis Hcn0 : th_name th0 = cn.
  Hypothesis Hcode0 : th_code th0 = gblock post nts K.
  Hypothesis Hothers : forall x, x <> c -> ~ unfinished s0 x.     (* nobody else is running *)
  Hypothesis Hnames : NoDup (map fst nts).                         (* the children's names differ *)
  Hypothesis Hcname : forall nt, In nt nts -> Some (fst nt) <> cn. (* and differ from the caller's *)
  Hypothesis Hvis : Forall (fun nt => visonly (snd nt)) nts.       (* children: events only *)
  Hypothesis HK : forall bs, visonly (K bs).                       (* continuation: events only *)

  Let L0 := List.length (pool s0).
  Let n := List.length nts.

  (* what child nt does when run alone on its own component of the initial world *)
  Definition expected (nt : string * comp val) : option val * cstate * list ev :=
    seq_run (Some (fst nt)) (snd nt) (world s0 (Some (fst nt))).
  Definition outcomes : list (option val) := map (fun nt => fst (fst (expected nt))) nts.

  Fixpoint posts (os : list (option val)) : list B + N :=
    match os with
    | [] => inl []
    | o :: r => match post o with
                | inl b => match posts r with inl bs => inl (b :: bs) | inr m => inr m end
                | inr m => inr m
                end
    end.

  (* what the caller does: the block is silent; then K on the joined values, alone on ITS component *)
  Definition caller_expected : option val * cstate * list ev :=
    match posts outcomes with
    | inl bs => seq_run cn (K bs) (world s0 cn)
    | inr _ => (None, world s0 cn, [])
    end.

  Lemma posts_all os bs : Forall2 (fun o b => post o = inl b) os bs -> posts os = inl bs.
  Proof. induction 1 as [|o b os bs Hob HF IH]; cbn; [reflexivity|]. now rewrite Hob, IH. Qed.

  Lemma posts_fail os m bs o n0 :
    Forall2 (fun o b => post o = inl b) (firstn m os) bs -> nth_error os m = Some o ->
    post o = inr n0 -> posts os = inr n0.
  Proof.
    revert m bs. induction os as [|o' os IH]; intros [|m] bs HF Hn Hp; cbn in HF, Hn |- *; try discriminate.
    - injection Hn as ->. now rewrite Hp.
    - inversion HF as [|? b ? bs' Hob HF']. rewrite Hob. now rewrite (IH m bs' HF' Hn Hp).
  Qed.

  (* nothing has happened yet under the name nm and the index x: a child not yet born, the caller inside the block *)
  Definition untouched (s : state) (tnew : list (nat * ev)) (x : nat) (nm : option string) : Prop :=
    world s nm = world s0 nm /\ evs_of x tnew = [].

  (* thread x, named nm, runs events-only code and has replayed a prefix of the run [exp] on its own component *)
  Definition replays (s : state) (tnew : list (nat * ev)) (x : nat) (nm : option string)
             (exp : option val * cstate * list ev) : Prop :=
    exists th, thr s x = Some th /\ th_name th = nm /\ visonly (th_code th) /\
      tracks nm (th_code th) (world s nm) (evs_of x tnew) exp.

  Definition ccode' (s : state) (d : comp val) : Prop :=
    exists th, thr s c = Some th /\ th_name th = cn /\ th_code th = d.

  Lemma ccode'_fin s d r : ccode' s d -> fin s c r -> outcome d = Some r.
  Proof. intros (th & Hth & _ & <-) (th' & Hth' & Ho). congruence. Qed.

  Inductive cphase (s : state) (tnew : list (nat * ev)) (j : nat) : Prop :=
  | CP_spawn :
      j < n ->
      ccode' s (spawn_all_acc (skipn j nts) (rev (seq L0 j)) (fun hs => join_all_acc post hs [] K)) ->
      untouched s tnew c cn -> cphase s tnew j
  | CP_join m bs :
      j = n -> m < n -> Forall2 (fun o b => post o = inl b) (firstn m outcomes) bs ->
      ccode' s (join_all_acc post (seq (L0 + m) (n - m)) (rev bs) K) ->
      untouched s tnew c cn -> cphase s tnew j
  | CP_past bs :
      j = n -> posts outcomes = inl bs -> replays s tnew c cn (seq_run cn (K bs) (world s0 cn)) -> cphase s tnew j
  | CP_fail n0 :
      j = n -> posts outcomes = inr n0 -> ccode' s (Panic n0) -> untouched s tnew c cn -> cphase s tnew j.

  (* the invariant after j spawns, tnew the trace since s0: the children are exactly threads
     L0 .. L0+j-1; each of them, and the caller once past the block, has replayed a prefix of its
     run alone on its own component (`tracks`); children not yet born and a caller still inside
     the block have left their components untouched *)
  Record finv (s : state) (tnew : list (nat * ev)) (j : nat) : Prop := {
    f_trace : trace s = tnew ++ trace s0;
    f_len : List.length (pool s) = L0 + j;
    f_old : forall x, x < L0 -> x <> c -> thr s x = thr s0 x;
    f_kids : forall i nt, i < j -> nth_error nts i = Some nt -> replays s tnew (L0 + i) (Some (fst nt)) (expected nt);
    f_unborn : forall i nt, j <= i -> nth_error nts i = Some nt -> untouched s tnew (L0 + i) (Some (fst nt));
    f_caller : cphase s tnew j
  }.

  Lemma c_lt_L0 : c < L0.
  Proof. eapply nth_error_Some_lt; eauto. Qed.

  Lemma nth_nts k : k < n -> exists nt, nth_error nts k = Some nt.
  Proof. intros Hk. destruct (nth_error nts k) eqn:E; [eauto|]. apply nth_error_None in E. fold n in E. lia. Qed.

  Lemma cphase_le s tnew j : cphase s tnew j -> j <= n.
  Proof. intros [H _ _|? ? -> _ _ _ _|? -> _ _|? -> _ _ _]; [now apply Nat.lt_le_incl|apply le_n..]. Qed.

  Lemma finv_init : finv s0 [] 0.
  Proof.
    constructor.
    - reflexivity.
    - symmetry. apply Nat.add_0_r.
    - reflexivity.
    - intros i nt Hi. destruct (Nat.nlt_0_r _ Hi).
    - split; reflexivity.
    - unfold gblock in Hcode0. destruct (Nat.eq_dec n 0) as [E|E].
      + assert (En : nts = []) by (apply length_zero_iff_nil; exact E).
        apply (CP_past _ _ _ []); [now symmetry|unfold outcomes; now rewrite En|].
        exists th0. rewrite Hcode0, En. split; [exact Hc0|]. split; [exact Hcn0|]. split; [apply HK|apply tracks_start].
      + apply CP_spawn.
        * now apply Nat.neq_0_lt_0.
        * exists th0. cbn. auto.
        * split; reflexivity.
  Qed.

  (* what the invariant says of thread x under the name nm depends on that thread, that component and its own events only *)
  Lemma replays_frame s s' tnew tnew' x nm exp :
    thr s' x = thr s x -> world s' nm = world s nm -> evs_of x tnew' = evs_of x tnew ->
    replays s tnew x nm exp -> replays s' tnew' x nm exp.
  Proof. intros Ht Hw He (th & H1 & H2 & H3 & H4). exists th. rewrite Ht, Hw, He. auto. Qed.

  Lemma untouched_frame (s s' : state) tnew tnew' x nm :
    world s' nm = world s nm -> evs_of x tnew' = evs_of x tnew -> untouched s tnew x nm -> untouched s' tnew' x nm.
  Proof. intros Hw He [H1 H2]. split; congruence. Qed.

  Lemma replays_start s tnew x nm th :
    thr s x = Some th -> th_name th = nm -> visonly (th_code th) -> untouched s tnew x nm ->
    replays s tnew x nm (seq_run nm (th_code th) (world s0 nm)).
  Proof. intros Hth Hn Hv [Hw He]. exists th. rewrite Hw, He. auto using tracks_start. Qed.

  Lemma cphase_frame s s' tnew tnew' j :
    thr s' c = thr s c -> world s' cn = world s cn -> evs_of c tnew' = evs_of c tnew ->
    cphase s tnew j -> cphase s' tnew' j.
  Proof.
    intros Ht Hw He Hp.
    assert (Hcc : forall d, ccode' s d -> ccode' s' d).
    { intros d (th & H1 & H2). exists th. rewrite Ht. auto. }
    pose proof (untouched_frame s s' tnew tnew' c cn Hw He) as Hq.
    destruct Hp as [Hj Hc Hqq|m bs Hj Hm HF Hc Hqq|bs Hj Hps Hr|n0 Hj Hps Hc Hqq].
    - apply CP_spawn; auto.
    - eapply CP_join; eauto.
    - eapply CP_past; eauto using replays_frame.
    - eapply CP_fail; eauto.
  Qed.

  Lemma replays_fin s tnew x nm exp r :
    replays s tnew x nm exp -> fin s x r -> r = fst (fst exp) /\ evs_of x tnew = snd exp.
  Proof.
    intros (th & Hth & _ & _ & Htr) (th' & Hth' & Ho). rewrite Hth in Hth'; injection Hth' as <-.
    eapply tracks_fin; eauto.
  Qed.

  Lemma names_differ i i' nt nt' :
    nth_error nts i = Some nt -> nth_error nts i' = Some nt' -> i <> i' -> Some (fst nt) <> Some (fst nt').
  Proof. intros Hi Hi' Hne E. injection E as E. apply Hne. eapply NoDup_map_nth; eauto. Qed.

  (* a step of a thread touches the component of its own name only *)
  Lemma pw_step_world i s s' th nm :
    step_rel i s s' -> thr s i = Some th -> nm <> th_name th -> world s' nm = world s nm.
  Proof.
    intros Hst Hth Hne. pose proof (step_inv Hst Hth) as H.
    destruct (th_code th) as [v|m|e k|name t k|hj k]; try contradiction.
    - destruct H as (r & w' & Ha & ->). destruct (answer_pw (th_name th) e (world s)) as (_ & _ & H3).
      rewrite Ha in H3. now apply H3.
    - now subst s'.
    - destruct H as (r & _ & ->). reflexivity.
  Qed.

  (* an events-only thread i named nm makes a step: it makes the event its reference run makes next,
     on its own component *)
  Lemma replays_step i s s' nm tnew exp :
    step_rel i s s' -> replays s tnew i nm exp ->
    exists e, trace s' = (i, e) :: trace s /\ List.length (pool s') = List.length (pool s) /\
              replays s' ((i, e) :: tnew) i nm exp.
  Proof.
    intros Hst (th & Hth & <- & Hv & Htrk). pose proof (step_inv Hst Hth) as H.
    destruct (th_code th) as [v|m|e k|name t k|hj k]; cbn in Hv; try contradiction.
    destruct H as (r & w' & Ha & Es').
    destruct (answer_pw (th_name th) e (world s)) as (H1 & H2 & _). rewrite Ha in H1, H2. cbn [fst snd] in H1, H2.
    destruct (thr_upd _ s s' i th _ (f_equal pool Es') Hth) as (Hi & Hlen).
    exists e. split; [now rewrite Es'|]. split; [exact Hlen|]. exists (set_code th (vis_next k r)).
    subst s'. cbn [world th_name th_code set_code]. split; [exact Hi|]. split; [reflexivity|].
    split; [now apply visonly_vis_next|]. rewrite H1, H2, evs_of_cons_same. now apply tracks_step.
  Qed.

  (* only the caller and the children run, under the names the invariant knows *)
  Lemma finv_runner i s s' tnew j :
    finv s tnew j -> step_rel i s s' ->
    exists thi, thr s i = Some thi /\
      ((i = c /\ th_name thi = cn) \/
       exists k nt, i = L0 + k /\ k < j /\ nth_error nts k = Some nt /\ th_name thi = Some (fst nt)).
  Proof.
    intros Hf Hst. destruct (step_unfinished Hst) as (thi & Hthi & Ho). exists thi. split; [exact Hthi|].
    destruct (Nat.eq_dec i c) as [->|Hic].
    - left. split; [reflexivity|].
      destruct (f_caller _ _ _ Hf) as [_ (th & Hth & Hn & _) _|? ? _ _ _ (th & Hth & Hn & _) _|? _ _ (th & Hth & Hn & _)|? _ _ (th & Hth & Hn & _) _];
        congruence.
    - right. destruct (Nat.lt_ge_cases i L0) as [HiL|HiL].
      { (* an old thread other than the caller is finished *)
        exfalso. apply (Hothers i Hic). rewrite (f_old _ _ _ Hf i HiL Hic) in Hthi. exists thi; auto. }
      destruct (Nat.le_exists_sub L0 i HiL) as (k & -> & _). rewrite (Nat.add_comm k L0) in *.
      pose proof (nth_error_Some_lt _ _ _ Hthi) as Hkj. rewrite (f_len _ _ _ Hf) in Hkj. apply Nat.add_lt_mono_l in Hkj.
      destruct (nth_nts k) as [nt Hnt]; [exact (Nat.lt_le_trans _ _ _ Hkj (cphase_le _ _ _ (f_caller _ _ _ Hf)))|].
      exists k, nt. destruct (f_kids _ _ _ Hf _ nt Hkj Hnt) as (th & Hth & Hn & _).
      rewrite Hthi in Hth; injection Hth as <-. auto.
  Qed.

  (* the caller's steps inside the block make no event and leave the world alone: nothing changes for
     the other threads *)
  Lemma finv_silent s s' tnew j :
    finv s tnew j -> step_rel c s s' -> trace s' = trace s -> world s' = world s ->
    trace s' = tnew ++ trace s0 /\
    (forall x, x < L0 -> x <> c -> thr s' x = thr s0 x) /\
    (forall i nt, i < j -> nth_error nts i = Some nt -> replays s' tnew (L0 + i) (Some (fst nt)) (expected nt)) /\
    (forall i nt, j <= i -> nth_error nts i = Some nt -> untouched s' tnew (L0 + i) (Some (fst nt))).
  Proof.
    intros Hf Hst Htr Hw. pose proof c_lt_L0 as HcL.
    assert (Hold : forall x, x <> c -> x < L0 + j -> thr s' x = thr s x).
    { intros x Hne Hx. eapply step_other; eauto. now rewrite (f_len _ _ _ Hf). }
    split; [rewrite Htr; apply (f_trace _ _ _ Hf)|]. split; [|split].
    - intros x Hx Hne. rewrite <- (f_old _ _ _ Hf x Hx Hne). apply Hold; [exact Hne|now apply Nat.lt_lt_add_r].
    - intros i nt Hi Hnt.
      apply (replays_frame s s' tnew); [apply Hold; [lia|now apply Nat.add_lt_mono_l]|now rewrite Hw|reflexivity|now apply (f_kids _ _ _ Hf)].
    - intros i nt Hi Hnt. apply (untouched_frame s s' tnew); [now rewrite Hw|reflexivity|now apply (f_unborn _ _ _ Hf)].
  Qed.

  (* a spawn: child j is born and starts its reference run *)
  Lemma finv_spawn s s' tnew j :
    finv s tnew j -> step_rel c s s' -> j < n ->
    ccode' s (spawn_all_acc (skipn j nts) (rev (seq L0 j)) (fun hs => join_all_acc post hs [] K)) ->
    untouched s tnew c cn -> finv s' tnew (S j).
  Proof.
    intros Hf Hst Hj (th & Hth & Hn & Hcode) Hq. pose proof (f_len _ _ _ Hf) as Hlen.
    destruct (nth_nts j Hj) as [nt Hnt]. rewrite (skipn_nth _ _ _ Hnt) in Hcode. cbn [spawn_all_acc] in Hcode.
    pose proof (spawn_step Hst Hth Hcode) as Es'. rewrite Hlen in Es'.
    destruct (thr_upd_app _ s s' c th _ _ (f_equal pool Es') Hth) as (Hc' & HL & Hlen'). rewrite Hlen in HL, Hlen'.
    assert (Hw : world s' = world s) by now rewrite Es'.
    destruct (finv_silent _ _ _ _ Hf Hst) as (Htr & Hold & Hkids & Hunb); [now rewrite Es'|exact Hw|].
    constructor; auto.
    - rewrite Hlen'. symmetry. apply Nat.add_succ_r.
    - intros i nt' Hi Hnt'. destruct (Nat.eq_dec i j) as [->|Hne]; [|apply Hkids; [lia|exact Hnt']].
      rewrite Hnt in Hnt'; injection Hnt' as <-. apply (replays_start s' tnew _ _ _ HL eq_refl).
      + rewrite Forall_forall in Hvis. apply Hvis. eapply nth_error_In; eauto.
      + apply Hunb; [apply le_n|exact Hnt].
    - intros i nt' Hi Hnt'. apply Hunb; [now apply Nat.lt_le_incl|exact Hnt'].
    - assert (Hq' : untouched s' tnew c cn) by (subst s'; exact Hq).
      assert (Hcc : ccode' s' (spawn_all_acc (skipn (S j) nts) (rev (seq L0 (S j))) (fun hs => join_all_acc post hs [] K))).
      { eexists. split; [exact Hc'|]. split; [exact Hn|]. cbn [th_code set_code]. now rewrite seq_S, rev_unit. }
      destruct (Nat.eq_dec (S j) n) as [E|E]; [|apply CP_spawn; auto; lia].
      (* that was the last spawn *)
      apply (CP_join _ _ _ 0 []); auto. { rewrite <- E. apply Nat.lt_0_succ. } { constructor. }
      rewrite E in Hcc. unfold n in Hcc at 1. rewrite skipn_all in Hcc. cbn [spawn_all_acc] in Hcc.
      rewrite rev_involutive in Hcc. now rewrite Nat.add_0_r, Nat.sub_0_r.
  Qed.

  (* the join of child m: its outcome is the one its reference run gives *)
  Lemma finv_join s s' tnew m bs :
    finv s tnew n -> step_rel c s s' -> m < n ->
    Forall2 (fun o b => post o = inl b) (firstn m outcomes) bs ->
    ccode' s (join_all_acc post (seq (L0 + m) (n - m)) (rev bs) K) -> untouched s tnew c cn ->
    finv s' tnew n.
  Proof.
    intros Hf Hst Hm HF (th & Hth & Hn & Hcode) Hq.
    rewrite (seq_cons_lt _ _ _ Hm) in Hcode. cbn [join_all_acc] in Hcode.
    destruct (join_step Hst Hth Hcode) as (r & Hfin & Es').
    assert (Hom : nth_error outcomes m = Some r).
    { destruct (nth_nts m Hm) as [nt Hnt].
      destruct (replays_fin _ _ _ _ _ _ (f_kids _ _ _ Hf m nt Hm Hnt) Hfin) as [-> _].
      unfold outcomes. now rewrite (map_nth_error _ _ _ Hnt). }
    destruct (thr_upd _ s s' c th _ (f_equal pool Es') Hth) as (Hc' & Hlen').
    destruct (finv_silent _ _ _ _ Hf Hst) as (Htr & Hold & Hkids & Hunb); [now rewrite Es'|now rewrite Es'|].
    constructor; auto. { now rewrite Hlen', (f_len _ _ _ Hf). }
    assert (Hq' : untouched s' tnew c cn) by (subst s'; exact Hq).
    destruct (post r) as [b|n1] eqn:Ep.
    2:{ apply (CP_fail _ _ _ n1); auto; [eapply posts_fail; eauto|]. eexists. split; [exact Hc'|]. auto. }
    assert (HF' : Forall2 (fun o b => post o = inl b) (firstn (S m) outcomes) (bs ++ [b])).
    { rewrite (firstn_snoc _ _ _ Hom). apply Forall2_app; [exact HF|]. now constructor. }
    destruct (Nat.eq_dec (S m) n) as [E|E].
    - (* that was the last join *)
      assert (Hall : posts outcomes = inl (bs ++ [b])).
      { apply posts_all. rewrite E in HF'. unfold n, outcomes in HF'.
        rewrite <- (map_length (fun nt => fst (fst (expected nt))) nts), firstn_all in HF'. exact HF'. }
      rewrite <- E, Nat.sub_diag in Hc'. cbn [seq join_all_acc rev] in Hc'. rewrite rev_involutive in Hc'.
      apply (CP_past _ _ _ (bs ++ [b]) eq_refl Hall). exact (replays_start s' tnew c cn _ Hc' Hn (HK _) Hq').
    - apply (CP_join _ _ _ (S m) (bs ++ [b])); auto. { lia. }
      eexists. split; [exact Hc'|]. split; [exact Hn|]. cbn [th_code set_code]. now rewrite rev_unit.
  Qed.

  (* an event of thread i, the caller or a child: the other threads have other names, so their
     components and their own events are as before *)
  Lemma finv_event i s s' tnew e j :
    finv s tnew j -> step_rel i s s' -> trace s' = (i, e) :: trace s ->
    List.length (pool s') = List.length (pool s) ->
    (forall k nt, nth_error nts k = Some nt -> L0 + k = i ->
       replays s' ((i, e) :: tnew) (L0 + k) (Some (fst nt)) (expected nt)) ->
    (i = c -> cphase s' ((i, e) :: tnew) j) ->
    finv s' ((i, e) :: tnew) j.
  Proof.
    intros Hf Hst Htr Hlen Hk Hc.
    destruct (finv_runner _ _ _ _ _ Hf Hst) as (thi & Hthi & Hrun). pose proof c_lt_L0 as HcL.
    pose proof (nth_error_Some_lt _ _ _ Hthi) as Hil. rewrite (f_len _ _ _ Hf) in Hil.
    pose proof (step_other_len Hst Hlen) as Hold.
    assert (Hw : forall nm, nm <> th_name thi -> world s' nm = world s nm).
    { intros nm. eapply pw_step_world; eauto. }
    assert (Hkn : forall k nt, nth_error nts k = Some nt -> L0 + k <> i -> Some (fst nt) <> th_name thi).
    { intros k nt Hnt Hne. destruct Hrun as [[_ ->]|(k0 & nt0 & -> & _ & Hnt0 & ->)].
      - apply Hcname. eapply nth_error_In; eauto.
      - eapply names_differ; eauto. }
    constructor.
    - rewrite Htr, (f_trace _ _ _ Hf). reflexivity.
    - now rewrite Hlen, (f_len _ _ _ Hf).
    - intros x Hx Hne. rewrite <- (f_old _ _ _ Hf x Hx Hne). apply Hold.
      destruct Hrun as [[-> _]|(k0 & _ & -> & _)]; [exact Hne|lia].
    - intros k nt Hkj Hnt. destruct (Nat.eq_dec (L0 + k) i) as [E|E]; [now apply Hk|].
      apply (replays_frame s s' tnew); [apply Hold, E|eapply Hw, Hkn; eauto| |now apply (f_kids _ _ _ Hf)].
      apply evs_of_cons_other; auto.
    - intros k nt Hkj Hnt. assert (E : L0 + k <> i) by lia.
      apply (untouched_frame s s' tnew); [eapply Hw, Hkn; eauto|apply evs_of_cons_other; auto|now apply (f_unborn _ _ _ Hf)].
    - destruct (Nat.eq_dec i c) as [E|E]; [now apply Hc|].
      apply (cphase_frame s s' tnew); [apply Hold; auto| |apply evs_of_cons_other; auto|apply (f_caller _ _ _ Hf)].
      apply Hw. destruct Hrun as [[Hic _]|(k0 & nt0 & _ & _ & Hnt0 & ->)]; [contradiction|].
      apply not_eq_sym, Hcname. eapply nth_error_In; eauto.
  Qed.

  (* only the caller or a born child can step (`finv_runner`); a step that makes no event changes
     the stepping thread alone (`finv_silent`), an event goes to the component of its own name and
     extends that thread's replay by one, leaving all other names' components as they were *)
  Lemma finv_step i s s' tnew j :
    finv s tnew j -> step_rel i s s' -> exists tnew' j', finv s' tnew' j'.
  Proof.
    intros Hf Hst. pose proof c_lt_L0 as HcL.
    destruct (finv_runner _ _ _ _ _ Hf Hst) as (thi & Hthi & [[-> Hni]|(k & nt & -> & Hkj & Hnt & Hni)]).
    - (* the caller steps *)
      destruct (f_caller _ _ _ Hf) as [Hj Hc Hq|m bs Hj Hm HF Hc Hq|bs Hj Hps Hr|n0 Hj Hps Hc Hq].
      + exists tnew, (S j). now apply (finv_spawn s).
      + exists tnew, n. subst j. now apply (finv_join s s' tnew m bs).
      + (* past the block: an event of K *)
        destruct (replays_step _ _ _ _ _ _ Hst Hr) as (e & Htr' & Hlen' & Hr').
        exists ((c, e) :: tnew), j. apply (finv_event c s s' tnew e j Hf Hst Htr' Hlen').
        * intros k nt' _ E. lia.
        * intros _. now apply (CP_past _ _ _ bs).
      + (* failed: the caller is finished *)
        exfalso. destruct Hc as (th & Hth & _ & Hcode). apply (step_not_fin (r := None) Hst).
        exists th. split; [exact Hth|now rewrite Hcode].
    - (* child k makes an event *)
      destruct (replays_step _ _ _ _ _ _ Hst (f_kids _ _ _ Hf k nt Hkj Hnt)) as (e & Htr' & Hlen' & Hr').
      exists ((L0 + k, e) :: tnew), j. apply (finv_event (L0 + k) s s' tnew e j Hf Hst Htr' Hlen').
      + intros k' nt' Hnt' E. apply Nat.add_cancel_l in E. subst k'.
        rewrite Hnt in Hnt'; injection Hnt' as <-. exact Hr'.
      + intros E. lia.
  Qed.

  Lemma finv_reachable sched : exists tnew j, finv (run_thr sched s0) tnew j.
  Proof.
    cut ((fun s => exists tnew j, finv s tnew j) (run_thr sched s0)); [auto|].
    apply run_thr_invariant.
    - intros i s s' (tnew & j & Hf) Hst. eapply finv_step; eauto.
    - exists [], 0. apply finv_init.
  Qed.

  (* (f) for ONE block whose children and continuation are events-only (no nested
     spawning/joining), product world, distinct names, nobody else running.  Under EVERY schedule:
     - at most the n children are ever created, child i is thread L0+i;
     - whenever child i is finished, its outcome and its own event sequence are those of running
       its body ALONE on its own component - they do not depend on the schedule;
     - whenever the caller is finished, its outcome and its own event sequence are the ones
       determined by those outcomes - they do not depend on the schedule.
     Nested blocks of any depth, where handles only reach `Join`: proofs/ThreadsIndep.v
     (schedule_independence_nested, two_schedules_agree_nested).  Left out everywhere: arbitrary
     code whose children spawn and join freely.  That needs a diamond argument up to a renaming of
     thread indices (two threads that spawn in different orders get different handles, and handles
     are captured by HOAS continuations). *)
  Theorem schedule_independence_partial sched :
    let s := run_thr sched s0 in
    exists tnew, trace s = tnew ++ trace s0 /\
      List.length (pool s) <= L0 + n /\
      (forall i nt r, nth_error nts i = Some nt -> fin s (L0 + i) r ->
         r = fst (fst (expected nt)) /\ evs_of (L0 + i) tnew = snd (expected nt)) /\
      (forall r, fin s c r ->
         r = fst (fst caller_expected) /\ evs_of c tnew = snd caller_expected).
  Proof.
    intros s. destruct (finv_reachable sched) as (tnew & j & Hf). fold s in Hf.
    exists tnew. split; [apply (f_trace _ _ _ Hf)|]. split.
    { rewrite (f_len _ _ _ Hf). apply Nat.add_le_mono_l. exact (cphase_le _ _ _ (f_caller _ _ _ Hf)). }
    split.
    - intros i nt r Hnt Hfin. apply (replays_fin s tnew _ (Some (fst nt))); [|exact Hfin]. apply (f_kids _ _ _ Hf); [|exact Hnt].
      destruct Hfin as (th & Hth & _). apply nth_error_Some_lt in Hth. rewrite (f_len _ _ _ Hf) in Hth.
      now apply Nat.add_lt_mono_l in Hth.
    - intros r Hfin. unfold caller_expected.
      destruct (f_caller _ _ _ Hf) as [Hj Hc Hq|m bs Hj Hm HF Hc Hq|bs Hj Hps Hr|n0 Hj Hps Hc Hq].
      + exfalso. destruct (nth_nts j Hj) as [nt Hnt]. rewrite (skipn_nth _ _ _ Hnt) in Hc.
        discriminate (ccode'_fin _ _ _ Hc Hfin).
      + exfalso. rewrite (seq_cons_lt _ _ _ Hm) in Hc. discriminate (ccode'_fin _ _ _ Hc Hfin).
      + rewrite Hps. exact (replays_fin _ _ _ _ _ _ Hr Hfin).
      + rewrite Hps. pose proof (ccode'_fin _ _ _ Hc Hfin) as E. injection E as <-. destruct Hq as [_ Hq]. cbn. auto.
  Qed.

  (* the two-schedule form: any two schedules that finish the caller (a fortiori: that finish
     everything) agree on the caller's result, on the caller's own events and, for every child that
     is finished in both, on its result and its own events *)
  Corollary two_schedules_agree_partial sched1 sched2 :
    let s1 := run_thr sched1 s0 in let s2 := run_thr sched2 s0 in
    forall t1 t2, trace s1 = t1 ++ trace s0 -> trace s2 = t2 ++ trace s0 ->
    (forall r1 r2, fin s1 c r1 -> fin s2 c r2 -> r1 = r2 /\ evs_of c t1 = evs_of c t2) /\
    (forall i r1 r2, i < n -> fin s1 (L0 + i) r1 -> fin s2 (L0 + i) r2 ->
                     r1 = r2 /\ evs_of (L0 + i) t1 = evs_of (L0 + i) t2).
  Proof.
    intros s1 s2 t1 t2 Ht1 Ht2.
    destruct (schedule_independence_partial sched1) as (t1' & Ht1' & _ & Hk1 & Hc1).
    destruct (schedule_independence_partial sched2) as (t2' & Ht2' & _ & Hk2 & Hc2).
    assert (t1' = t1) as -> by exact (app_inv_tail _ _ _ (eq_trans (eq_sym Ht1') Ht1)).
    assert (t2' = t2) as -> by exact (app_inv_tail _ _ _ (eq_trans (eq_sym Ht2') Ht2)).
    split.
    - intros r1 r2 H1 H2. destruct (Hc1 _ H1) as [-> ->]. destruct (Hc2 _ H2) as [-> ->]. auto.
    - intros i r1 r2 Hi H1 H2.
      destruct (nth_nts i Hi) as [nt Hnt].
      destruct (Hk1 _ _ _ Hnt H1) as [-> ->]. destruct (Hk2 _ _ _ Hnt H2) as [-> ->]. auto.
  Qed.
End Independent.

Print Assumptions schedule_independence_partial.
Print Assumptions two_schedules_agree_partial.

Module ExIndep.
  Import ExBlock.
  (* (f) a product world: every thread NAME has its own counter *)
  Definition c_handle (nm : option string) (e : ev) (sg : nat) : option val * nat :=
    match e with
    | ECall (VOpq n) _ => (Some (VInt (n + Z.of_nat sg)), S sg)
    | _ => (Some VUnit, S sg)
    end.
  Definition ntsI := combine ["a"; "b"; "c"] [child 1; child 2; child 3].
  Definition thI := mkThread (Some "main") None (block ["a"; "b"; "c"] [child 1; child 2; child 3] K3).
  Definition sI : state (pworld nat) := mkState [thI] (fun _ => 0) [].

  (* ExBlock.schedA and ExBlock.schedB, whose results differ in the shared world of ExBlock,
     give one result when every name has its own component: *)
  Example indep_A :
    result_of 0 (run_thr (pw_handle nat c_handle) schedA sI) =
      Some (Some (VTuple [VInt 7; VSome (VInt 1); VSome (VInt 2); VSome (VInt 3)])).
  Proof. vm_compute. reflexivity. Qed.
  Example indep_B :
    result_of 0 (run_thr (pw_handle nat c_handle) schedB sI) =
      Some (Some (VTuple [VInt 7; VSome (VInt 1); VSome (VInt 2); VSome (VInt 3)])).
  Proof. vm_compute. reflexivity. Qed.

  (* ... as theorem (f) says for ALL pairs of schedules: its hypotheses hold here *)
  Example indep_all sched1 sched2 r1 r2 :
    fin _ (run_thr (pw_handle nat c_handle) sched1 sI) 0 r1 ->
    fin _ (run_thr (pw_handle nat c_handle) sched2 sI) 0 r2 -> r1 = r2.
  Proof.
    intros H1 H2.
    destruct (run_thr_trace _ (pw_handle nat c_handle) sched1 sI) as [t1 Ht1].
    destruct (run_thr_trace _ (pw_handle nat c_handle) sched2 sI) as [t2 Ht2].
    assert (Hoth : forall x, x <> 0 -> ~ unfinished (pworld nat) sI x).
    { intros [|x] Hx (th & Hth & _); [congruence|]. destruct x; discriminate. }
    assert (Hnd : NoDup (map fst ntsI)).
    { cbn. repeat constructor; cbn; intuition discriminate. }
    assert (Hcn : forall nt, In nt ntsI -> Some (fst nt) <> Some "main").
    { intros nt [<-|[<-|[<-|[]]]]; cbn; discriminate. }
    assert (Hv : Forall (fun nt => visonly (snd nt)) ntsI) by (repeat constructor; cbn; auto).
    assert (HK : forall bs, visonly (K3 bs)) by (intros bs; cbn; auto).
    destruct (two_schedules_agree_partial nat c_handle (@inl (option val) N) ntsI K3 sI 0 (Some "main") thI
                eq_refl eq_refl eq_refl Hoth Hnd Hcn Hv HK sched1 sched2 t1 t2 Ht1 Ht2) as [Hc _].
    destruct (Hc _ _ H1 H2) as [E _]. exact E.
  Qed.
End ExIndep.

