(* Properties of the reference semantics (Spec.v), for every program, every abstract user-code
   semantics and every world (the world is the set of all answers to `Vis`; see Leaves.v).
   First the equations that say what the definitions of Spec.v do on each form of input (a wrapper node, a step
   with one or several active branches, `steps` in each kind: C03, C06; the handlers: C13), then bookkeeping on
   lists and states, then the properties built on them: C05 (transposition), C04 (result positions),
   C12 (`let` names). *)
From Coq Require Import Lia.
From Join Require Import Tok Ast Comp Std Denote Spec CompLaws DocTable Leaves.
Local Open Scope nat_scope.

(* a step distinguishes no / one / several active branches; destructing `multiP l` rewrites both l and the test *)
Inductive multi_spec {A} : list A -> bool -> Prop :=
| multi_none : multi_spec [] false
| multi_one a : multi_spec [a] false
| multi_many a b r : multi_spec (a :: b :: r) true.

Lemma multiP {A} (l : list A) : multi_spec l (Nat.ltb 1 (List.length l)).
Proof. destruct l as [|a [|b r]]; constructor. Qed.

Lemma extract_single b sr : extract [b] sr = Ret [sr].
Proof. reflexivity. Qed.

Lemma extract_multi acts sr :
  List.length acts <> 1 ->
  extract acts sr = match sr with
                    | DV (VTuple vs) => if Nat.eqb (List.length vs) (List.length acts) then Ret (map DV vs)
                                        else Panic P_ILLTYPED
                    | _ => Panic P_ILLTYPED
                    end.
Proof. destruct acts as [|a [|a' r]]; [reflexivity|intros H; contradiction H; reflexivity|reflexivity]. Qed.

Lemma rewrap_single b w : rewrap [b] w = Ret [DV (VOk w)].
Proof. reflexivity. Qed.

Lemma rewrap_multi acts w :
  List.length acts <> 1 ->
  rewrap acts w = match w with
                  | VTuple ws => mapM (fun i => match nth_error ws i with
                                                | Some x => Ret (DV (VOk x))
                                                | None => Panic P_ILLTYPED end) (seq 0 (List.length acts))
                  | _ => Panic P_ILLTYPED
                  end.
Proof. destruct acts as [|a [|a' r]]; [reflexivity|intros H; contradiction H; reflexivity|reflexivity]. Qed.

Section NodeInd.
  Variable P : node -> Prop.
  Variable Q : list node -> Prop.
  Hypothesis HA : forall e a, P (NAct e a).
  Hypothesis HW : forall e a inner, Q inner -> P (NWrap e a inner).
  Hypothesis HN : Q [].
  Hypothesis HC : forall x r, P x -> Q r -> Q (x :: r).

  Fixpoint node_ind2 (n : node) : P n :=
    match n with
    | NAct e a => HA e a
    | NWrap e a inner =>
        HW e a inner ((fix go (l : list node) : Q l :=
                         match l with [] => HN | x :: r => HC x r (node_ind2 x) (go r) end) inner)
    end.
  Definition nodes_ind2 : forall l, Q l :=
    fix go (l : list node) : Q l :=
      match l with [] => HN | x :: r => HC x r (node_ind2 x) (go r) end.
End NodeInd.

Lemma capture_node_wrap sn b e a inner : capture_node sn b (NWrap e a inner) = capture_nodes sn b inner.
Proof.
  cbn [capture_node]. induction inner as [|x r IH]; [reflexivity|].
  cbn [capture_nodes]. rewrite <- IH. reflexivity.
Qed.

Definition cls (d : dval) : option bool :=
  match d with
  | DV (VSome _) | DV (VOk _) => Some true
  | DV VNone | DV (VErr _) => Some false
  | _ => None
  end.

Lemma classify_cls d : classify d = match cls d with Some b => Ret b | None => Panic P_ILLTYPED end.
Proof. destruct d as [[]| | | | | |]; reflexivity. Qed.

(* the first value, in branch order, that is a failure *)
Fixpoint first_fail_list (ds : list dval) : option dval :=
  match ds with
  | [] => None
  | d :: r => match cls d with Some false => Some d | _ => first_fail_list r end
  end.
Definition all_classified (ds : list dval) : bool :=
  forallb (fun d => match cls d with Some _ => true | None => false end) ds.

Lemma mapM_classify ds :
  mapM classify ds = if all_classified ds then Ret (map (fun d => match cls d with Some b => b | None => true end) ds)
                     else Panic P_ILLTYPED.
Proof.
  induction ds as [|d ds IH]; cbn [mapM all_classified forallb map]; [reflexivity|].
  rewrite classify_cls. destruct (cls d) as [b|]; cbn [bind andb]; [|reflexivity].
  rewrite IH. fold (all_classified ds). destruct (all_classified ds); reflexivity.
Qed.

Lemma first_false_cls ds :
  all_classified ds = true ->
  first_false (map (fun d => match cls d with Some b => b | None => true end) ds) ds = first_fail_list ds.
Proof.
  induction ds as [|d ds IH]; cbn [all_classified forallb map first_false first_fail_list]; [reflexivity|].
  destruct (cls d) as [[|]|]; cbn [andb]; intros H; try discriminate; auto.
Qed.

Lemma std_map_failure d f : cls d = Some false -> std_map d f = Ret d.
Proof. destruct d as [[]| | | | | |]; cbn; intros H; try discriminate; reflexivity. Qed.

Lemma first_fail_list_split ds d : first_fail_list ds = Some d ->
  exists l1 l2, ds = l1 ++ d :: l2 /\ cls d = Some false /\ Forall (fun x => cls x <> Some false) l1.
Proof.
  induction ds as [|x ds IH]; cbn [first_fail_list]; [discriminate|].
  destruct (cls x) as [[|]|] eqn:E; intros H.
  - destruct (IH H) as (l1 & l2 & -> & Hc & HF). exists (x :: l1), l2. repeat split; auto. constructor; [congruence|assumption].
  - inversion H; subst. exists [], ds. repeat split; auto.
  - destruct (IH H) as (l1 & l2 & -> & Hc & HF). exists (x :: l1), l2. repeat split; auto. constructor; [congruence|assumption].
Qed.

Lemma first_fail_list_cls ds d : first_fail_list ds = Some d -> cls d = Some false /\ In d ds.
Proof. intros H. destruct (first_fail_list_split ds d H) as (l1 & l2 & -> & Hc & _). split; [exact Hc|apply in_elt]. Qed.

(* the check made after every non-final step of a sequential / thread try macro: the value of the
   lowest-numbered failing branch is returned AS IS and the continuation K (all later steps, the handler)
   is not part of the computation any more *)
Theorem per_step_check (ds : list dval) (K : comp dval) :
  (let! oks := mapM classify ds in
   match first_false oks ds with
   | Some d => std_map d (fun _ => Panic P_UNREACHABLE)
   | None => K
   end)
  = if all_classified ds then match first_fail_list ds with Some d => Ret d | None => K end
    else Panic P_ILLTYPED.
Proof.
  rewrite mapM_classify. destruct (all_classified ds) eqn:E; cbn [bind]; [|reflexivity].
  rewrite first_false_cls by assumption.
  destruct (first_fail_list ds) as [d|] eqn:F; [|reflexivity].
  apply std_map_failure. apply first_fail_list_cls in F. tauto.
Qed.

(* Option family (fam = true) or Result family (fam = false) *)
Definition wrapf (fam : bool) (v : val) : val := if fam then VSome v else VOk v.
Definition failf (fam : bool) (w : val) : bool :=
  match fam, w with true, VNone => true | false, VErr _ => true | _, _ => false end.
Definition wellf (fam : bool) (w v : val) : Prop := w = wrapf fam v \/ failf fam w = true.

Lemma failf_wrapf fam x : failf fam (wrapf fam x) = false.
Proof. destruct fam; reflexivity. Qed.

Section StepsAndHandlers.
  Variable msem : string -> option (list operand) -> dval -> list dval -> comp dval.
  Variable dotsem : operand -> list (string * option val) -> dval -> comp dval.
  Variable callsem : val -> list dval -> comp dval.
  Variable awaitsem : val -> comp val.
  Variable p : sprog.
  Notation n := (List.length (sp_trees p)).
  Notation steps := (steps msem dotsem callsem awaitsem p).
  Notation step_result := (step_result msem dotsem callsem awaitsem p).

  (* C05 + C06 for try_join! / try_join_spawn!: the shape of every step *)
  Theorem try_steps_sync fuel k st :
    is_try (sp_cfg p) = true -> is_async (sp_cfg p) = false ->
    steps (S fuel) k st =
    (let! sr := step_result k st in
     let! ds := extract (actives p k) sr in
     let st' := set_all st (actives p k) ds in
     if Nat.eqb fuel 0 then transpose awaitsem p (seq 0 n) st'
     else if all_classified ds
          then match first_fail_list ds with
               | Some d => Ret d                       (* the failure itself; nothing of a later step runs *)
               | None => steps fuel (S k) st'
               end
          else Panic P_ILLTYPED).
  Proof.
    intros Ht Ha. cbn [Spec.steps]. rewrite Ht, Ha. cbn [negb].
    apply bind_ext; intros sr. apply bind_ext; intros ds.
    destruct (Nat.eqb fuel 0); [reflexivity|].
    apply per_step_check.
  Qed.

  (* try_join_async! / try_join_async_spawn!: `try_join!` of the step's futures yields ONE Result; the first `Err`
     is the macro's result, the payload of an `Ok` is destructured, and re-wrapped in `Ok` for the next step *)
  Lemma steps_try_async fuel k st :
    is_try (sp_cfg p) = true -> is_async (sp_cfg p) = true ->
    steps (S fuel) k st =
    (let! sr := step_result k st in
     match sr with
     | DV (VErr e) => Ret (DV (VErr e))
     | DV (VOk w) =>
         if Nat.eqb fuel 0 then
           if Nat.ltb 1 n then
             let! ds := extract (actives p k) (DV w) in
             let st' := set_all st (actives p k) ds in
             match filter (fun b => negb (active p k b)) (seq 0 n) with
             | [] => let! t := final_tuple p st' in let! tv := to_val t in Ret (DV (VOk tv))
             | inactive => transpose awaitsem p inactive st'
             end
           else Ret (DV (VOk w))
         else
           let! rew := rewrap (actives p k) w in
           let! ds := extract (actives p k)
                              (match rew with
                               | [d] => d
                               | _ => DV (VTuple (match all_vals rew with Some l => l | None => [] end))
                               end) in
           steps fuel (S k) (set_all st (actives p k) ds)
     | _ => Panic P_ILLTYPED
     end).
  Proof. intros Ht Ha. cbn [Spec.steps]. rewrite Ht, Ha. reflexivity. Qed.

  (* C03 for the non-try kinds, as far as the calling thread is concerned: step k is run to its end - its result `sr`
     is available - before anything of step k+1 exists, and step k+1 starts from the state in which every
     active branch holds ITS OWN step-k value (set_all; see nth_set_all_in / nth_set_all_notin) *)
  Theorem steps_are_sequential_nontry fuel k st :
    is_try (sp_cfg p) = false ->
    steps (S fuel) k st =
    (let! sr := step_result k st in
     let! ds := extract (actives p k) sr in
     let st' := set_all st (actives p k) ds in
     if Nat.eqb fuel 0 then final_tuple p st' else steps fuel (S k) st').
  Proof. intros Ht. cbn [Spec.steps]. rewrite Ht. reflexivity. Qed.

  Notation handle_results := (handle_results callsem awaitsem p).
  Notation call_handler := (call_handler callsem p).

  Lemma call_handler_extract hv rs :
    call_handler hv rs = (let! args := extract (seq 0 n) rs in apply callsem hv args).
  Proof.
    unfold Spec.call_handler. destruct n as [|[|m]]; try reflexivity.
    cbn [seq extract List.length]. rewrite seq_length. reflexivity.
  Qed.

  (* C13. The handler receives the values in branch order (one value when there is one branch) *)
  Theorem handler_args_in_branch_order hv vs :
    List.length vs = n -> n <> 1 -> call_handler hv (DV (VTuple vs)) = apply callsem hv (map DV vs).
  Proof.
    intros Hl Hn. unfold Spec.call_handler. destruct n as [|[|m]] eqn:E; try congruence;
      rewrite Hl, Nat.eqb_refl; reflexivity.
  Qed.
  Theorem handler_single_branch hv rs : n = 1 -> call_handler hv rs = apply callsem hv [rs].
  Proof. intros Hn. unfold Spec.call_handler. rewrite Hn. reflexivity. Qed.

  Theorem then_always_once hv rs :
    is_async (sp_cfg p) = false -> handle_results (Some (HThen, hv)) rs = call_handler hv rs.
  Proof. intros Ha. unfold Spec.handle_results. rewrite Ha. apply bind_ret_r. Qed.

  Theorem then_awaited_async hv rs :
    is_async (sp_cfg p) = true ->
    handle_results (Some (HThen, hv)) rs = (let! d := call_handler hv rs in let! v := await_d awaitsem d in Ret (DV v)).
  Proof. intros Ha. unfold Spec.handle_results. rewrite Ha. reflexivity. Qed.

  Theorem map_and_then_skip_failure k hv fam w :
    is_async (sp_cfg p) = false -> failf fam w = true -> k = HMap \/ k = HAndThen ->
    handle_results (Some (k, hv)) (DV w) = Ret (DV w).                (* the handler is not called *)
  Proof.
    intros Ha Hf [->| ->]; unfold Spec.handle_results; rewrite Ha; destruct fam, w; cbn in Hf; try discriminate; reflexivity.
  Qed.

  Theorem map_on_success hv fam x :
    is_async (sp_cfg p) = false ->
    handle_results (Some (HMap, hv)) (DV (wrapf fam x)) =
    (let! d := call_handler hv (DV x) in let! y := to_val d in Ret (DV (wrapf fam y))).     (* Some/Ok (f ..), f called once *)
  Proof.
    intros Ha. unfold Spec.handle_results. rewrite Ha. destruct fam; cbn [wrapf std_map]; rewrite bind_assoc; reflexivity.
  Qed.

  Theorem and_then_on_success hv fam x :
    is_async (sp_cfg p) = false ->
    handle_results (Some (HAndThen, hv)) (DV (wrapf fam x)) =
    (let! d := call_handler hv (DV x) in let! y := to_val d in Ret (DV y)).                 (* f .. itself *)
  Proof.
    intros Ha. unfold Spec.handle_results. rewrite Ha. destruct fam; cbn [wrapf std_and_then]; rewrite bind_assoc; reflexivity.
  Qed.

  Theorem no_handler rs : handle_results None rs = Ret rs.
  Proof. reflexivity. Qed.

  Lemma spec_no_handler :
    sp_handler p = None ->
    spec msem dotsem callsem awaitsem p =
    if is_async (sp_cfg p)
    then Ret (DFut (let! r := steps (max_depth p) 0 (map (fun _ => None) (sp_trees p)) in to_val r))
    else steps (max_depth p) 0 (map (fun _ => None) (sp_trees p)).
  Proof.
    intros Hh. unfold spec, run_body. rewrite Hh. cbn [bind]. unfold Spec.handle_results.
    rewrite bind_ret_r. reflexivity.
  Qed.
End StepsAndHandlers.

Lemma set1_length st b d : List.length (set1 st b d) = List.length st.
Proof. revert b; induction st as [|x st IH]; intros [|b]; cbn [set1 List.length]; auto. Qed.

Lemma nth_set1_eq st b d : b < List.length st -> nth b (set1 st b d) None = Some d.
Proof.
  revert b; induction st as [|x st IH]; intros [|b] H; cbn [set1 nth List.length] in *; try lia; auto.
  apply IH; lia.
Qed.

Lemma nth_set1_neq st b b' d : b <> b' -> nth b' (set1 st b d) None = nth b' st None.
Proof.
  revert b b'; induction st as [|x st IH]; intros [|b] [|b'] H; cbn [set1 nth]; try reflexivity; try congruence.
  apply IH; congruence.
Qed.

Lemma set_all_length st acts ds : List.length (set_all st acts ds) = List.length st.
Proof.
  revert st ds; induction acts as [|b acts IH]; intros st [|d ds]; cbn [set_all]; auto.
  rewrite IH. apply set1_length.
Qed.

Lemma nth_set_all_notin st acts ds b :
  ~ In b acts -> nth b (set_all st acts ds) None = nth b st None.
Proof.
  revert st ds; induction acts as [|a acts IH]; intros st [|d ds] H; cbn [set_all]; auto.
  rewrite IH by (intro; apply H; right; assumption).
  apply nth_set1_neq. intro; apply H; left; assumption.
Qed.

Lemma nth_set_all_in (R : nat -> dval -> Prop) st acts ds b :
  NoDup acts -> Forall (fun a => a < List.length st) acts -> Forall2 R acts ds -> In b acts ->
  exists d, nth b (set_all st acts ds) None = Some d /\ R b d.
Proof.
  intros ND. revert st ds; induction ND as [|a acts Hna ND IH]; intros st ds HF H2 Hin; [destruct Hin|].
  inversion H2 as [|a' d acts' ds' HR H2' E1 E2]; subst. cbn [set_all].
  inversion HF as [|a'' l Ha HF']; subst.
  destruct Hin as [->|Hin].
  - exists d. split; [|assumption].
    rewrite nth_set_all_notin by assumption. apply nth_set1_eq; assumption.
  - apply IH; auto. apply Forall_forall; intros x Hx. rewrite set1_length.
    rewrite Forall_forall in HF'. apply HF'; assumption.
Qed.

Lemma all_vals_map ds vs : all_vals ds = Some vs -> ds = map DV vs.
Proof.
  revert vs; induction ds as [|d ds IH]; intros vs H; cbn [all_vals] in H.
  - inversion H; reflexivity.
  - destruct d; try discriminate. destruct (all_vals ds) as [vs'|]; [|discriminate].
    inversion H; subst. cbn [map]. f_equal. apply IH; reflexivity.
Qed.

Lemma all_vals_length ds vs : all_vals ds = Some vs -> List.length vs = List.length ds.
Proof. intros H. apply all_vals_map in H. subst. rewrite map_length. reflexivity. Qed.

Lemma all_vals_map_DV {A} (f : A -> val) l : all_vals (map (fun x => DV (f x)) l) = Some (map f l).
Proof. induction l as [|x l IH]; cbn [map all_vals]; [reflexivity|]. rewrite IH. reflexivity. Qed.

Lemma Forall2_length {A B} (R : A -> B -> Prop) l l' : Forall2 R l l' -> List.length l = List.length l'.
Proof. induction 1; cbn; auto. Qed.

Lemma Forall2_in_r {A B} (R : A -> B -> Prop) l l' y : Forall2 R l l' -> In y l' -> exists x, In x l /\ R x y.
Proof.
  induction 1 as [|a b l l' Hab H2 IH]; intros Hin; [destruct Hin|].
  destruct Hin as [->|Hin]; [exists a; split; [left; reflexivity|assumption]|].
  destruct (IH Hin) as (x' & ? & ?). exists x'; split; [right|]; assumption.
Qed.

Lemma nth_map_seq {A} (f : nat -> A) m b d : b < m -> nth b (map f (seq 0 m)) d = f b.
Proof.
  intros Hb. rewrite (nth_indep _ d (f 0)) by (rewrite map_length, seq_length; assumption).
  rewrite (map_nth f (seq 0 m) 0 b), seq_nth by assumption. reflexivity.
Qed.

Lemma find_all_false {A} (f : A -> bool) l : (forall x, In x l -> f x = false) -> find f l = None.
Proof.
  induction l as [|x l IH]; intros H; cbn [find]; [reflexivity|].
  rewrite (H x (or_introl eq_refl)). apply IH. intros y Hy. apply H. right. exact Hy.
Qed.

Lemma existsb_notin b l : ~ In b l -> existsb (Nat.eqb b) l = false.
Proof.
  intros H. destruct (existsb (Nat.eqb b) l) eqn:E; [|reflexivity].
  apply existsb_exists in E. destruct E as (x & Hin & Heq). apply Nat.eqb_eq in Heq. subst. contradiction.
Qed.

(* phase 2 of a sequential step, followed by the destructuring of its result: the j-th value is what the
   j-th element's computation returned (f, R and the list are arbitrary) *)
Lemma tuple_then_extract (f : nat -> comp dval) (R : nat -> dval -> Prop) acts :
  (forall b, In b acts -> leaves (f b) (R b)) ->
  leaves (let! sr := (if Nat.ltb 1 (List.length acts) then let! ds := mapM f acts in vals_tuple ds
                      else match acts with [b] => f b | _ => Panic P_STUCK end) in
          extract acts sr)
         (fun ds => Forall2 R acts ds).
Proof.
  intros Hf. pose proof (leaves_mapM f R acts Hf) as HM. revert Hf HM.
  destruct (multiP acts) as [|b|b b' r]; intros Hf HM.
  - exact I.
  - apply leaves_bind. eapply leaves_weaken; [|apply Hf; left; reflexivity].
    intros d Hd. cbn. constructor; [assumption|constructor].
  - rewrite bind_assoc. apply leaves_bind. eapply leaves_weaken; [|exact HM]. intros ds H2.
    unfold vals_tuple. destruct (all_vals ds) as [vs|] eqn:Ev; [|exact I]. cbn [bind extract].
    rewrite (all_vals_length _ _ Ev), <- (Forall2_length _ _ _ H2), Nat.eqb_refl. cbn [leaves].
    rewrite <- (all_vals_map _ _ Ev). exact H2.
Qed.

(* the first branch in [i, i+m) whose value is a failure *)
Fixpoint first_fail_from (fam : bool) (w : nat -> val) (i m : nat) : option nat :=
  match m with
  | 0 => None
  | S m' => if failf fam (w i) then Some i else first_fail_from fam w (S i) m'
  end.

Definition bare_or_tuple (vs : list val) : val := match vs with [v] => v | _ => VTuple vs end.

Lemma bare_or_tuple_multi vs : List.length vs <> 1 -> bare_or_tuple vs = VTuple vs.
Proof. destruct vs as [|v [|v' r]]; cbn; intros H; try reflexivity; lia. Qed.

Lemma find_first_fail fam w : forall m i, find (fun b => failf fam (w b)) (seq i m) = first_fail_from fam w i m.
Proof.
  induction m as [|m IH]; intros i; cbn [seq find first_fail_from]; [reflexivity|]. rewrite IH. reflexivity.
Qed.

Section Transpose.
  Variable awaitsem : val -> comp val.
  Variable p : sprog.
  Notation n := (List.length (sp_trees p)).
  Variable fam : bool.
  Variables w v : nat -> val.       (* branch b holds w b; when it is a success its payload is v b *)
  Hypothesis well : forall b, b < n -> wellf fam (w b) (v b).

  Definition StEq (st : state) (g : nat -> dval) : Prop :=
    List.length st = n /\ forall b, b < n -> nth b st None = Some (g b).

  Lemma StEq_ext st g g' : (forall b, b < n -> g b = g' b) -> StEq st g -> StEq st g'.
  Proof. intros E [Hl Hg]. split; [exact Hl|]. intros b Hb. rewrite <- E by assumption. apply Hg, Hb. Qed.

  Lemma StEq_set1 st g b d : b < n -> StEq st g -> StEq (set1 st b d) (fun b' => if Nat.eqb b' b then d else g b').
  Proof.
    intros Hb [Hl Hg]. split; [rewrite set1_length; assumption|].
    intros b' Hb'. destruct (Nat.eqb_spec b' b) as [->|Hne].
    - apply nth_set1_eq. lia.
    - rewrite nth_set1_neq by congruence. apply Hg; assumption.
  Qed.

  Lemma get_StEq st g b : StEq st g -> b < n -> get st b = Ret (g b).
  Proof. intros [_ Hg] Hb. unfold get. rewrite Hg by assumption. reflexivity. Qed.

  Lemma mapM_get st g l : StEq st g -> Forall (fun b => b < n) l -> mapM (get st) l = Ret (map g l).
  Proof.
    intros H. induction l as [|b l IH]; intros HF; cbn [mapM map]; [reflexivity|].
    inversion HF; subst. rewrite (get_StEq st g b H) by assumption. cbn [bind]. rewrite IH by assumption. reflexivity.
  Qed.

  Lemma final_tuple_StEq st g :
    StEq st g -> final_tuple p st = if Nat.eqb n 1 then Ret (g 0) else vals_tuple (map g (seq 0 n)).
  Proof.
    clear well. intros H. unfold final_tuple. rewrite (mapM_get st g _ H).
    - cbn [bind]. destruct n as [|[|m]]; reflexivity.
    - apply Forall_forall. intros b Hb. apply in_seq in Hb. lia.
  Qed.

  Lemma final_tuple_payloads st :
    StEq st (fun b => DV (v b)) -> 1 <= n ->
    final_tuple p st = Ret (DV (bare_or_tuple (map v (seq 0 n)))).
  Proof.
    clear well. intros H Hn. rewrite (final_tuple_StEq st _ H).
    unfold vals_tuple. rewrite all_vals_map_DV. destruct n as [|[|m]]; [lia|reflexivity|reflexivity].
  Qed.

  Lemma transpose_cons2 b b' r st :
    transpose awaitsem p (b :: b' :: r) st =
    (let! d := get st b in
     std_and_then awaitsem d (fun vs => match vs with
                                        | [x] => let! t := transpose awaitsem p (b' :: r) (set1 st b (DV x)) in to_val t
                                        | _ => Panic P_ILLTYPED end)).
  Proof. reflexivity. Qed.

  (* transposing the branches bs, which hold family values, while all others already hold their payloads:
     the value of the first failing one in the order of bs, else Some/Ok of all payloads *)
  Lemma transpose_list : forall bs st,
    bs <> [] -> NoDup bs -> Forall (fun b => b < n) bs ->
    StEq st (fun b => if existsb (Nat.eqb b) bs then DV (w b) else DV (v b)) ->
    transpose awaitsem p bs st =
    Ret (DV (match find (fun b => failf fam (w b)) bs with
             | Some b => w b
             | None => wrapf fam (bare_or_tuple (map v (seq 0 n)))
             end)).
  Proof.
    induction bs as [|b r IH]; intros st Hne ND HF H; [congruence|].
    inversion HF as [|? ? Hb HF']; subst. inversion ND as [|? ? Hnin ND']; subst.
    assert (Hget : get st b = Ret (DV (w b))).
    { rewrite (get_StEq st _ b H Hb). cbn [existsb]. rewrite Nat.eqb_refl. reflexivity. }
    assert (Hnext : StEq (set1 st b (DV (v b))) (fun b' => if existsb (Nat.eqb b') r then DV (w b') else DV (v b'))).
    { apply (StEq_ext _ _ _ (fun b' _ => eq_refl)) in H. apply (StEq_set1 st _ b (DV (v b)) Hb) in H.
      revert H. apply StEq_ext. intros b' _. cbn [existsb].
      destruct (Nat.eqb_spec b' b) as [->|Hneq]; [|reflexivity]. rewrite existsb_notin by assumption. reflexivity. }
    assert (Hfail : failf fam (w b) = true -> forall f, std_map (DV (w b)) f = Ret (DV (w b)) /\
                                                        std_and_then awaitsem (DV (w b)) f = Ret (DV (w b))).
    { intros E f. destruct fam, (w b); try discriminate E; split; reflexivity. }
    cbn [find]. destruct (well b Hb) as [E|E].
    - (* b succeeded: its payload replaces it and the rest is transposed *)
      rewrite E, (failf_wrapf fam (v b)). rewrite E in Hget.
      destruct r as [|b' r'].
      + cbn [transpose find]. rewrite Hget. cbn [bind].
        assert (Hn : 1 <= n) by lia.
        destruct fam; cbn [wrapf std_map]; rewrite (final_tuple_payloads _ Hnext Hn); reflexivity.
      + rewrite transpose_cons2, Hget. cbn [bind].
        destruct fam; cbn [wrapf std_and_then];
          rewrite (IH _ ltac:(discriminate) ND' HF' Hnext); reflexivity.
    - (* b failed: its value is the result *)
      rewrite E. destruct r as [|b' r'].
      + cbn [transpose]. rewrite Hget. cbn [bind]. apply (Hfail E).
      + rewrite transpose_cons2, Hget. cbn [bind]. apply (Hfail E).
  Qed.

  (* the state while transposing all branches in order: those below i already hold their payloads *)
  Definition mid (i : nat) : nat -> dval := fun b => if Nat.ltb b i then DV (v b) else DV (w b).

  (* C05, final step: Some/Ok of the tuple of payloads iff every branch succeeded; otherwise the value of the
     LOWEST-NUMBERED failing branch, unchanged *)
  Theorem transpose_first_failure : forall m i st,
    i + m = n -> 1 <= m -> StEq st (mid i) ->
    transpose awaitsem p (seq i m) st =
    Ret (DV (match first_fail_from fam w i m with
             | Some b => w b
             | None => wrapf fam (bare_or_tuple (map v (seq 0 n)))
             end)).
  Proof.
    intros m i st Him Hm H. rewrite <- find_first_fail. apply transpose_list.
    - destruct m; [lia|discriminate].
    - apply seq_NoDup.
    - apply Forall_forall. intros b Hb. apply in_seq in Hb. lia.
    - revert H. apply StEq_ext. intros b Hb. unfold mid. destruct (Nat.ltb_spec b i) as [Hbi|Hbi].
      + rewrite existsb_notin; [reflexivity|]. rewrite in_seq. lia.
      + replace (existsb (Nat.eqb b) (seq i m)) with true; [reflexivity|]. symmetry.
        apply existsb_exists. exists b. split; [apply in_seq; lia|apply Nat.eqb_refl].
  Qed.
End Transpose.

Section Props.
  Variable msem : string -> option (list operand) -> dval -> list dval -> comp dval.
  Variable dotsem : operand -> list (string * option val) -> dval -> comp dval.
  Variable callsem : val -> list dval -> comp dval.
  Variable awaitsem : val -> comp val.
  Variable p : sprog.
  Let cfg := sp_cfg p.
  Notation n := (List.length (sp_trees p)).

  Notation steps := (steps msem dotsem callsem awaitsem p).
  Notation step_result := (step_result msem dotsem callsem awaitsem p).
  Notation chain := (chain msem dotsem callsem p).

  Lemma actives_spec k b : In b (actives p k) <-> b < n /\ active p k b = true.
  Proof.
    unfold actives. rewrite filter_In, in_seq. intuition lia.
  Qed.
  Lemma actives_NoDup k : NoDup (actives p k).
  Proof. unfold actives. apply NoDup_filter. apply seq_NoDup. Qed.
  Lemma actives_lt k : Forall (fun b => b < n) (actives p k).
  Proof. apply Forall_forall. intros b H. apply actives_spec in H. tauto. Qed.
  Lemma active_depth k b : active p k b = true <-> k < depth p b.
  Proof. unfold active. apply Nat.ltb_lt. Qed.
  Lemma actives_guard k b : In b (actives p k) -> b < n /\ k < depth p b.
  Proof. intros H. apply actives_spec in H. destruct H as [Hb Ha]. apply active_depth in Ha. auto. Qed.

  Lemma depth_le_max b : b < n -> depth p b <= max_depth p.
  Proof.
    unfold depth, max_depth. generalize (sp_trees p). intros l. revert b.
    induction l as [|t l IH]; intros [|b] H; cbn [List.length nth map fold_right] in *; try lia.
    specialize (IH b). lia.
  Qed.

  (* T b k d : "d is a value that branch b's chain produced in step k" - an ARBITRARY predicate *)
  Variable T : nat -> nat -> dval -> Prop.

  (* state invariant after k steps: every branch holds a value of its latest step so far *)
  Definition StateOK (k : nat) (st : state) : Prop :=
    List.length st = n /\
    forall b, b < n -> 0 < k -> exists d, nth b st None = Some d /\ T b (Nat.min (k - 1) (depth p b - 1)) d.

  Definition is_dv (d : dval) : Prop := match d with DV _ => True | _ => False end.

  (* the macro's result: element b is a value of branch b's LAST step; a bare value for one branch *)
  Definition ResultOK (r : dval) : Prop :=
    (n = 1 -> T 0 (depth p 0 - 1) r) /\
    (n <> 1 -> exists vs, r = DV (VTuple vs) /\ List.length vs = n /\
                          forall b, b < n -> T b (depth p b - 1) (DV (nth b vs VUnit))).

  (* the invariant as a function of the branch: after the last step every branch holds a value of its own last step *)
  Lemma StateOK_last st :
    StateOK (max_depth p) st -> 0 < max_depth p ->
    exists g, StEq p st g /\ forall b, b < n -> T b (depth p b - 1) (g b).
  Proof.
    intros [Hl H] Hk. exists (fun b => match nth b st None with Some d => d | None => DV VUnit end). split.
    - split; [exact Hl|]. intros b Hb. destruct (H b Hb Hk) as (d & -> & _). reflexivity.
    - intros b Hb. destruct (H b Hb Hk) as (d & -> & HT). pose proof (depth_le_max b Hb).
      replace (depth p b - 1) with (Nat.min (max_depth p - 1) (depth p b - 1)) by lia. exact HT.
  Qed.

  Lemma final_tuple_ok st :
    StateOK (max_depth p) st -> 0 < max_depth p -> leaves (final_tuple p st) ResultOK.
  Proof.
    intros H Hk. destruct (StateOK_last st H Hk) as (g & Hg & HT). rewrite (final_tuple_StEq p st g Hg).
    destruct (Nat.eqb_spec n 1) as [E|E].
    - split; [intros _; apply HT; lia|intros Hne; contradiction].
    - unfold vals_tuple. destruct (all_vals (map g (seq 0 n))) as [vs|] eqn:Ev; [|exact I].
      split; [intros E1; contradiction|]. intros _. exists vs. split; [reflexivity|].
      pose proof (all_vals_length _ _ Ev) as Hvl. rewrite map_length, seq_length in Hvl. split; [exact Hvl|].
      intros b Hb. apply all_vals_map in Ev.
      rewrite <- (map_nth DV vs VUnit b), <- Ev, nth_map_seq by assumption. apply HT, Hb.
  Qed.

  (* one step of the sequential kinds: the j-th extracted value is the j-th active branch's chain value;
     the chains are only asked about in this step, this state and the active branches *)
  Lemma step_extract_sync_active k st :
    is_async cfg = false -> is_spawn cfg = false ->
    (forall sn cp b, In b (actives p k) -> leaves (chain sn cp k st b) (T b k)) ->
    leaves (let! sr := step_result k st in extract (actives p k) sr)
           (fun ds => Forall2 (fun b d => T b k d) (actives p k) ds).
  Proof.
    intros Ha Hs Hch. rewrite (captures_before_chains_sequential msem dotsem callsem awaitsem p k st Ha Hs).
    rewrite bind_assoc. apply leaves_bind_any. intros cp.
    apply tuple_then_extract. apply Hch.
  Qed.

  (* what the chains compute is arbitrary; all we assume is that T describes it *)
  Hypothesis chain_T : forall sn cp k st b, leaves (chain sn cp k st b) (T b k).

  Hypothesis depth_pos : forall b, b < n -> 1 <= depth p b.

  Lemma state_step k st ds :
    StateOK k st -> Forall2 (fun b d => T b k d) (actives p k) ds -> StateOK (S k) (set_all st (actives p k) ds).
  Proof.
    intros [Hlen Hst] H2. split; [rewrite set_all_length; assumption|].
    intros b Hb _. replace (S k - 1) with k by lia.
    destruct (active p k b) eqn:Hact.
    - assert (Hin : In b (actives p k)) by (apply actives_spec; auto).
      destruct (nth_set_all_in (fun b d => T b k d) st (actives p k) ds b) as (d & Hn & HT); auto.
      { apply actives_NoDup. } { rewrite Hlen. apply actives_lt. }
      exists d. split; [assumption|]. apply active_depth in Hact.
      replace (Nat.min k (depth p b - 1)) with k by lia. assumption.
    - assert (Hnin : ~ In b (actives p k)) by (rewrite actives_spec; intros [_ H]; congruence).
      rewrite nth_set_all_notin by assumption.
      assert (Hk : depth p b <= k). { destruct (Nat.ltb_spec k (depth p b)) as [H|H]; [|assumption]. apply active_depth in H. congruence. }
      pose proof (depth_pos b Hb).
      destruct (Hst b Hb) as (d & Hn & HT); [lia|].
      exists d. split; [assumption|].
      replace (Nat.min k (depth p b - 1)) with (Nat.min (k - 1) (depth p b - 1)) by lia. assumption.
  Qed.

  (* the non-try kinds: whatever a step is made of, if the values it hands to its active branches are the
     chains' values, the macro's result lists the values of the last steps in branch order *)
  Lemma steps_nontry_positions :
    is_try cfg = false ->
    (forall k st, leaves (let! sr := step_result k st in extract (actives p k) sr)
                         (fun ds => Forall2 (fun b d => T b k d) (actives p k) ds)) ->
    forall fuel k st, fuel + k = max_depth p -> StateOK k st -> leaves (steps fuel k st) ResultOK.
  Proof.
    intros Ht Hstep. induction fuel as [|fuel IH]; intros k st Hk Hst; [exact I|].
    cbn [Spec.steps]. fold cfg. rewrite Ht. cbn [negb].
    rewrite <- bind_assoc. apply leaves_bind. eapply leaves_weaken; [|apply Hstep].
    intros ds H2. pose proof (state_step k st ds Hst H2) as Hst'.
    destruct (Nat.eqb_spec fuel 0) as [->|Hf].
    - apply final_tuple_ok; [|lia]. replace (max_depth p) with (S k) by lia. assumption.
    - apply IH; [lia|assumption].
  Qed.

  (* C04 for the sequential non-try macro (join!), for every branch count and depth profile; the chains are
     asked about for the pairs (branch, step) that run *)
  Lemma result_positions_sync :
    (forall sn cp k st b, b < n -> k < depth p b -> leaves (chain sn cp k st b) (T b k)) ->
    is_async cfg = false -> is_spawn cfg = false -> is_try cfg = false ->
    forall fuel k st, fuel + k = max_depth p -> StateOK k st -> leaves (steps fuel k st) ResultOK.
  Proof.
    intros HT Ha Hs Ht. apply (steps_nontry_positions Ht).
    intros k st. apply step_extract_sync_active; [exact Ha|exact Hs|]. intros sn cp b Hb.
    destruct (actives_guard k b Hb). apply HT; assumption.
  Qed.

  Theorem result_positions_join :
    is_async cfg = false -> is_spawn cfg = false -> is_try cfg = false ->
    forall fuel k st, fuel + k = max_depth p -> StateOK k st -> leaves (steps fuel k st) ResultOK.
  Proof. apply result_positions_sync. intros sn cp k st b _ _. apply chain_T. Qed.
End Props.

Section Names.
  Variable p : sprog.
  Variable T : nat -> nat -> dval -> Prop.
  Notation n := (List.length (sp_trees p)).

  Definition shown (d : option dval) : option val := match d with Some (DV v) => Some v | _ => None end.

  (* what a snapshot contains: for every named branch, in branch order, the value the branch holds *)
  Lemma snap_of_entries names st x ov :
    In (x, ov) (flat_map (fun nv : option string * option dval => match fst nv with Some y => [(y, shown (snd nv))] | None => [] end) (combine names st)) ->
    exists b, nth_error names b = Some (Some x) /\ exists od, nth_error st b = Some od /\ ov = shown od.
  Proof.
    revert st. induction names as [|nm names IH]; intros [|d st] H; cbn in H; try contradiction.
    destruct nm as [y|]; cbn in H.
    - destruct H as [E|H].
      + inversion E; subst. exists 0. cbn. split; [reflexivity|]. exists d. auto.
      + destruct (IH st H) as (b & Hb & od & Hs & Ho). exists (S b). cbn. eauto.
    - destruct (IH st H) as (b & Hb & od & Hs & Ho). exists (S b). cbn. eauto.
  Qed.

  (* C12: the snapshot every capture of step k (k >= 1) sees maps the name of branch b to a value that branch b
     produced in its MOST RECENT step so far - step min(k-1, depth b - 1): also after the branch has finished;
     in try macros the state holds the still wrapped value, so that is what the name shows *)
  Theorem name_sees_latest_step_result k st x ov :
    StateOK p T k st -> 0 < k -> List.length (sp_names p) = n ->
    In (x, ov) (snap_of p st) ->
    exists b d, b < n /\ nth_error (sp_names p) b = Some (Some x) /\ nth b st None = Some d /\
                T b (Nat.min (k - 1) (depth p b - 1)) d /\ ov = shown (Some d).
  Proof.
    intros [Hlen Hst] Hk Hnames Hin. unfold snap_of in Hin.
    assert (Hin' : In (x, ov) (flat_map (fun nv : option string * option dval => match fst nv with Some y => [(y, shown (snd nv))] | None => [] end)
                                        (combine (sp_names p) st))).
    { erewrite flat_map_ext; [exact Hin|]. intros [[y|] [[v| | | | | |]|]]; reflexivity. }
    destruct (snap_of_entries _ _ _ _ Hin') as (b & Hb & od & Hs & Ho).
    assert (Hbn : b < n). { rewrite <- Hlen. apply nth_error_Some. congruence. }
    destruct (Hst b Hbn Hk) as (d & Hd & HT).
    assert (od = Some d). { apply nth_error_nth with (d := None) in Hs. congruence. }
    subst od. exists b, d. repeat split; auto.
  Qed.
End Names.
