(* C04 (result positions) on the reference semantics for the kinds that do not involve OS threads and are
   not covered by SpecProps.result_positions_join:
     1. async non-try   (join_async!, join_async_spawn!)          result_positions_async / _spec
     2. sync try        (try_join!)                               result_positions_try_sync / _spec
     3. async try       (try_join_async!, try_join_async_spawn!)  result_positions_try_async / _spec
     4. the same facts on the meaning of the GENERATED code       den_gen_result_positions_*
   Section Results says what a try macro's result is (`PayloadsOK`, `TryResultOK`, `try_result_cases`); Module
   PositionsExample instantiates the hypotheses on a concrete program with depths 2 / 1 / 3.
   As in SpecProps, `T b k d` is an ARBITRARY predicate "d is what branch b's chain produced in step k"; here the
   hypotheses on the chains are only asked for the ACTIVE pairs (b < n, k < depth b).
   Every theorem holds for every branch count and every depth profile (induction on the number of steps left),
   for every abstract user-code semantics and every world (`leaves`). *)
From Coq Require Import Lia ZArith.
From Join Require Import Tok Ast Ir Gen Comp Std Denote Spec CompLaws DocTable.
From Join Require Import RefineProg RefineTop RefineCorollaries.
From Join Require Import Leaves SpecProps.
Local Open Scope nat_scope.

Lemma existsb_filter_seq (f : nat -> bool) m b : b < m -> existsb (Nat.eqb b) (filter f (seq 0 m)) = f b.
Proof.
  intros Hb. destruct (f b) eqn:E.
  - apply existsb_exists. exists b. split; [|apply Nat.eqb_refl]. apply filter_In. split; [apply in_seq; lia|assumption].
  - apply existsb_notin. intros H. apply filter_In in H. destruct H; congruence.
Qed.

Lemma leaves_to_val d (Q : val -> Prop) : (forall v, d = DV v -> Q v) -> leaves (to_val d) Q.
Proof. destruct d; cbn; auto. Qed.

Lemma max_depth_nil (p : sprog) : List.length (sp_trees p) = 0 -> max_depth p = 0.
Proof. unfold max_depth. destruct (sp_trees p); cbn; [reflexivity|discriminate]. Qed.

Lemma extract_bare acts ws :
  List.length ws = List.length acts -> extract acts (DV (bare_or_tuple ws)) = Ret (map DV ws).
Proof.
  intros Hl. destruct acts as [|a [|a' acts']].
  - destruct ws; [|discriminate]. reflexivity.
  - destruct ws as [|x [|]]; try discriminate. reflexivity.
  - rewrite bare_or_tuple_multi by (rewrite Hl; cbn; lia).
    cbn [extract]. rewrite Hl, Nat.eqb_refl. reflexivity.
Qed.

Lemma rewrap_bare acts ws :
  List.length ws = List.length acts -> rewrap acts (bare_or_tuple ws) = Ret (map (fun x => DV (VOk x)) ws).
Proof.
  intros Hl. destruct acts as [|a [|a' acts']].
  - destruct ws; [|discriminate]. reflexivity.
  - destruct ws as [|x [|]]; try discriminate. reflexivity.
  - rewrite bare_or_tuple_multi by (rewrite Hl; cbn; lia).
    cbn [rewrap]. rewrite <- Hl.
    exact (eq_trans (mapM_seq_nth (fun o => match o with Some x => Ret (DV (VOk x)) | None => Panic P_ILLTYPED end) ws [])
                    (mapM_ret (fun x => DV (VOk x)) ws)).
Qed.

Lemma extract_rewrapped acts ws :
  List.length ws = List.length acts ->
  let rew := map (fun x => DV (VOk x)) ws in
  extract acts (match rew with
                | [d] => d
                | _ => DV (VTuple (match all_vals rew with Some l => l | None => [] end))
                end) = Ret rew.
Proof.
  intros Hl rew. destruct acts as [|a [|a' acts']].
  - destruct ws; [|discriminate]. reflexivity.
  - destruct ws as [|x [|]]; try discriminate. reflexivity.
  - unfold rew. rewrite all_vals_map_DV.
    destruct ws as [|x [|x' ws']]; try discriminate.
    cbn [map]. cbn [extract]. cbn [List.length] in *. rewrite !map_length, Hl, Nat.eqb_refl. cbn [map]. rewrite map_map. reflexivity.
Qed.

Section Results.
  Variable p : sprog.
  Variable T : nat -> nat -> dval -> Prop.
  Notation n := (List.length (sp_trees p)).

  (* x = the tuple (the bare payload for one branch) whose position b holds the PAYLOAD of a value
     that branch b's chain produced in its LAST step *)
  Definition PayloadsOK (fam : bool) (x : val) : Prop :=
    (n = 1 -> T 0 (depth p 0 - 1) (DV (wrapf fam x))) /\
    (n <> 1 -> exists vs, x = VTuple vs /\ List.length vs = n /\
                          forall b, b < n -> T b (depth p b - 1) (DV (wrapf fam (nth b vs VUnit)))).

  (* a try macro ends with Some/Ok of the payloads, or with the failure value of some branch's step, unchanged *)
  Definition TryResultOK (fam : bool) (r : dval) : Prop :=
    (exists x, r = DV (wrapf fam x) /\ PayloadsOK fam x) \/
    (exists b k w, b < n /\ k < depth p b /\ r = DV w /\ failf fam w = true /\ T b k (DV w)).

  Lemma wrapf_inj fam x y : wrapf fam x = wrapf fam y -> x = y.
  Proof. destruct fam; cbn; intros H; inversion H; reflexivity. Qed.

  Corollary try_result_success fam x : TryResultOK fam (DV (wrapf fam x)) -> PayloadsOK fam x.
  Proof.
    intros [(y & E & H)|(b & k & w & _ & _ & E & Hf & _)].
    - inversion E as [E']. apply wrapf_inj in E'. subst. assumption.
    - inversion E; subst. rewrite failf_wrapf in Hf. discriminate.
  Qed.
  Corollary try_result_failure fam w : TryResultOK fam (DV w) -> failf fam w = true ->
    exists b k, b < n /\ k < depth p b /\ T b k (DV w).
  Proof.
    intros [(y & E & H)|(b & k & w' & Hb & Hk & E & _ & HT)] Hf.
    - inversion E; subst. rewrite failf_wrapf in Hf. discriminate.
    - inversion E; subst. exists b, k. auto.
  Qed.
  Corollary try_result_cases fam r : TryResultOK fam r ->
    exists w, r = DV w /\ ((exists x, w = wrapf fam x) \/ failf fam w = true).
  Proof.
    intros [(y & E & H)|(b & k & w' & Hb & Hk & E & Hf & HT)]; subst; eexists; split; try reflexivity; eauto.
  Qed.

  Lemma payloads_ok fam (v : nat -> val) :
    1 <= n -> (forall b, b < n -> T b (depth p b - 1) (DV (wrapf fam (v b)))) ->
    PayloadsOK fam (bare_or_tuple (map v (seq 0 n))).
  Proof.
    intros Hn H. split.
    - intros E. rewrite E. cbn. apply H. lia.
    - intros Hne. rewrite bare_or_tuple_multi by (rewrite map_length, seq_length; assumption).
      exists (map v (seq 0 n)). split; [reflexivity|]. split; [rewrite map_length, seq_length; reflexivity|].
      intros b Hb. rewrite nth_map_seq by assumption. apply H; assumption.
  Qed.
End Results.

Section Positions.
  Variable msem : string -> option (list operand) -> dval -> list dval -> comp dval.
  Variable dotsem : operand -> list (string * option val) -> dval -> comp dval.
  Variable callsem : val -> list dval -> comp dval.
  Variable awaitsem : val -> comp val.
  Variable p : sprog.
  Let cfg := sp_cfg p.
  Notation n := (List.length (sp_trees p)).

  Notation steps := (steps msem dotsem callsem awaitsem p).
  Notation step_result := (step_result msem dotsem callsem awaitsem p).
  Notation chain := (chain msem dotsem callsem p).
  Notation spec := (spec msem dotsem callsem awaitsem p).
  Notation st0 := (map (fun _ => None) (sp_trees p) : state).

  Variable T : nat -> nat -> dval -> Prop.
  Hypothesis depth_pos : forall b, b < n -> 1 <= depth p b.

  Lemma StateOK_init (T' : nat -> nat -> dval -> Prop) : StateOK p T' 0 st0.
  Proof. split; [apply map_length|]. intros b _ H. lia. Qed.

  (* an async macro without handler is a future; what holds of its steps holds of what awaiting it returns *)
  Lemma async_spec_future (Q : dval -> Prop) :
    is_async cfg = true -> sp_handler p = None -> leaves (steps (max_depth p) 0 st0) Q ->
    exists c, spec = Ret (DFut c) /\ leaves c (fun v => Q (DV v)).
  Proof.
    intros Ha Hh H. unfold cfg in Ha. rewrite (spec_no_handler msem dotsem callsem awaitsem p Hh), Ha.
    eexists. split; [reflexivity|]. apply leaves_bind. eapply leaves_weaken; [|exact H].
    intros r Hr. apply leaves_to_val. intros v ->. exact Hr.
  Qed.

  (* The async kinds.  The chains return futures (or ready user futures awaited through
     `awaitsem`); T describes what AWAITING them returns. *)
  Section Async.
    Hypothesis chain_TA : forall sn cp k st b, b < n -> k < depth p b ->
      leaves (chain sn cp k st b) (fun d => leaves (await_d awaitsem d) (fun v => T b k (DV v))).

    (* the futures of a step, built in branch order (tokio::spawn is erased: only the shape is checked) *)
    Lemma step_futures k st sn cp :
      leaves (mapM (fun b => let! d := chain sn cp k st b in
                             if is_spawn cfg
                             then match d with DFut _ | DV _ => Ret d | _ => Panic P_ILLTYPED end
                             else Ret d) (actives p k))
             (fun futs => Forall2 (fun b d => leaves (await_d awaitsem d) (fun v => T b k (DV v))) (actives p k) futs).
    Proof.
      apply leaves_mapM. intros b Hb. destruct (actives_guard p k b Hb) as [Hbn Hk].
      apply leaves_bind. eapply leaves_weaken; [|apply chain_TA; assumption].
      intros d Hd. destruct (is_spawn cfg); [|exact Hd]. destruct d; try exact I; exact Hd.
    Qed.

    Lemma step_extract_async k st :
      is_async cfg = true -> is_try cfg = false ->
      leaves (let! sr := step_result k st in extract (actives p k) sr)
             (fun ds => Forall2 (fun b d => T b k d) (actives p k) ds).
    Proof.
      intros Ha Ht. rewrite (step_result_async msem dotsem callsem awaitsem p k st Ha). fold cfg. rewrite Ht.
      rewrite bind_assoc. apply leaves_bind_any. intros cp.
      pose proof (step_futures k st (snap_of p st) cp) as HF. pose proof (actives_guard p k) as HG. revert HF HG.
      destruct (multiP (actives p k)) as [|a|a a' r]; intros HF HG.
      - exact I.
      - rewrite bind_assoc. apply leaves_bind. destruct (HG a (or_introl eq_refl)) as [Han Hak].
        eapply leaves_weaken; [|apply chain_TA; assumption].
        intros d Hd. rewrite bind_assoc. apply leaves_bind. eapply leaves_weaken; [|exact Hd].
        intros v Hv. cbn. constructor; [assumption|constructor].
      - rewrite bind_assoc. apply leaves_bind. eapply leaves_weaken; [|exact HF].
        intros futs H2. unfold join_seq. rewrite !bind_assoc. apply leaves_bind.
        eapply leaves_weaken; [|apply (leaves_mapM_F2 _ _ (fun b v => T b k (DV v)) _ _ H2); intros b y _ H; exact H].
        intros vs Hvs. cbn [bind extract]. rewrite <- (Forall2_length _ _ _ Hvs), Nat.eqb_refl. cbn [leaves].
        apply Forall2_map_r. exact Hvs.
    Qed.

    (* C04 for join_async! / join_async_spawn!, every branch count and depth profile:
       every way the steps can end lists the awaited value of branch b's last step at position b *)
    Theorem result_positions_async :
      is_async cfg = true -> is_try cfg = false ->
      forall fuel k st, fuel + k = max_depth p -> StateOK p T k st -> leaves (steps fuel k st) (ResultOK p T).
    Proof.
      intros Ha Ht. apply (steps_nontry_positions msem dotsem callsem awaitsem p T depth_pos Ht).
      intros k st. apply step_extract_async; assumption.
    Qed.

    (* the macro itself is a future (nothing happens until it is awaited); awaiting it returns the tuple *)
    Theorem result_positions_async_spec :
      is_async cfg = true -> is_try cfg = false -> sp_handler p = None ->
      exists c, spec = Ret (DFut c) /\ leaves c (fun v => ResultOK p T (DV v)).
    Proof.
      intros Ha Ht Hh. apply (async_spec_future _ Ha Hh).
      apply (result_positions_async Ha Ht); [lia|apply StateOK_init].
    Qed.

    Corollary result_positions_async_await :
      is_async cfg = true -> is_try cfg = false -> sp_handler p = None ->
      leaves spec (fun d => leaves (await_d awaitsem d) (fun v => ResultOK p T (DV v))).
    Proof.
      intros Ha Ht Hh. destruct (result_positions_async_spec Ha Ht Hh) as (c & -> & Hc). exact Hc.
    Qed.

    (* what a step of try_join_async! hands to `steps`: the first Err, unchanged, or Ok of the payloads in order *)
    Definition TryStepOK (k : nat) (sr : dval) : Prop :=
      match sr with
      | DV (VErr e) => exists b, In b (actives p k) /\ T b k (DV (VErr e))
      | DV (VOk w) => exists ws, Forall2 (fun b x => T b k (DV (VOk x))) (actives p k) ws /\ ws <> [] /\
                                 w = bare_or_tuple ws
      | _ => True
      end.

    Lemma try_join_seq_ok k : forall acts futs,
      Forall2 (fun b d => leaves (await_d awaitsem d) (fun v => T b k (DV v))) acts futs ->
      forall acc, leaves (try_join_seq awaitsem futs acc)
                         (fun v => match v with
                                   | VErr e => exists b, In b acts /\ T b k (DV (VErr e))
                                   | VOk w => exists ws, Forall2 (fun b x => T b k (DV (VOk x))) acts ws /\
                                                         w = VTuple (rev acc ++ ws)
                                   | _ => True
                                   end).
    Proof.
      induction 1 as [|a d acts futs Had H2 IH]; intros acc; cbn [try_join_seq].
      - cbn. exists []. split; [constructor|]. rewrite app_nil_r. reflexivity.
      - apply leaves_bind. eapply leaves_weaken; [|exact Had].
        intros v Hv. destruct v; try exact I.
        + eapply leaves_weaken; [|apply (IH (v :: acc))].
          intros v'. destruct v'; auto.
          * intros (ws & Hws & ->). exists (v :: ws). split; [constructor; assumption|].
            cbn [rev]. rewrite <- app_assoc. reflexivity.
          * intros (b & Hb & HT). exists b. split; [right|]; assumption.
        + cbn. exists a. split; [left; reflexivity|assumption].
    Qed.

    Lemma step_async_try k st :
      is_async cfg = true -> is_try cfg = true -> leaves (step_result k st) (TryStepOK k).
    Proof.
      intros Ha Ht. rewrite (step_result_async msem dotsem callsem awaitsem p k st Ha). fold cfg. rewrite Ht.
      apply leaves_bind_any. intros cp.
      pose proof (step_futures k st (snap_of p st) cp) as HF. pose proof (actives_guard p k) as HG.
      unfold TryStepOK. revert HF HG.
      destruct (multiP (actives p k)) as [|a|a a' r]; intros HF HG.
      - exact I.
      - apply leaves_bind. destruct (HG a (or_introl eq_refl)) as [Han Hak].
        eapply leaves_weaken; [|apply chain_TA; assumption].
        intros d Hd. apply leaves_bind. eapply leaves_weaken; [|exact Hd].
        intros v Hv. cbn [leaves]. destruct v; try exact I.
        + exists [v]. split; [constructor; [assumption|constructor]|]. split; [discriminate|reflexivity].
        + exists a. split; [left; reflexivity|assumption].
      - apply leaves_bind. eapply leaves_weaken; [|exact HF].
        intros futs H2. apply leaves_bind. eapply leaves_weaken; [|apply (try_join_seq_ok k _ futs H2 [])].
        intros v Hv. cbn [leaves]. destruct v; try exact I; [|exact Hv].
        destruct Hv as (ws & Hws & ->). cbn [rev app]. exists ws. split; [assumption|].
        pose proof (Forall2_length _ _ _ Hws) as Hl. cbn [List.length] in Hl.
        split; [intros ->; discriminate Hl|]. symmetry. apply bare_or_tuple_multi. lia.
    Qed.

    (* between the steps of try_join_async! the branches hold re-wrapped Ok values *)
    Definition TOk (b k : nat) (d : dval) : Prop := T b k d /\ exists x, d = DV (VOk x).

    (* The last step with several branches: the active branches receive bare payloads, the finished ones still hold
       re-wrapped Ok values and are transposed.  Tl says which of the two a branch holds: a value of step k itself is
       bare, a value of an earlier step is wrapped. *)
    Lemma last_step_try_async k st ws :
      S k = max_depth p -> 1 <= n -> StateOK p TOk k st ->
      Forall2 (fun b x => T b k (DV (VOk x))) (actives p k) ws ->
      let st' := set_all st (actives p k) (map DV ws) in
      leaves (match filter (fun b => negb (active p k b)) (seq 0 n) with
              | [] => let! t := final_tuple p st' in let! tv := to_val t in Ret (DV (VOk tv))
              | inactive => transpose awaitsem p inactive st'
              end) (TryResultOK p T false).
    Proof.
      intros Hmax Hn Hst Hws st'.
      set (Tl := fun b j d => exists x, T b j (DV (VOk x)) /\ d = if Nat.eqb j k then DV x else DV (VOk x)).
      assert (Hst' : StateOK p Tl (max_depth p) st').
      { rewrite <- Hmax. apply (state_step p Tl depth_pos).
        - destruct Hst as [Hlen H]. split; [exact Hlen|]. intros b Hb Hk0.
          destruct (H b Hb Hk0) as (d & Hd & HT & x & ->). exists (DV (VOk x)). split; [exact Hd|].
          exists x. split; [exact HT|].
          replace (Nat.eqb (Nat.min (k - 1) (depth p b - 1)) k) with false by (symmetry; apply Nat.eqb_neq; lia).
          reflexivity.
        - apply Forall2_map_r. eapply Forall2_impl; [|exact Hws]. cbn beta. intros a y Hy.
          exists y. rewrite Nat.eqb_refl. auto. }
      destruct (StateOK_last p Tl st' Hst' ltac:(lia)) as (g & Hg & HT).
      set (v := fun b => match g b with
                         | DV y => if active p k b then y else match y with VOk x => x | _ => VUnit end
                         | _ => VUnit
                         end).
      assert (HV : forall b, b < n -> g b = (if active p k b then DV (v b) else DV (VOk (v b))) /\
                                      T b (depth p b - 1) (DV (VOk (v b)))).
      { intros b Hb. pose proof (depth_le_max p b Hb) as Hle. pose proof (depth_pos b Hb) as Hpos.
        destruct (HT b Hb) as (x & HTx & E). unfold v, active. rewrite E.
        destruct (Nat.eqb_spec (depth p b - 1) k), (Nat.ltb_spec k (depth p b)); try lia; split;
          [reflexivity|exact HTx|reflexivity|exact HTx]. }
      assert (HP : PayloadsOK p T false (bare_or_tuple (map v (seq 0 n)))).
      { apply payloads_ok; [exact Hn|]. intros b Hb. apply HV, Hb. }
      set (inactive := filter (fun b => negb (active p k b)) (seq 0 n)).
      assert (HS : StEq p st' (fun b => if existsb (Nat.eqb b) inactive then DV (VOk (v b)) else DV (v b))).
      { revert Hg. apply StEq_ext. intros b Hb. unfold inactive. rewrite existsb_filter_seq by assumption.
        destruct (HV b Hb) as [-> _]. destruct (active p k b); reflexivity. }
      assert (HND : NoDup inactive) by (apply NoDup_filter, seq_NoDup).
      assert (HLT : Forall (fun b => b < n) inactive).
      { apply Forall_forall. intros b Hb. apply filter_In in Hb. destruct Hb as [Hb _]. apply in_seq in Hb. lia. }
      clearbody inactive. destruct inactive as [|i0 ir].
      - rewrite (final_tuple_payloads p v st' HS Hn).
        cbn. left. eexists. split; [reflexivity|exact HP].
      - rewrite (transpose_list awaitsem p false (fun b => VOk (v b)) v (fun _ _ => or_introl eq_refl)
                   (i0 :: ir) st' ltac:(discriminate) HND HLT HS).
        rewrite find_all_false by reflexivity.
        cbn. left. eexists. split; [reflexivity|exact HP].
    Qed.

    (* C04 for try_join_async! / try_join_async_spawn! (the Result family), every branch count and depth profile *)
    Theorem result_positions_try_async :
      is_async cfg = true -> is_try cfg = true ->
      forall fuel k st, fuel + k = max_depth p -> StateOK p TOk k st -> leaves (steps fuel k st) (TryResultOK p T false).
    Proof.
      intros Ha Ht. induction fuel as [|fuel IH]; intros k st Hk Hst; [exact I|].
      rewrite (steps_try_async msem dotsem callsem awaitsem p fuel k st Ht Ha).
      apply leaves_bind. eapply leaves_weaken; [|apply step_async_try; assumption].
      intros sr Hsr. destruct sr as [v| | | | | |]; try exact I. destruct v; try exact I.
      2:{ (* the first Err, unchanged *)
          destruct Hsr as (b & Hb & HT). destruct (actives_guard p k b Hb) as [Hbn Hbk].
          cbn [leaves]. right. exists b, k, (VErr v). repeat split; auto. }
      destruct Hsr as (ws & Hws & Hne & ->). pose proof (Forall2_length _ _ _ Hws) as Hl. symmetry in Hl.
      destruct (Nat.eqb_spec fuel 0) as [->|Hf].
      - assert (Hmax : max_depth p = S k) by lia.
        destruct (Nat.ltb_spec 1 n) as [Hn|Hn].
        + rewrite extract_bare by assumption. cbn [bind].
          apply last_step_try_async; [lia|lia|exact Hst|exact Hws].
        + (* one branch: its payload *)
          cbn [leaves]. left. eexists. split; [reflexivity|].
          assert (Hn1 : n = 1).
          { destruct n eqn:E; [|lia]. rewrite (max_depth_nil p E) in Hmax. lia. }
          split; [intros _|intros; lia].
          unfold actives in Hws. rewrite Hn1 in Hws. cbn [seq filter] in Hws.
          destruct (active p k 0) eqn:Hact.
          * inversion Hws as [|? x ? ws' HT H2' E1 E2]; subst. inversion H2'; subst. cbn [bare_or_tuple wrapf].
            apply active_depth in Hact. pose proof (depth_le_max p 0 ltac:(lia)).
            replace (depth p 0 - 1) with k by lia. assumption.
          * inversion Hws; subst. congruence.
      - (* the payloads are re-wrapped in Ok and the next step starts *)
        rewrite rewrap_bare by assumption. cbn [bind]. rewrite extract_rewrapped by assumption. cbn [bind].
        apply IH; [lia|]. apply (state_step p TOk depth_pos k st _ Hst).
        apply Forall2_map_r. eapply Forall2_impl; [|exact Hws]. cbn beta. intros a y Hy. split; [assumption|]. exists y. reflexivity.
    Qed.

    (* awaiting the macro's future returns Ok of the payloads in branch order, or the Err of some branch's step *)
    Theorem result_positions_try_async_spec :
      is_async cfg = true -> is_try cfg = true -> sp_handler p = None ->
      exists c, spec = Ret (DFut c) /\ leaves c (fun v => TryResultOK p T false (DV v)).
    Proof.
      intros Ha Ht Hh. apply (async_spec_future _ Ha Hh).
      apply (result_positions_try_async Ha Ht); [lia|apply StateOK_init].
    Qed.

    Corollary result_positions_try_async_await :
      is_async cfg = true -> is_try cfg = true -> sp_handler p = None ->
      leaves spec (fun d => leaves (await_d awaitsem d) (fun v => TryResultOK p T false (DV v))).
    Proof.
      intros Ha Ht Hh. destruct (result_positions_try_async_spec Ha Ht Hh) as (c & -> & Hc). exact Hc.
    Qed.
  End Async.

  (* sync try (try_join!), for a uniform family: Option (fam = true) or Result (fam = false) *)
  Section SyncTry.
    Variable fam : bool.
    Hypothesis chain_T : forall sn cp k st b, b < n -> k < depth p b -> leaves (chain sn cp k st b) (T b k).
    Hypothesis T_fam : forall b k d, b < n -> k < depth p b -> T b k d -> exists w v, d = DV w /\ wellf fam w v.

    (* C04 for try_join!, every branch count and depth profile: the run ends with Some/Ok of the tuple of the
       payloads of the branches' LAST steps, in branch order - or with the failure value of a step, unchanged *)
    Theorem result_positions_try_sync :
      is_async cfg = false -> is_spawn cfg = false -> is_try cfg = true ->
      forall fuel k st, fuel + k = max_depth p -> StateOK p T k st -> leaves (steps fuel k st) (TryResultOK p T fam).
    Proof.
      intros Ha Hs Ht. induction fuel as [|fuel IH]; intros k st Hk Hst; [exact I|].
      rewrite try_steps_sync by assumption.
      rewrite <- bind_assoc. apply leaves_bind.
      eapply leaves_weaken.
      2:{ apply step_extract_sync_active; [exact Ha|exact Hs|]. intros sn cp b Hb.
          destruct (actives_guard p k b Hb). apply chain_T; assumption. }
      intros ds H2. pose proof (state_step p T depth_pos k st ds Hst H2) as Hst'. cbv zeta.
      destruct (Nat.eqb_spec fuel 0) as [->|Hf].
      - (* the last step: transposition *)
        assert (Hmax : max_depth p = S k) by lia. rewrite <- Hmax in Hst'.
        destruct (StateOK_last p T _ Hst' ltac:(lia)) as (g & Hg & HT).
        assert (Hn : 1 <= n).
        { destruct n eqn:E; [|lia]. rewrite (max_depth_nil p E) in Hmax. lia. }
        set (w := fun b => match g b with DV x => x | _ => VUnit end).
        set (v := fun b => match w b with VSome x | VOk x => x | _ => VUnit end).
        assert (HW : forall b, b < n -> g b = DV (w b) /\ wellf fam (w b) (v b)).
        { intros b Hb. pose proof (depth_pos b Hb) as Hpos.
          destruct (T_fam b (depth p b - 1) (g b) Hb ltac:(lia) (HT b Hb)) as (w0 & v0 & E & Hwell).
          unfold v, w. rewrite E. split; [reflexivity|].
          destruct Hwell as [->|F]; [left; destruct fam; reflexivity|right; exact F]. }
        rewrite (transpose_first_failure awaitsem p fam w v (fun b Hb => proj2 (HW b Hb)) n 0 _ eq_refl Hn).
        2:{ revert Hg. apply StEq_ext. intros b Hb. apply HW, Hb. }
        cbn [leaves]. rewrite <- find_first_fail.
        destruct (find (fun b => failf fam (w b)) (seq 0 n)) as [b|] eqn:F.
        + apply find_some in F. destruct F as [Hb Hfail]. apply in_seq in Hb. pose proof (depth_pos b ltac:(lia)).
          right. exists b, (depth p b - 1), (w b). repeat split; try lia; try assumption.
          rewrite <- (proj1 (HW b ltac:(lia))). apply HT. lia.
        + left. eexists. split; [reflexivity|]. apply payloads_ok; [assumption|].
          intros b Hb. destruct (HW b Hb) as [E [E'|E']].
          * rewrite <- E', <- E. apply HT, Hb.
          * rewrite (find_none _ _ F b) in E' by (apply in_seq; lia). discriminate.
      - (* the per-step check *)
        destruct (all_classified ds); [|exact I].
        destruct (first_fail_list ds) as [d|] eqn:F.
        + apply first_fail_list_cls in F. destruct F as [Hc Hin].
          destruct (Forall2_in_r _ _ _ _ H2 Hin) as (b & Hb & HT). destruct (actives_guard p k b Hb) as [Hbn Hbk].
          destruct (T_fam b k d Hbn Hbk HT) as (w0 & v0 & -> & Hwell).
          cbn [leaves]. right. exists b, k, w0. repeat split; try assumption.
          destruct Hwell as [E|E]; [|assumption]. subst w0. destruct fam; cbn in Hc; discriminate.
        + apply IH; [lia|assumption].
    Qed.

    Theorem result_positions_try_sync_spec :
      is_async cfg = false -> is_spawn cfg = false -> is_try cfg = true -> sp_handler p = None ->
      leaves spec (TryResultOK p T fam).
    Proof.
      intros Ha Hs Ht Hh. rewrite spec_no_handler_sync by assumption.
      apply result_positions_try_sync; try assumption; [lia|apply StateOK_init].
    Qed.
  End SyncTry.
End Positions.

Print Assumptions result_positions_async.
Print Assumptions result_positions_async_spec.
Print Assumptions result_positions_try_sync.
Print Assumptions result_positions_try_sync_spec.
Print Assumptions result_positions_try_async.
Print Assumptions result_positions_try_async_spec.

Section Generated.
  Variable msem : string -> option (list operand) -> dval -> list dval -> comp dval.
  Variable dotsem : operand -> list (string * option val) -> dval -> comp dval.
  Variable callsem : val -> list dval -> comp dval.
  Variable awaitsem : val -> comp val.
  Notation chain := (chain msem dotsem callsem).
  Notation den_gen inp e := (den (user_names inp) msem dotsem callsem awaitsem e empty_env).

  (* join_async! / join_async_spawn!: the generated expression is a future; awaiting it returns the tuple whose
     element b is what awaiting branch b's LAST step returned (the bare value for one branch) *)
  Theorem den_gen_result_positions_async cfg inp e sp (T : nat -> nat -> dval -> Prop) :
    is_async cfg = true -> is_try cfg = false -> i_handler inp = None ->
    wf inp -> gen cfg inp = Ok e -> prepare cfg inp = Some sp ->
    (forall sn cp k st b, b < List.length (sp_trees sp) -> k < depth sp b ->
       leaves (chain sp sn cp k st b) (fun d => leaves (await_d awaitsem d) (fun v => T b k (DV v)))) ->
    exists c, den_gen inp e = Ret (DFut c) /\ leaves c (fun v => ResultOK sp T (DV v)).
  Proof.
    intros Ha Ht Hh Hwf Hg Hp HT. destruct (prepare_fields cfg inp sp Hp) as (Hc & Hhs & _).
    rewrite (gen_refines_spec msem dotsem callsem awaitsem cfg inp e sp Hwf Hg Hp).
    apply (result_positions_async_spec msem dotsem callsem awaitsem sp T (prepare_depth_pos cfg inp sp Hp) HT);
      congruence.
  Qed.

  (* try_join!: Some/Ok of the payloads of the branches' last steps in branch order, or a step's failure value *)
  Theorem den_gen_result_positions_try_sync inp e sp (T : nat -> nat -> dval -> Prop) (fam : bool) :
    let cfg := {| is_async := false; is_try := true; is_spawn := false |} in
    i_handler inp = None ->
    wf inp -> gen cfg inp = Ok e -> prepare cfg inp = Some sp ->
    (forall sn cp k st b, b < List.length (sp_trees sp) -> k < depth sp b -> leaves (chain sp sn cp k st b) (T b k)) ->
    (forall b k d, b < List.length (sp_trees sp) -> k < depth sp b -> T b k d -> exists w v, d = DV w /\ wellf fam w v) ->
    leaves (den_gen inp e) (TryResultOK sp T fam).
  Proof.
    intros cfg Hh Hwf Hg Hp HT Hfam. destruct (prepare_fields cfg inp sp Hp) as (Hc & Hhs & _).
    rewrite (gen_refines_spec msem dotsem callsem awaitsem cfg inp e sp Hwf Hg Hp).
    apply (result_positions_try_sync_spec msem dotsem callsem awaitsem sp T (prepare_depth_pos cfg inp sp Hp) fam HT Hfam);
      try (rewrite Hc; reflexivity). congruence.
  Qed.

  (* try_join_async! / try_join_async_spawn!: awaiting the generated future returns Ok of the payloads in branch
     order, or the Err that awaiting some branch's step returned *)
  Theorem den_gen_result_positions_try_async cfg inp e sp (T : nat -> nat -> dval -> Prop) :
    is_async cfg = true -> is_try cfg = true -> i_handler inp = None ->
    wf inp -> gen cfg inp = Ok e -> prepare cfg inp = Some sp ->
    (forall sn cp k st b, b < List.length (sp_trees sp) -> k < depth sp b ->
       leaves (chain sp sn cp k st b) (fun d => leaves (await_d awaitsem d) (fun v => T b k (DV v)))) ->
    exists c, den_gen inp e = Ret (DFut c) /\ leaves c (fun v => TryResultOK sp T false (DV v)).
  Proof.
    intros Ha Ht Hh Hwf Hg Hp HT. destruct (prepare_fields cfg inp sp Hp) as (Hc & Hhs & _).
    rewrite (gen_refines_spec msem dotsem callsem awaitsem cfg inp e sp Hwf Hg Hp).
    apply (result_positions_try_async_spec msem dotsem callsem awaitsem sp T (prepare_depth_pos cfg inp sp Hp) HT);
      congruence.
  Qed.
End Generated.

Print Assumptions den_gen_result_positions_async.
Print Assumptions den_gen_result_positions_try_sync.
Print Assumptions den_gen_result_positions_try_async.

(* Non-vacuity: a concrete 3-branch program with depths 2 / 1 / 3.  The first step of branch b is `x -> .o(b,0)`, its step k > 0 is
   `~.o(b,k)`; the abstract method semantics `dotsem` reads (b, k) off the operand o(b,k), so that "the value of
   branch b's step k is the pair (b, k)" (T_pair) - in the try examples wrapped in Some/Ok, or a failure when the
   world says so.  The hypotheses of the theorems hold, so every run ends as the theorems say; `run` follows one
   world to show that such runs exist. *)
Module PositionsExample.
  Definition opnd (b k : nat) : operand := [TG DNone (repeat (TI "b") b); TG DNone (repeat (TI "k") k)].
  Definition pair (b k : nat) : val := VTuple [VInt (Z.of_nat b); VInt (Z.of_nat k)].
  Definition decode (o : operand) : option val :=
    match o with
    | [TG DNone l1; TG DNone l2] => Some (pair (List.length l1) (List.length l2))
    | _ => None
    end.
  Definition init_act : action := mkAction Initial false NoMove [[TI "x"]].
  Definition dot_act (b k : nat) : action := mkAction Dot (Nat.ltb 0 k) NoMove [opnd b k].
  Definition first_step (b : nat) : list node := [NAct 0 init_act; NAct 1 (dot_act b 0)].
  Definition later_step (b k : nat) : list node := [NAct 0 (dot_act b k)].
  Definition trees : list (list (list node)) :=
    [[first_step 0; later_step 0 1]; [first_step 1]; [first_step 2; later_step 2 1; later_step 2 2]].
  Definition prog (cfg : config) : sprog := mkSprog cfg [None; None; None] trees None.

  Definition msemX : string -> option (list operand) -> dval -> list dval -> comp dval := fun _ _ _ _ => Panic P_STUCK.
  Definition callsemX : val -> list dval -> comp dval := fun _ _ => Panic P_STUCK.
  Definition awaitX : val -> comp val := fun v => Ret v.
  Definition dotsem_fut : operand -> list (string * option val) -> dval -> comp dval :=
    fun o _ _ => match decode o with Some v => Ret (DFut (Ret v)) | None => Panic P_STUCK end.

  Fixpoint run {A} (ans : ev -> val) (c : comp A) : option A :=
    match c with Ret a => Some a | Vis e k => run ans (k (ans e)) | _ => None end.

  Definition cfgA (spawn : bool) := mkConfig true false spawn.
  Definition cfgT := mkConfig false true false.
  Definition cfgTA := mkConfig true true false.
  Definition T_pair (b k : nat) (d : dval) : Prop := d = DV (pair b k).

  Lemma depths cfg : depth (prog cfg) 0 = 2 /\ depth (prog cfg) 1 = 1 /\ depth (prog cfg) 2 = 3.
  Proof. repeat split. Qed.

  Lemma decode_opnd b k : decode (opnd b k) = Some (pair b k).
  Proof. unfold decode, opnd. rewrite !repeat_length. reflexivity. Qed.

  (* whatever the kind and the member-access semantics: step k of branch b ends in `.o(b,k)` applied to some receiver *)
  Lemma ex_chain dotsem cfg sn cp k st b (Q : dval -> Prop) :
    b < 3 -> k < depth (prog cfg) b ->
    (forall r, leaves (dotsem (opnd b k) sn r) Q) ->
    leaves (chain msemX dotsem callsemX (prog cfg) sn cp k st b) Q.
  Proof.
    intros Hb Hk HQ. unfold chain.
    assert (E : tree (prog cfg) b k = match k with 0 => first_step b | _ => later_step b k end).
    { destruct b as [|[|[|b]]]; try lia; cbn in Hk;
        [destruct k as [|[|k]]|destruct k as [|k]|destruct k as [|[|[|k]]]]; try lia; reflexivity. }
    rewrite E. destruct k; cbn [sem_nodes sem_node first_step later_step dot_act init_act a_comb a_ops];
      apply leaves_bind_any; intros r; apply HQ.
  Qed.

  Lemma ex_chain_async spawn sn cp k st b :
    b < 3 -> k < depth (prog (cfgA spawn)) b ->
    leaves (chain msemX dotsem_fut callsemX (prog (cfgA spawn)) sn cp k st b)
           (fun d => leaves (await_d awaitX d) (fun v => T_pair b k (DV v))).
  Proof.
    intros Hb Hk. apply ex_chain; [exact Hb|exact Hk|]. intros r. unfold dotsem_fut. rewrite decode_opnd. reflexivity.
  Qed.

  Lemma depth_pos_ex cfg b : b < 3 -> 1 <= depth (prog cfg) b.
  Proof. intros Hb. destruct b as [|[|[|b]]]; try lia; cbn; lia. Qed.

  Definition the_tuple : val := VTuple [pair 0 1; pair 1 0; pair 2 2].

  Lemma payloads_tuple (P : val -> val) vs :
    (forall x y, P x = P y -> x = y) ->
    List.length vs = 3 ->
    (forall b, b < 3 -> DV (P (nth b vs VUnit)) = DV (P (pair b (depth (prog cfgT) b - 1)))) ->
    VTuple vs = the_tuple.
  Proof.
    intros Hinj Hl H. destruct vs as [|a [|b [|c [|]]]]; try discriminate.
    pose proof (H 0 ltac:(lia)) as H0. pose proof (H 1 ltac:(lia)) as H1. pose proof (H 2 ltac:(lia)) as H2.
    cbn in H0, H1, H2. inversion H0 as [E0]; inversion H1 as [E1]; inversion H2 as [E2].
    apply Hinj in E0, E1, E2. subst. reflexivity.
  Qed.

  (* 1. join_async! (spawn = false) and join_async_spawn! (spawn = true): awaiting the macro's future returns
     ((0,1), (1,0), (2,2)) - for every world *)
  Example ex_async_join spawn :
    let c := (let! d := spec msemX dotsem_fut callsemX awaitX (prog (cfgA spawn)) in await_d awaitX d) in
    leaves c (fun v => v = the_tuple) /\ run (fun _ => VUnit) c = Some the_tuple.
  Proof.
    split; [|destruct spawn; reflexivity].
    apply leaves_bind. eapply leaves_weaken;
      [|apply (result_positions_async_await msemX dotsem_fut callsemX awaitX (prog (cfgA spawn)) T_pair
                 (depth_pos_ex (cfgA spawn)) (ex_chain_async spawn)); reflexivity].
    intros d Hd. eapply leaves_weaken; [|exact Hd]. clear. intros v [_ H].
    destruct H as (vs & E & Hl & Hvs); [cbn; lia|]. inversion E; subst.
    apply (payloads_tuple (fun x => x)); auto.
  Qed.

  (* 2. try_join! over Options: every step of every branch asks the world whether it succeeds *)
  Definition dotsem_opt : operand -> list (string * option val) -> dval -> comp dval :=
    fun o sn _ => match decode o with
                  | Some v => Vis (EEval o sn) (fun a => Ret (DV (match a with VBool false => VNone | _ => VSome v end)))
                  | None => Panic P_STUCK
                  end.
  Definition T_opt (b k : nat) (d : dval) : Prop := d = DV (VSome (pair b k)) \/ d = DV VNone.

  Lemma ex_chain_opt sn cp k st b :
    b < 3 -> k < depth (prog cfgT) b ->
    leaves (chain msemX dotsem_opt callsemX (prog cfgT) sn cp k st b) (T_opt b k).
  Proof.
    intros Hb Hk. apply ex_chain; [exact Hb|exact Hk|]. intros r. unfold dotsem_opt, T_opt. rewrite decode_opnd.
    intros a. destruct a as [|[|]| | | | | | | | | |]; cbn; auto.
  Qed.

  Lemma ex_fam_opt b k d : b < 3 -> k < depth (prog cfgT) b -> T_opt b k d -> exists w v, d = DV w /\ wellf true w v.
  Proof.
    intros _ _ [->| ->].
    - exists (VSome (pair b k)), (pair b k). split; [reflexivity|left; reflexivity].
    - exists VNone, VUnit. split; [reflexivity|right; reflexivity].
  Qed.

  Definition fail_at (b k : nat) : ev -> val :=
    fun e => match e with
             | EEval o _ => if list_eqb tt_eqb o (opnd b k) then VBool false else VUnit
             | _ => VUnit
             end.

  Example ex_try_join :
    let c := spec msemX dotsem_opt callsemX awaitX (prog cfgT) in
    leaves c (fun r => r = DV (VSome the_tuple) \/ r = DV VNone) /\
    run (fun _ => VUnit) c = Some (DV (VSome the_tuple)) /\
    run (fail_at 2 1) c = Some (DV VNone).
  Proof.
    split; [|split; reflexivity].
    eapply leaves_weaken;
      [|apply (result_positions_try_sync_spec msemX dotsem_opt callsemX awaitX (prog cfgT) T_opt
                 (depth_pos_ex cfgT) true ex_chain_opt ex_fam_opt); reflexivity].
    clear. intros r [(x & -> & [_ H])|(b & k & w & _ & _ & -> & Hf & _)].
    - left. destruct H as (vs & -> & Hl & Hvs); [cbn; lia|]. cbn [wrapf]. do 2 f_equal.
      apply (payloads_tuple VSome); auto; [intros x y E; inversion E; reflexivity|].
      intros b Hb. destruct (Hvs b Hb) as [E|E]; [exact E|discriminate E].
    - right. destruct w; try discriminate Hf. reflexivity.
  Qed.

  (* 3. try_join_async! over Results: the world is asked when the step's future is awaited *)
  Definition dotsem_res : operand -> list (string * option val) -> dval -> comp dval :=
    fun o sn _ => match decode o with
                  | Some v => Ret (DFut (Vis (EEval o sn) (fun a => Ret (match a with VBool false => VErr v | _ => VOk v end))))
                  | None => Panic P_STUCK
                  end.
  Definition T_res (b k : nat) (d : dval) : Prop := d = DV (VOk (pair b k)) \/ d = DV (VErr (pair b k)).

  Lemma ex_chain_res sn cp k st b :
    b < 3 -> k < depth (prog cfgTA) b ->
    leaves (chain msemX dotsem_res callsemX (prog cfgTA) sn cp k st b)
           (fun d => leaves (await_d awaitX d) (fun v => T_res b k (DV v))).
  Proof.
    intros Hb Hk. apply ex_chain; [exact Hb|exact Hk|]. intros r. unfold dotsem_res, T_res. rewrite decode_opnd.
    intros a. destruct a as [|[|]| | | | | | | | | |]; cbn; auto.
  Qed.

  Example ex_try_join_async :
    let c := (let! d := spec msemX dotsem_res callsemX awaitX (prog cfgTA) in await_d awaitX d) in
    leaves c (fun v => v = VOk the_tuple \/
                       exists b k, b < 3 /\ k < depth (prog cfgTA) b /\ v = VErr (pair b k)) /\
    run (fun _ => VUnit) c = Some (VOk the_tuple) /\
    run (fail_at 2 1) c = Some (VErr (pair 2 1)) /\
    run (fail_at 1 0) c = Some (VErr (pair 1 0)).
  Proof.
    split; [|repeat split; reflexivity].
    apply leaves_bind. eapply leaves_weaken;
      [|apply (result_positions_try_async_await msemX dotsem_res callsemX awaitX (prog cfgTA) T_res
                 (depth_pos_ex cfgTA) ex_chain_res); reflexivity].
    intros d Hd. eapply leaves_weaken; [|exact Hd]. clear.
    intros v [(x & E & [_ H])|(b & k & w & Hb & Hk & E & Hf & HT)].
    - left. inversion E; subst. destruct H as (vs & -> & Hl & Hvs); [cbn; lia|]. cbn [wrapf]. f_equal.
      apply (payloads_tuple VOk); auto; [intros x y E'; inversion E'; reflexivity|].
      intros b Hb. destruct (Hvs b Hb) as [E'|E']; [exact E'|discriminate E'].
    - right. inversion E; subst. exists b, k. repeat split; auto.
      destruct HT as [E'|E']; inversion E'; subst; [discriminate Hf|reflexivity].
  Qed.
End PositionsExample.

Print Assumptions PositionsExample.ex_async_join.
Print Assumptions PositionsExample.ex_try_join.
Print Assumptions PositionsExample.ex_try_join_async.
