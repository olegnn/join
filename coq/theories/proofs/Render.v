(* The wrapper stack machine of the generator renders exactly the bracket tree `nest`
   (C02: `X >>> inner <<< rest`, implicit closing at the end of the step, any depth), and fails exactly when there
   is no tree.  Then three ways to reason about the tree instead of the machine: a property of all nodes (NestAll),
   the members in their order (`nest_flat`), a successful rendering as a run of `gen_def_and_step` calls (Runs). *)
From Join Require Import Tok Names Ast Ir Gen Spec.

Definition rstate := (list rstmt * rexpr)%type.

(* the tree, rendered without any stack *)
Fixpoint render_node (cfg : config) (b : nat) (n : node) (st : rstate) {struct n} : res rstate :=
  let render_nodes := fix go (l : list node) (st : rstate) {struct l} : res rstate :=
                        match l with [] => Ok st | x :: r => do st' <- render_node cfg b x st; go r st' end in
  match n with
  | NAct e a => gen_def_and_step cfg (fst st) (snd st) (mk_pos a b e)
  | NWrap e a inner =>
      do inner' <- render_nodes inner (fst st, RVar n_v);
      match replace_inner (a_comb a) [wrapper_closure cfg (snd inner')] with
      | None => InternalBug 4
      | Some args => gen_def_and_step cfg (fst inner') (snd st) (set_args (mk_pos a b e) args)
      end
  end.
Definition render_nodes (cfg : config) (b : nat) : list node -> rstate -> res rstate :=
  fix go (l : list node) (st : rstate) {struct l} : res rstate :=
    match l with [] => Ok st | x :: r => do st' <- render_node cfg b x st; go r st' end.

Lemma render_nodes_cons cfg b x r st :
  render_nodes cfg b (x :: r) st = (do st' <- render_node cfg b x st; render_nodes cfg b r st').
Proof. reflexivity. Qed.
Lemma render_nodes_nil cfg b st : render_nodes cfg b [] st = Ok st.
Proof. reflexivity. Qed.

Lemma render_node_NWrap cfg b e a inner st :
  render_node cfg b (NWrap e a inner) st =
  (do inner' <- render_nodes cfg b inner (fst st, RVar n_v);
   match replace_inner (a_comb a) [wrapper_closure cfg (snd inner')] with
   | None => InternalBug 4
   | Some args => gen_def_and_step cfg (fst inner') (snd st) (set_args (mk_pos a b e) args)
   end).
Proof. reflexivity. Qed.

(* the machine state read against the remaining levels of the tree *)
Fixpoint close_with (cfg : config) (b : nat) (T : list (list node)) (a : acc) {struct T} : res rstate :=
  match T with
  | [] => InternalBug 0
  | t0 :: rest =>
      match a_stk a with
      | [] => InternalBug 0
      | (s, _) :: stk' =>
          do st <- render_nodes cfg b t0 (a_defs a, s);
          let a' := {| a_defs := fst st; a_stk := (snd st, None) :: stk' |} in
          match rest with
          | [] => close_all (List.length (a_stk a')) cfg a'
          | _ :: _ => do a'' <- wrap_last cfg a'; close_with cfg b rest a''
          end
      end
  end.

Lemma wrap_last_top_irrelevant cfg ds s w w' stk :
  wrap_last cfg {| a_defs := ds; a_stk := (s, w) :: stk |} =
  wrap_last cfg {| a_defs := ds; a_stk := (s, w') :: stk |}.
Proof. reflexivity. Qed.

Lemma close_all_top_irrelevant fuel cfg ds s w w' stk :
  close_all fuel cfg {| a_defs := ds; a_stk := (s, w) :: stk |} =
  close_all fuel cfg {| a_defs := ds; a_stk := (s, w') :: stk |}.
Proof.
  destruct fuel as [|fuel]; cbn [close_all a_stk a_defs]; destruct stk as [|x stk']; try reflexivity.
Qed.

Lemma nest_fold_nonempty l : fold_right nest_step [[]] l <> [].
Proof.
  induction l as [|[e x] l IH]; cbn [fold_right]; [discriminate|].
  set (F := fold_right nest_step [[]] l) in *.
  unfold nest_step. cbn [fst snd].
  destruct (a_mv x); destruct F as [|cur [|outer rest]]; try discriminate; try congruence.
Qed.

(* one machine transition against one tree-building step *)
Lemma step_close_with cfg b e x T a :
  T <> [] -> a_stk a <> [] ->
  (do a1 <- process_action cfg (mk_pos x b e) (a_mv x) a; close_with cfg b T a1)
  = close_with cfg b (nest_step (e, x) T) a.
Proof.
  intros HT Hs. destruct a as [ds stk]. cbn [a_stk] in Hs.
  destruct stk as [|[s w] stk']; [congruence|].
  destruct T as [|t0 rest]; [congruence|].
  unfold nest_step; cbn [fst snd]. unfold process_action.
  destruct (a_mv x).
  - (* Wrap *)
    cbn [a_stk a_defs rbind].
    destruct rest as [|outer rest'].
    + (* implicit closing at the end of the step *)
      cbn [close_with a_stk a_defs render_nodes]. rewrite render_node_NWrap. cbn [fst snd].
      destruct (render_nodes cfg b t0 (ds, RVar n_v)) as [[ds' body]| |]; cbn [rbind fst snd]; try reflexivity.
      cbn [List.length close_all a_stk wrap_last a_defs].
      change (p_comb (mk_pos x b e)) with (a_comb x).
      destruct (replace_inner (a_comb x) [wrapper_closure cfg body]) as [args|]; [|reflexivity].
      destruct (gen_def_and_step cfg ds' s (set_args (mk_pos x b e) args)) as [[ds'' s'']| |]; cbn [rbind fst snd]; try reflexivity.
    + cbn [close_with a_stk a_defs render_nodes]. rewrite render_node_NWrap. cbn [fst snd].
      destruct (render_nodes cfg b t0 (ds, RVar n_v)) as [[ds' body]| |]; cbn [rbind fst snd]; try reflexivity.
      cbn [wrap_last a_stk a_defs].
      change (p_comb (mk_pos x b e)) with (a_comb x).
      destruct (replace_inner (a_comb x) [wrapper_closure cfg body]) as [args|]; [|reflexivity].
      destruct (gen_def_and_step cfg ds' s (set_args (mk_pos x b e) args)) as [[ds'' s'']| |]; cbn [rbind fst snd]; try reflexivity.
  - (* Unwrap *)
    cbn [close_with a_stk a_defs render_nodes rbind fst snd].
    rewrite (wrap_last_top_irrelevant cfg ds s None w stk').
    reflexivity.
  - (* NoMove *)
    cbn [a_stk a_defs].
    cbn [close_with a_stk a_defs render_nodes render_node fst snd].
    destruct (gen_def_and_step cfg ds s (mk_pos x b e)) as [[ds' s']| |]; cbn [rbind fst snd]; reflexivity.
Qed.

Lemma process_action_stack_nonempty cfg p m a a1 :
  process_action cfg p m a = Ok a1 -> a_stk a1 <> [].
Proof.
  unfold process_action, wrap_last. destruct a as [ds stk]; cbn [a_stk a_defs].
  destruct m.
  - destruct stk as [|[s w] r]; [discriminate|]. intros H; inversion H; cbn; discriminate.
  - destruct stk as [|[s w] r]; [discriminate|]. destruct r as [|[c [w'|]] r']; try discriminate.
    destruct (replace_inner _ _); [|discriminate].
    destruct (gen_def_and_step _ _ _ _) as [x| |]; cbn [rbind]; try discriminate.
    intros H; inversion H; cbn; discriminate.
  - destruct stk as [|[s w] r]; [discriminate|].
    destruct (gen_def_and_step _ _ _ _) as [x| |]; cbn [rbind]; try discriminate.
    intros H; inversion H; cbn; discriminate.
Qed.

Lemma machine_close_with cfg b acts : forall e a,
  a_stk a <> [] ->
  (do a' <- process_actions cfg b e acts a; close_all (List.length (a_stk a')) cfg a')
  = close_with cfg b (fold_right nest_step [[]] (enum_from e acts)) a.
Proof.
  induction acts as [|x r IH]; intros e a Hs.
  - cbn [process_actions rbind enum_from fold_right close_with render_nodes fst snd].
    destruct a as [ds [|[s w] stk']]; cbn [a_stk a_defs] in *; [congruence|].
    cbn [rbind fst snd]. apply close_all_top_irrelevant.
  - cbn [process_actions enum_from fold_right].
    rewrite <- step_close_with by (auto using nest_fold_nonempty).
    destruct (process_action cfg (mk_pos x b e) (a_mv x) a) as [a1| |] eqn:Hp; cbn [rbind]; try reflexivity.
    apply IH. eapply process_action_stack_nonempty; eauto.
Qed.

(* C02, syntactic half: a step whose brackets balance is rendered as its tree *)
Theorem gen_branch_step_is_render j b prev acts t :
  nest acts = Some t ->
  gen_branch_step j b prev acts = render_nodes (j_cfg j) b t ([], wrap_into_block j (RVar prev)).
Proof.
  unfold nest, nest_levels, gen_branch_step. intros Hn.
  rewrite machine_close_with by (cbn; discriminate).
  destruct (fold_right nest_step [[]] (enum_from 0 acts)) as [|t0 [|t1 rest]]; try discriminate.
  inversion Hn; subst t0.
  cbn [close_with a_stk a_defs].
  destruct (render_nodes (j_cfg j) b t ([], wrap_into_block j (RVar prev))) as [[ds s]| |]; cbn [rbind fst snd]; reflexivity.
Qed.

(* ... and a `<<<` without a matching `>>>` in its step is the only way to get there with more
   levels: the machine then stops with an internal error (the cross-step `<<<` defect of the pinned tree,
   DESIGN.md 11.4, F2; the parser of `Parse.v` rejects such input) *)
Theorem gen_branch_step_unbalanced j b prev acts :
  nest acts = None -> forall r, gen_branch_step j b prev acts <> Ok r.
Proof.
  unfold nest, nest_levels, gen_branch_step. intros Hn r.
  rewrite machine_close_with by (cbn; discriminate).
  pose proof (nest_fold_nonempty (enum_from 0 acts)) as Hne.
  destruct (fold_right nest_step [[]] (enum_from 0 acts)) as [|t0 [|t1 rest]]; try congruence.
  cbn [close_with a_stk a_defs].
  destruct (render_nodes (j_cfg j) b t0 ([], wrap_into_block j (RVar prev))) as [[ds s]| |]; cbn [rbind fst snd]; try discriminate.
Qed.

Lemma gen_branch_step_ok j b prev acts r :
  gen_branch_step j b prev acts = Ok r ->
  exists t, nest acts = Some t /\ render_nodes (j_cfg j) b t ([], wrap_into_block j (RVar prev)) = Ok r.
Proof.
  intros H. destruct (nest acts) as [t|] eqn:En.
  - exists t. rewrite <- (gen_branch_step_is_render j b prev acts t En). auto.
  - destruct (gen_branch_step_unbalanced j b prev acts En r H).
Qed.

(* A property of bracket trees that holds of every node `nest_step` can build from members satisfying Q
   holds of all levels built from such members. *)
Section NestAll.
  Variables (Q : action -> Prop) (P : node -> Prop).
  Hypothesis P_act : forall e a, Q a -> a_mv a = NoMove -> P (NAct e a).
  Hypothesis P_wrap : forall e a inner, Q a -> a_mv a = Wrap -> Forall P inner -> P (NWrap e a inner).

  Lemma nest_fold_all acts : Forall Q acts ->
    forall e, Forall (Forall P) (fold_right nest_step [[]] (enum_from e acts)).
  Proof.
    induction 1 as [|a r Ha _ IH]; intros e; cbn [enum_from fold_right]; [repeat constructor|].
    specialize (IH (S e)). set (L := fold_right nest_step [[]] (enum_from (S e) r)) in *.
    unfold nest_step. cbn [fst snd]. destruct (a_mv a) eqn:Em.
    - destruct L as [|cur [|outer rest]]; [constructor| |].
      + inversion IH; subst. repeat constructor; auto.
      + inversion IH as [|? ? Hc IH']; subst. inversion IH'; subst. repeat constructor; auto.
    - constructor; [constructor|exact IH].
    - destruct L as [|cur rest]; [constructor|]. inversion IH; subst. repeat constructor; auto.
  Qed.

  Lemma nest_all acts t : Forall Q acts -> nest acts = Some t -> Forall P t.
  Proof.
    intros HQ. unfold nest, nest_levels. pose proof (nest_fold_all acts HQ 0) as HL.
    destruct (fold_right nest_step [[]] (enum_from 0 acts)) as [|t0 [|t1 rest]]; try discriminate.
    intros [= <-]. now inversion HL.
  Qed.
End NestAll.

(* what the members of a tree contribute, in their order in the step *)
Fixpoint node_flat {X} (f : nat -> action -> list X) (n : node) : list X :=
  match n with
  | NAct e a => f e a
  | NWrap e a inner => f e a ++ flat_map (node_flat f) inner
  end.

(* `nest` keeps every member but the `<<<` in its place *)
Lemma nest_fold_flat {X} (f : nat -> action -> list X) acts :
  (forall e a, a_mv a = Unwrap -> f e a = []) ->
  forall e, flat_map (node_flat f) (List.concat (fold_right nest_step [[]] (enum_from e acts)))
            = flat_map (fun ea => f (fst ea) (snd ea)) (enum_from e acts).
Proof.
  intros Hf. induction acts as [|a r IH]; intros e; cbn [enum_from fold_right]; [reflexivity|].
  cbn [flat_map fst snd]. rewrite <- (IH (S e)).
  pose proof (nest_fold_nonempty (enum_from (S e) r)) as Hne.
  set (L := fold_right nest_step [[]] (enum_from (S e) r)) in *.
  unfold nest_step. cbn [fst snd]. destruct (a_mv a) eqn:Em.
  - destruct L as [|cur [|outer rest]]; [congruence| |];
      cbn [List.concat flat_map node_flat app]; rewrite ?flat_map_app, ?app_nil_r, <- ?app_assoc; reflexivity.
  - rewrite (Hf e a Em). reflexivity.
  - destruct L as [|cur rest]; [congruence|]. reflexivity.
Qed.

Lemma nest_flat {X} (f : nat -> action -> list X) acts t :
  (forall e a, a_mv a = Unwrap -> f e a = []) -> nest acts = Some t ->
  flat_map (node_flat f) t = flat_map (fun ea => f (fst ea) (snd ea)) (enum_from 0 acts).
Proof.
  intros Hf. rewrite <- (nest_fold_flat f acts Hf 0). unfold nest, nest_levels.
  destruct (fold_right nest_step [[]] (enum_from 0 acts)) as [|t0 [|t1 rest]]; try discriminate.
  intros [= <-]. cbn [List.concat]. now rewrite app_nil_r.
Qed.

(* A successful rendering is a sequence of `gen_def_and_step` calls, one per member: a plain member continues
   the chain, a wrapper continues it with the closure over its rendered inner chain. *)
Section Runs.
  Variables (cfg : config) (b : nat) (Q : action -> Prop).
  Variable P : node -> rstate -> rstate -> Prop.
  Variable Ps : list node -> rstate -> rstate -> Prop.
  Hypothesis Ps_nil : forall st, Ps [] st st.
  Hypothesis Ps_cons : forall n t st1 st2 st3, P n st1 st2 -> Ps t st2 st3 -> Ps (n :: t) st1 st3.
  Hypothesis P_act : forall e a st st', Q a -> a_mv a = NoMove ->
    gen_def_and_step cfg (fst st) (snd st) (mk_pos a b e) = Ok st' -> P (NAct e a) st st'.
  Hypothesis P_wrap : forall e a inner st inner' args st', Q a -> a_mv a = Wrap ->
    Ps inner (fst st, RVar n_v) inner' ->
    replace_inner (a_comb a) [wrapper_closure cfg (snd inner')] = Some args ->
    gen_def_and_step cfg (fst inner') (snd st) (set_args (mk_pos a b e) args) = Ok st' ->
    P (NWrap e a inner) st st'.

  Let run (n : node) : Prop := forall st st', render_node cfg b n st = Ok st' -> P n st st'.

  Lemma render_nodes_run t : Forall run t -> forall st st', render_nodes cfg b t st = Ok st' -> Ps t st st'.
  Proof.
    induction 1 as [|n t Hn _ IH]; intros st st' H.
    - rewrite render_nodes_nil in H. injection H as <-. apply Ps_nil.
    - rewrite render_nodes_cons in H. destruct (render_node cfg b n st) as [st1| |] eqn:E; try discriminate.
      exact (Ps_cons _ _ _ _ _ (Hn _ _ E) (IH _ _ H)).
  Qed.

  Lemma nest_fold_run acts : Forall Q acts ->
    forall e, Forall (fun t => forall st st', render_nodes cfg b t st = Ok st' -> Ps t st st')
                     (fold_right nest_step [[]] (enum_from e acts)).
  Proof.
    intros HQ e. eapply Forall_impl; [exact render_nodes_run|]. apply (nest_fold_all Q run); [| |exact HQ].
    - intros e' a Ha Hm st st' H. exact (P_act _ _ _ _ Ha Hm H).
    - intros e' a inner Ha Hm Hin st st' H. rewrite render_node_NWrap in H.
      destruct (render_nodes cfg b inner (fst st, RVar n_v)) as [inner'| |] eqn:E; try discriminate.
      cbn [rbind] in H. destruct (replace_inner _ _) as [args|] eqn:Er; [|discriminate].
      exact (P_wrap _ _ _ _ _ _ _ Ha Hm (render_nodes_run _ Hin _ _ E) Er H).
  Qed.

  Lemma nest_run acts t : Forall Q acts -> nest acts = Some t ->
    forall st st', render_nodes cfg b t st = Ok st' -> Ps t st st'.
  Proof.
    intros HQ. unfold nest, nest_levels. pose proof (nest_fold_run acts HQ 0) as HL.
    destruct (fold_right nest_step [[]] (enum_from 0 acts)) as [|t0 [|t1 rest]]; try discriminate.
    intros [= <-]. now inversion HL.
  Qed.
End Runs.
