(* Non-vacuity of the refinement theorem: a concrete program (let names, a wrapper, a hoisted block
   operand, different depths, try + handler) meets `wf`, is accepted by `gen` and by `prepare`, and the
   theorem instantiates for the concrete world of Concrete.v (no hypothesis on the user-code semantics
   is left to discharge). *)
From Join Require Import Tok Ast Ir Gen Denote Spec Concrete RefineProg RefineTop.

(* try_join!{ let a = x0 |> >>> |> {blk} <<< ~=> g, y0 ~|> h ~|> i, map => hd } *)
Definition ex_inp : input :=
  mkInput
    [ mkBranch (Some ([TI "a"], "a"))
        [ mkAction Initial false NoMove [[TI "x0"]];
          mkAction Map false Wrap [[TP "|" false]];
          mkAction Map false NoMove [[TG DBrace [TI "blk"]]];
          mkAction UNWRAP false Unwrap [];
          mkAction AndThen true NoMove [[TI "g"]] ];
      mkBranch None
        [ mkAction Initial false NoMove [[TI "y0"]];
          mkAction Map true NoMove [[TI "h"]];
          mkAction Map true NoMove [[TI "i"]] ] ]
    (Some (HMap, [TI "hd"])) None None None None.

Lemma ex_wf : wf ex_inp.
Proof.
  constructor; try reflexivity.
  - cbn. repeat constructor; cbn; intuition discriminate.
  - cbn. repeat constructor.
  - cbn. repeat constructor.
  - cbn. repeat constructor; cbn; try reflexivity; try discriminate.
Qed.

Definition ex_cfgs : list config :=
  [ mkConfig false true false; mkConfig false true true; mkConfig true true false; mkConfig true true true ].

Lemma ex_gen_ok : forall cfg, In cfg ex_cfgs ->
  exists e sp, gen cfg ex_inp = Ok e /\ prepare cfg ex_inp = Some sp.
Proof.
  intros cfg H. cbn in H.
  repeat (destruct H as [<-|H]; [eexists; eexists; split; vm_compute; reflexivity|]). contradiction.
Qed.

(* the theorem applies: den (gen ..) = spec .. for the concrete world, all four try kinds *)
Example ex_refines : forall cfg, In cfg ex_cfgs ->
  exists e sp, gen cfg ex_inp = Ok e /\ prepare cfg ex_inp = Some sp /\
    den (user_names ex_inp) c_msem c_dotsem c_callsem c_await e empty_env = spec c_msem c_dotsem c_callsem c_await sp.
Proof.
  intros cfg H. destruct (ex_gen_ok cfg H) as (e & sp & Hg & Hp). exists e, sp. repeat split; auto.
  apply (gen_refines_spec c_msem c_dotsem c_callsem c_await cfg ex_inp e sp ex_wf Hg Hp).
Qed.

Print Assumptions ex_refines.
