(* GenPropsParse - what the parser returns is what the generator requires: every accepted input is `wf_parsed`,
   hence the composed C15 statement
     parse o ts = POk inp  ->  gen cfg inp never returns InternalBug
   for EVERY oracle, token stream and configuration. *)
From Coq Require Import Lia ZArith.
From Join Require Import Tok Ast Ir Gen Parse ParseProps.
From Join Require Import GenPropsB GenPropsA.

Definition arity_ok (m : action) : Prop := ops_arity_ok (a_comb m) (List.length (a_ops m)) = true.

Lemma parse_stream_arity o g inp r : parse_stream o g inp = POk r -> arity_ok (mr_action r).
Proof.
  intros H. destruct (sat_ok _ _ _ (parse_stream_spec o g inp) H) as (Hc & _ & _ & _ & _ & _ & Hops).
  unfold arity_ok. rewrite Hc. destruct Hops as [(_ & Hcw & ->)|(_ & [->|[-> He]])].
  - destruct (g_comb g); try discriminate Hcw; reflexivity.
  - destruct (g_comb g); reflexivity.
  - destruct (g_comb g); try discriminate He; reflexivity.
Qed.

Lemma balancedb_cons d m g d' :
  Z.of_nat d' = (Z.of_nat d + delta m)%Z -> balancedb d (m :: g) = balancedb d' g.
Proof.
  unfold delta. cbn [balancedb]. destruct (a_mv m); intros E.
  - now replace d' with (S d) by lia.
  - destruct d as [|d0]; [lia|]. now replace d' with d0 by lia.
  - now replace d' with d by lia.
Qed.

(* the builder's per-branch running balance (reset at `~`) is the per-step balance of the generator *)
Lemma balance_steps ms : forall cur,
  Forall (fun z => (0 <= z)%Z) (step_balances (Z.of_nat cur) ms) ->
  match split_steps ms with
  | g :: gs => balancedb cur g = true /\ Forall (fun s => balancedb 0 s = true) gs
  | [] => False
  end.
Proof.
  induction ms as [|m r IH]; intros cur H; cbn [split_steps].
  - split; [reflexivity|constructor].
  - cbn [step_balances] in H. inversion H as [|z l Hz Hr]; subst.
    assert (exists cur', Z.of_nat cur' = ((if a_deferred m then 0 else Z.of_nat cur) + delta m)%Z) as [cur' E]
      by (exists (Z.to_nat ((if a_deferred m then 0 else Z.of_nat cur) + delta m)); lia).
    rewrite <- E in Hr. specialize (IH cur' Hr). destruct (split_steps r) as [|g gs]; [contradiction|].
    destruct IH as [Hg Hgs]. destruct (a_deferred m).
    + split; [reflexivity|]. constructor; [|exact Hgs]. now rewrite (balancedb_cons 0 m g cur' E).
    + split; [|exact Hgs]. now rewrite (balancedb_cons cur m g cur' E).
Qed.

Lemma chain_wf_branch_wf b :
  chain_wf (b_members b) -> Forall arity_ok (b_members b) -> branch_wf b.
Proof.
  intros (m0 & rest & Heq & Hc & Hm & Hd & Hni & Hok & Hbal) Har.
  exists m0, rest. split; [exact Heq|]. split; [exact Hc|]. split; [exact Hd|]. split; [exact Hm|].
  split; [exact Hni|]. split.
  - rewrite Forall_forall in *. intros x Hx. destruct (Hok x Hx) as [Hw Hu]. split; [exact (Har x Hx)|]. split; assumption.
  - pose proof (balance_steps (b_members b) 0 Hbal) as Hs.
    destruct (split_steps (b_members b)) as [|g gs]; [contradiction|]. destruct Hs as [Hg Hgs].
    constructor; [apply nest_some_iff_balanced; exact Hg|].
    eapply Forall_impl; [|exact Hgs]. intros s Hsb. apply nest_some_iff_balanced. exact Hsb.
Qed.

Lemma build_wf o inp b rest : build o inp = POk (b, rest) -> branch_wf b.
Proof.
  intros H. destruct (sat_ok _ _ _ (build_spec o arity_ok (parse_stream_arity o) inp) H) as (Hwf & Har & _).
  apply chain_wf_branch_wf; [exact Hwf|].
  destruct Har as (m0 & ms & E & H1 & Hms). destruct Hwf as (m0' & ms' & E' & Hi & _). cbn [fst] in *.
  rewrite E in *. injection E' as <- <-. constructor; [|exact Hms]. unfold arity_ok. now rewrite Hi, H1.
Qed.

(* what the parser guarantees is (at least) wf_parsed, for every oracle and every token stream *)
Theorem parse_ok_wf o ts inp : parse o ts = POk inp -> wf_parsed inp /\ i_branches inp <> [].
Proof. intros H. destruct (sat_ok _ _ _ (parse_spec o _ (build_wf o) ts) H). split; assumption. Qed.

(* C15 composed: whatever the parser accepts, the generator never panics with an internal error *)
Theorem parse_then_gen_no_internal_bug o ts inp cfg :
  parse o ts = POk inp -> forall n, gen cfg inp <> InternalBug n.
Proof. intros H. apply no_internal_bug. exact (proj1 (parse_ok_wf o ts inp H)). Qed.

(* ... and it produces an expansion unless the configuration is rejected with code 1, 2 or 3 (the fourth documented
   rejection, no branch, cannot arise: the parser returns at least one branch) *)
Theorem parse_then_gen_total o ts inp cfg :
  parse o ts = POk inp -> (exists e, gen cfg inp = Ok e) \/ (exists k, gen cfg inp = ConfigError k /\ (k = 1 \/ k = 2 \/ k = 3)%N).
Proof.
  intros H. destruct (parse_ok_wf o ts inp H) as [Hwf Hne].
  destruct (config_verdict cfg inp) as [k|] eqn:Ev.
  - assert (Hk : gen cfg inp = ConfigError k) by (apply gen_config_error_iff; exact Ev).
    right. exists k. split; [exact Hk|]. apply config_rejection_exact in Hk. unfold rej_no_branch in Hk.
    destruct Hk as [[-> _]|[[-> _]|[[-> _]|(_ & _ & _ & _ & Hb)]]]; auto. congruence.
  - left. apply gen_total; assumption.
Qed.

Print Assumptions parse_ok_wf.
Print Assumptions parse_then_gen_no_internal_bug.
Print Assumptions parse_then_gen_total.
