(* MacrosProps - the table of macro names (Macros.v): twelve names for the eight kinds (C01), the four `*spawn`
   aliases (C07), and `is_spawn` as the only difference between a spawn macro and its plain counterpart. *)
From Join Require Import Tok Ast Macros.

Definition cfg_of (name : string) : option config := macro_config name macro_table.

Theorem alias_configs_equal :
  cfg_of "spawn" = cfg_of "join_spawn" /\ cfg_of "try_spawn" = cfg_of "try_join_spawn" /\
  cfg_of "async_spawn" = cfg_of "join_async_spawn" /\ cfg_of "try_async_spawn" = cfg_of "try_join_async_spawn".
Proof. repeat split. Qed.

Definition plain_of (c : config) : config := mkConfig (is_async c) (is_try c) false.
Theorem spawn_pairs_differ_in_spawn_only :
  option_map plain_of (cfg_of "join_spawn") = cfg_of "join" /\
  option_map plain_of (cfg_of "try_join_spawn") = cfg_of "try_join" /\
  option_map plain_of (cfg_of "join_async_spawn") = cfg_of "join_async" /\
  option_map plain_of (cfg_of "try_join_async_spawn") = cfg_of "try_join_async".
Proof. repeat split. Qed.

Theorem twelve_macros_eight_kinds :
  List.length macro_table = 12 /\
  forall a t s, exists name, cfg_of name = Some (mkConfig a t s).
Proof.
  split; [reflexivity|].
  intros [|] [|] [|];
    [exists "try_join_async_spawn"|exists "try_join_async"|exists "join_async_spawn"|exists "join_async"
    |exists "try_join_spawn"|exists "try_join"|exists "join_spawn"|exists "join"]; reflexivity.
Qed.
