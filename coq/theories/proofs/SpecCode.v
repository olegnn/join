(* The Spec-level walk shared by SpecSpawn.v (events-only user code), SpecSpawnNested.v (user
   code that may itself spawn threads), SpecSpawnProps.v, SpecOnce.v (its accounting class) and
   SpecAsyncSpawn.v: everything here is generic in a CLASS OF CODE `cls Q c` ("c is admissible code
   whose results satisfy Q").  A `code_class` contains `Ret`, `Panic`, events other than
   `EThreadName`, and is closed under `bind`; the glue of a program (Section Glue) needs only the
   weaker `call_class`, with the call of a user function as its one event.  Under the hypothesis
   `user_codeC` on `msem` / `dotsem` / `callsem` / `awaitsem`, every piece of a SYNC program of
   Spec.v outside the thread step is in the class; so a relation `simr Q c1 c2` between thread code and plain code that is reflexive
   on the class, compatible with `bind`, and holds for the thread step, holds for the whole programs
   `spec (with_spawn true p)` / `spec (with_spawn false p)` (`walk_program`). *)
From Join Require Import Tok Ast Comp Std Denote Spec DocTable SpecProps ThreadsProps.
Import ListNotations.

Local Notation top := (fun _ => True).

Record code_class (cls : forall A : Type, (A -> Prop) -> comp A -> Prop) : Prop := {
  cc_ret : forall A (Q : A -> Prop) a, Q a -> cls A Q (Ret a);
  cc_panic : forall A (Q : A -> Prop) n, cls A Q (Panic n);
  cc_vis : forall A (Q : A -> Prop) e k, e <> EThreadName -> (forall v, cls A Q (k v)) -> cls A Q (Vis e k);
  cc_bind : forall A B (Q : A -> Prop) (R : B -> Prop) (c : comp A) (f : A -> comp B),
      cls A Q c -> (forall a, Q a -> cls B R (f a)) -> cls B R (bind c f)
}.

Lemma first_false_in bs : forall ds d, first_false bs ds = Some d -> In d ds.
Proof.
  induction bs as [|[|] bs IH]; intros [|d' ds] d H; cbn in H; try discriminate.
  - right. eauto.
  - injection H as <-. now left.
Qed.

Section Values.
  Variable cls : forall A : Type, (A -> Prop) -> comp A -> Prop.
  Notation C := (cls _).

  (* Denotable values whose closures / futures are code of the class.  `DTb` (the item `__tb`, which
     reads the thread name when applied) is not a value user code can hold. *)
  Definition carg_okC (c : carg) : Prop :=
    match c with CV _ => True | CF f => forall vs, C top (f vs) end.
  Definition dval_okC (d : dval) : Prop :=
    match d with
    | DV _ | DBuilder _ | DSpawnTokio => True
    | DF f => forall vs, C top (f vs)
    | DFn f => forall cs, Forall carg_okC cs -> C top (f cs)
    | DFut c => C top c
    | DTb => False
    end.

  (* THE HYPOTHESIS ON USER CODE: methods, field/method tokens, calls and awaits are code of the
     class and hand back such values - PROVIDED the closures they are given are.  (Unconditionally
     it would be unsatisfiable for any `msem` that calls its closure argument, e.g. `map`.) *)
  Record user_codeC (msem : string -> option (list operand) -> dval -> list dval -> comp dval)
                    (dotsem : operand -> list (string * option val) -> dval -> comp dval)
                    (callsem : val -> list dval -> comp dval)
                    (awaitsem : val -> comp val) : Prop := {
    uc_msem : forall m tys recv args, dval_okC recv -> Forall dval_okC args -> C dval_okC (msem m tys recv args);
    uc_dotsem : forall o sn recv, dval_okC recv -> C dval_okC (dotsem o sn recv);
    uc_callsem : forall f args, Forall dval_okC args -> C dval_okC (callsem f args);
    uc_awaitsem : forall v, C top (awaitsem v)
  }.

  Definition st_okC (st : list (option dval)) : Prop :=
    Forall (fun o => match o with Some d => dval_okC d | None => True end) st.

  Lemma set1_ok st b d : st_okC st -> dval_okC d -> st_okC (set1 st b d).
  Proof.
    intros Hst Hd. revert b. induction Hst as [|o st Ho Hst IH]; intros [|b]; cbn; constructor; auto.
    apply IH.
  Qed.

  Lemma set_all_ok st bs ds : st_okC st -> Forall dval_okC ds -> st_okC (set_all st bs ds).
  Proof.
    intros Hst Hds. revert st bs Hst. induction Hds as [|d ds Hd Hds IH]; intros st [|b bs] Hst; cbn; auto.
    apply IH. apply set1_ok; assumption.
  Qed.
End Values.

(* What the glue of a program needs (everything outside the chains and the captures, which evaluate
   no user expression): `Ret`, `Panic`, `bind`, and the call of a user function. *)
Record call_class (cls : forall A : Type, (A -> Prop) -> comp A -> Prop) : Prop := {
  kc_ret : forall A (Q : A -> Prop) a, Q a -> cls A Q (Ret a);
  kc_panic : forall A (Q : A -> Prop) n, cls A Q (Panic n);
  kc_call : forall A (Q : A -> Prop) f args k, (forall v, cls A Q (k v)) -> cls A Q (Vis (ECall f args) k);
  kc_bind : forall A B (Q : A -> Prop) (R : B -> Prop) (c : comp A) (f : A -> comp B),
      cls A Q c -> (forall a, Q a -> cls B R (f a)) -> cls B R (bind c f)
}.

Lemma code_call_class cls : code_class cls -> call_class cls.
Proof.
  intros CC. split; [apply (cc_ret _ CC)|apply (cc_panic _ CC)| |apply (cc_bind _ CC)].
  intros A Q f args k. apply (cc_vis _ CC). discriminate.
Qed.

Section Glue.
  Variable cls : forall A : Type, (A -> Prop) -> comp A -> Prop.
  Hypothesis KC : call_class cls.
  Notation C := (cls _).
  Notation dval_ok := (dval_okC cls).
  Notation carg_ok := (carg_okC cls).
  Notation st_ok := (st_okC cls).

  Variable msem : string -> option (list operand) -> dval -> list dval -> comp dval.
  Variable dotsem : operand -> list (string * option val) -> dval -> comp dval.
  Variable callsem : val -> list dval -> comp dval.
  Variable awaitsem : val -> comp val.
  Hypothesis HU : user_codeC cls msem dotsem callsem awaitsem.

  Lemma c_ret {A} (Q : A -> Prop) a : Q a -> C Q (Ret a).
  Proof. apply (kc_ret _ KC). Qed.
  Lemma c_panic {A} (Q : A -> Prop) n : C Q (Panic n).
  Proof. apply (kc_panic _ KC). Qed.
  Lemma c_bind {A B} (Q : A -> Prop) (R : B -> Prop) (c : comp A) (f : A -> comp B) :
    C Q c -> (forall a, Q a -> C R (f a)) -> C R (bind c f).
  Proof. apply (kc_bind _ KC). Qed.
  Lemma c_mapM {A B} (Q : B -> Prop) (f : A -> comp B) (l : list A) :
    (forall x, In x l -> C Q (f x)) -> C (Forall Q) (mapM f l).
  Proof.
    induction l as [|x l IH]; intros H; cbn [mapM].
    - apply c_ret. constructor.
    - eapply c_bind; [apply H; now left|]. intros y Hy.
      eapply c_bind; [apply IH; intros; apply H; now right|]. intros ys Hys. apply c_ret. constructor; assumption.
  Qed.

  Ltac fin := first [ exact I | apply c_panic | apply c_ret; first [exact I | assumption] ].

  Lemma cls_to_val d : C top (to_val d).
  Proof. destruct d; cbn; fin. Qed.

  Lemma cls_val (Q : dval -> Prop) c : C Q c -> C top (let! d := c in to_val d).
  Proof. intros Hc. eapply c_bind; [exact Hc|]. intros d _. apply cls_to_val. Qed.

  Lemma all_cargs_ok ds cs : all_cargs ds = Some cs -> Forall dval_ok ds -> Forall carg_ok cs.
  Proof.
    revert cs. induction ds as [|d ds IH]; intros cs E Hds; cbn in E.
    - injection E as <-. constructor.
    - inversion Hds as [|? ? Hd Hds']; subst.
      destruct d; try discriminate; destruct (all_cargs ds) as [cs'|]; try discriminate;
        injection E as <-; constructor; auto.
  Qed.

  Lemma cls_apply f ds : dval_ok f -> Forall dval_ok ds -> C dval_ok (apply callsem f ds).
  Proof.
    intros Hf Hds. destruct f as [fv|g|g|c|name| |]; cbn [apply]; try fin.
    - destruct (all_vals ds) as [vs|]; [|apply (uc_callsem _ _ _ _ _ HU); assumption].
      apply (kc_call _ KC). intros v. fin.
    - destruct (all_vals ds) as [vs|]; [|fin].
      eapply c_bind; [apply Hf|]. intros v _. fin.
    - destruct (all_cargs ds) as [cs|] eqn:E; [|fin].
      eapply c_bind; [apply Hf; eapply all_cargs_ok; eauto|]. intros v _. fin.
    - contradiction.
    - destruct ds as [|[v|g|g|c|name| |] [|]]; try fin.
      apply c_ret. inversion Hds; subst. assumption.
  Qed.

  Lemma cls_inspect_sem f r : dval_ok f -> dval_ok r -> C dval_ok (inspect_sem callsem f r).
  Proof.
    intros Hf Hr. unfold inspect_sem.
    destruct f as [fv|g|g|c|name| |]; try fin; destruct r as [v|g'|g'|c'|name'| |]; try fin;
      (eapply c_bind; [apply cls_apply; [assumption|constructor; [assumption|constructor]]|]; intros; fin).
  Qed.

  Lemma cls_await_d d : dval_ok d -> C top (await_d awaitsem d).
  Proof.
    intros Hd. destruct d as [v|g|g|c|name| |]; cbn [await_d]; try fin.
    - apply (uc_awaitsem _ _ _ _ _ HU).
    - exact Hd.
  Qed.

  Lemma cls_join_seq ds : Forall dval_ok ds -> C top (join_seq awaitsem ds).
  Proof.
    intros Hds. unfold join_seq. eapply c_bind with (Q := Forall top).
    - apply c_mapM. intros d Hd. apply cls_await_d. rewrite Forall_forall in Hds. auto.
    - intros vs _. fin.
  Qed.

  Lemma cls_try_join_seq ds : Forall dval_ok ds -> forall a, C top (try_join_seq awaitsem ds a).
  Proof.
    induction 1 as [|d ds Hd Hds IH]; intros a; cbn [try_join_seq]; [fin|].
    eapply c_bind; [apply cls_await_d, Hd|]. intros v _. destruct v; try fin. apply IH.
  Qed.

  Lemma cls_std_map d f : dval_ok d -> (forall vs, C top (f vs)) -> C dval_ok (std_map d f).
  Proof.
    intros Hd Hf. destruct d as [v|g|g|c|name| |]; try fin.
    - destruct v; try fin; cbn; (eapply c_bind; [apply Hf|]; intros; fin).
    - apply c_ret. cbn. eapply c_bind; [exact Hd|]. intros v _. apply Hf.
  Qed.

  Lemma cls_std_and_then d f : dval_ok d -> (forall vs, C top (f vs)) -> C dval_ok (std_and_then awaitsem d f).
  Proof.
    intros Hd Hf. destruct d as [v|g|g|c|name| |]; try fin.
    - destruct v; try fin; cbn; (eapply c_bind; [apply Hf|]; intros; fin).
    - apply c_ret. cbn. eapply c_bind; [exact Hd|]. intros r _. destruct r; try fin.
      eapply c_bind; [apply Hf|]. intros fut _. apply (uc_awaitsem _ _ _ _ _ HU).
  Qed.

  Lemma cls_vals_tuple ds : C dval_ok (Spec.vals_tuple ds).
  Proof. unfold Spec.vals_tuple. destruct (all_vals ds); fin. Qed.

  Lemma cls_untuple n d :
    C (Forall dval_ok) (match d with
                        | DV (VTuple vs) => if Nat.eqb (List.length vs) n then Ret (map DV vs) else Panic P_ILLTYPED
                        | _ => Panic P_ILLTYPED end).
  Proof.
    destruct d as [v|g|g|c|name| |]; try fin. destruct v; try fin.
    destruct (Nat.eqb _ _); [|fin]. apply c_ret. apply Forall_forall. intros d Hd.
    apply in_map_iff in Hd. destruct Hd as (v & <- & _). exact I.
  Qed.

  Lemma cls_extract acts sr : dval_ok sr -> C (Forall dval_ok) (extract acts sr).
  Proof.
    intros Hsr. unfold extract. destruct acts as [|a [|a' acts']]; try apply cls_untuple.
    apply c_ret. constructor; [assumption|constructor].
  Qed.

  Lemma cls_classify d : C top (classify d).
  Proof. destruct d as [v|g|g|c|name| |]; try fin. destruct v; fin. Qed.

  Section Prog.
    Variable p : sprog.

    Lemma cls_get st b : st_ok st -> C dval_ok (get st b).
    Proof.
      intros Hst. unfold get.
      assert (H : match nth b st None with Some d => dval_ok d | None => True end).
      { revert b. induction Hst as [|o st Ho Hst IH]; intros [|b]; cbn; auto. apply IH. }
      destruct (nth b st None); [apply c_ret, H|fin].
    Qed.

    Lemma cls_final_tuple st : st_ok st -> C dval_ok (final_tuple p st).
    Proof.
      intros Hst. unfold final_tuple.
      eapply c_bind; [apply c_mapM; intros b _; apply cls_get, Hst|].
      intros ds Hds. destruct ds as [|d [|d' ds']]; try apply cls_vals_tuple.
      apply c_ret. inversion Hds; assumption.
    Qed.

    Lemma cls_transpose bs : forall st, st_ok st -> C dval_ok (transpose awaitsem p bs st).
    Proof.
      induction bs as [|b r IH]; intros st Hst; [fin|].
      cbn [transpose]. destruct r as [|b' r'].
      - eapply c_bind; [apply cls_get, Hst|]. intros d Hd.
        apply cls_std_map; [exact Hd|]. intros [|v [|]]; try fin.
        eapply cls_val, cls_final_tuple, set1_ok; [exact Hst|fin].
      - eapply c_bind; [apply cls_get, Hst|]. intros d Hd.
        apply cls_std_and_then; [exact Hd|]. intros [|v [|]]; try fin.
        eapply cls_val, IH, set1_ok; [exact Hst|fin].
    Qed.

    Lemma cls_call_handler hv rs : dval_ok hv -> dval_ok rs -> C dval_ok (call_handler callsem p hv rs).
    Proof.
      intros Hh Hrs. unfold call_handler.
      eapply c_bind with (Q := Forall dval_ok); [|intros args Hargs; apply cls_apply; assumption].
      destruct (List.length (sp_trees p)) as [|[|m]]; try apply cls_untuple.
      apply c_ret. constructor; [assumption|constructor].
    Qed.

    Lemma cls_handle_results ho rs :
      match ho with Some (_, hv) => dval_ok hv | None => True end -> dval_ok rs ->
      C dval_ok (handle_results callsem awaitsem p ho rs).
    Proof.
      intros Hh Hrs. unfold handle_results.
      assert (Hclo : forall hv, dval_ok hv ->
                forall vs : list val, C top (match vs with
                                                 | [v] => let! d := call_handler callsem p hv (DV v) in to_val d
                                                 | _ => Panic P_ILLTYPED end)).
      { intros hv Hhv [|v [|]]; try fin.
        eapply cls_val, cls_call_handler; [exact Hhv|fin]. }
      destruct ho as [[[| |] hv]|]; [| | |apply c_ret, Hrs]; destruct (is_async (sp_cfg p)).
      - eapply c_bind; [apply cls_to_val|]. intros v _.
        eapply c_bind.
        + apply cls_std_map; [apply c_ret; exact I|]. intros [|r [|]]; try fin.
          eapply cls_val, cls_std_map; [exact I|apply Hclo, Hh].
        + intros d Hd. eapply c_bind; [apply cls_await_d, Hd|]. intros w _. fin.
      - apply cls_std_map; auto.
      - eapply c_bind; [apply cls_call_handler; assumption|]. intros d Hd.
        eapply c_bind; [apply cls_await_d, Hd|]. intros w _. fin.
      - eapply c_bind; [apply cls_call_handler; assumption|]. intros d Hd. apply c_ret, Hd.
      - eapply c_bind; [apply cls_to_val|]. intros v _.
        eapply c_bind.
        + apply cls_std_and_then; [apply c_ret; exact I|]. apply Hclo, Hh.
        + intros d Hd. eapply c_bind; [apply cls_await_d, Hd|]. intros w _. fin.
      - apply cls_std_and_then; auto.
    Qed.
  End Prog.
End Glue.

(* The chains and the captures evaluate user expressions (`EEval`): a full class of code *)
Section UserCode.
  Variable cls : forall A : Type, (A -> Prop) -> comp A -> Prop.
  Hypothesis CC : code_class cls.
  Notation C := (cls _).
  Notation dval_ok := (dval_okC cls).
  Notation KC := (code_call_class cls CC).
  Notation c_ret := (c_ret cls KC).
  Notation c_panic := (c_panic cls KC).
  Notation c_bind := (c_bind cls KC).

  Variable msem : string -> option (list operand) -> dval -> list dval -> comp dval.
  Variable dotsem : operand -> list (string * option val) -> dval -> comp dval.
  Variable callsem : val -> list dval -> comp dval.
  Variable awaitsem : val -> comp val.
  Hypothesis HU : user_codeC cls msem dotsem callsem awaitsem.

  Lemma c_vis {A} (Q : A -> Prop) e k : e <> EThreadName -> (forall v, C Q (k v)) -> C Q (Vis e k).
  Proof. apply (cc_vis _ CC). Qed.

  Ltac fin := first [ exact I | apply c_panic | apply c_ret; first [exact I | assumption] ].

  Notation snapshot := (list (string * option val)).

  Lemma cls_eval_args (sn : snapshot) cp b e c ops : forall i,
    C (Forall dval_ok) (eval_args sn cp b e i c ops).
  Proof.
    induction ops as [|o r IH]; intros i; cbn [eval_args]; [apply c_ret; constructor|].
    eapply c_bind with (Q := dval_ok).
    - destruct (hoistable c o).
      + destruct (lookup_cap cp (b, e, i)); fin.
      + apply c_vis; [discriminate|]. intros v. fin.
    - intros d Hd. eapply c_bind; [apply IH|]. intros ds Hds. apply c_ret. constructor; assumption.
  Qed.

  Definition wrap_clo async (sn : snapshot) cp b inner : dval :=
    DF (fun vs => match vs with
                  | [v] => let! d := sem_nodes msem dotsem callsem async sn cp b inner (Ret (DV v)) in to_val d
                  | _ => Panic P_ILLTYPED end).

  (* a wrapper hands its closure to a method, or (sync `??`) to `inspect_sem` *)
  Lemma sem_wrap_any_method (P : comp dval -> Prop) async (sn : snapshot) cp b e a inner recv :
    (forall m, P (let! r := recv in msem m None r [wrap_clo async sn cp b inner])) ->
    (async = false -> P (let! r := recv in inspect_sem callsem (wrap_clo async sn cp b inner) r)) ->
    P (sem_node msem dotsem callsem async sn cp b (NWrap e a inner) recv).
  Proof.
    intros Hm Hi. apply (DocTable.sem_wrap_cases msem dotsem callsem P); cbv zeta; intros _; [|apply Hm].
    destruct async; [apply Hm|apply Hi; reflexivity].
  Qed.

  Ltac one_arg ds := destruct ds as [|?d [|]]; try fin.

  Lemma cls_sem_nodes async (sn : snapshot) cp b l :
    forall recv, C dval_ok recv -> C dval_ok (sem_nodes msem dotsem callsem async sn cp b l recv).
  Proof.
    induction l as [e a|e a inner IHinner| |x t IHx IHt] using nodes_ind2
      with (P := fun n => forall recv, C dval_ok recv ->
                   C dval_ok (sem_node msem dotsem callsem async sn cp b n recv));
      intros recv Hrecv.
    - pose proof (cls_eval_args sn cp b e (a_comb a) (exprs_of a) 0) as Hargs.
      apply (sem_act_cases msem dotsem callsem (C dval_ok)); cbv zeta; intros Hc.
      + (* a method *) eapply c_bind; [exact Hrecv|]; intros r Hr. eapply c_bind; [exact Hargs|].
        intros ds Hds. apply (uc_msem _ _ _ _ _ HU); assumption.
      + (* Dot *) destruct (a_ops a) as [|o [|]]; try fin.
        eapply c_bind; [exact Hrecv|]. intros r Hr. apply (uc_dotsem _ _ _ _ _ HU), Hr.
      + (* Inspect *) destruct async.
        * eapply c_bind; [exact Hrecv|]; intros r Hr; eapply c_bind; [exact Hargs|].
          intros ds Hds. one_arg ds. apply (uc_msem _ _ _ _ _ HU); assumption.
        * eapply c_bind; [exact Hargs|]. intros ds Hds. one_arg ds.
          eapply c_bind; [exact Hrecv|]; intros r Hr. apply (cls_inspect_sem cls KC _ _ _ _ HU); [|assumption].
          inversion Hds; assumption.
      + (* Then *) eapply c_bind; [exact Hargs|]. intros ds Hds. one_arg ds.
        eapply c_bind; [exact Hrecv|]; intros r Hr. apply (cls_apply cls KC _ _ _ _ HU); [inversion Hds; assumption|].
        constructor; [assumption|constructor].
      + (* Initial *) eapply c_bind; [exact Hargs|]. intros ds Hds. one_arg ds. apply c_ret. inversion Hds; assumption.
      + (* UNWRAP *) fin.
    - assert (Hclo : dval_ok (wrap_clo async sn cp b inner)).
      { intros [|v [|]]; try fin.
        eapply (cls_val cls KC), IHinner. fin. }
      apply sem_wrap_any_method; intros; (eapply c_bind; [exact Hrecv|]); intros r Hr.
      + apply (uc_msem _ _ _ _ _ HU); [exact Hr|constructor; [exact Hclo|constructor]].
      + apply (cls_inspect_sem cls KC _ _ _ _ HU); assumption.
    - exact Hrecv.
    - cbn [sem_nodes]. apply IHt. apply IHx, Hrecv.
  Qed.

  Lemma cls_capture_ops (sn : snapshot) b e c ops : forall i, C top (capture_ops sn b e i c ops).
  Proof.
    induction ops as [|o r IH]; intros i; cbn [capture_ops]; [fin|].
    destruct (hoistable c o); [|apply IH].
    apply c_vis; [discriminate|]. intros v. eapply c_bind; [apply IH|]. intros; fin.
  Qed.

  Lemma cls_capture_nodes (sn : snapshot) b l : C top (capture_nodes sn b l).
  Proof.
    induction l as [e a|e a inner IHinner| |x t IHx IHt] using nodes_ind2
      with (P := fun n => C top (capture_node sn b n)).
    - apply cls_capture_ops.
    - rewrite capture_node_wrap. exact IHinner.
    - fin.
    - cbn [capture_nodes]. eapply c_bind; [exact IHx|]. intros c1 _.
      eapply c_bind; [exact IHt|]. intros c2 _. fin.
  Qed.

  Section Prog.
    Variable p : sprog.
    Hypothesis Hsync : is_async (sp_cfg p) = false.

    Lemma cls_chain sn cp k st b : st_okC cls st -> C dval_ok (chain msem dotsem callsem p sn cp k st b).
    Proof.
      intros Hst. unfold chain. apply cls_sem_nodes. unfold start. rewrite Hsync. apply (cls_get cls KC), Hst.
    Qed.

    Lemma cls_captures sn k acts : C top (captures p sn k acts).
    Proof.
      induction acts as [|b r IH]; [fin|]. cbn [captures].
      eapply c_bind; [apply cls_capture_nodes|]. intros c1 _.
      eapply c_bind; [exact IH|]. intros c2 _. fin.
    Qed.
  End Prog.
End UserCode.

(* p with the flag `is_spawn` set to s: `join_spawn!` <-> `join!`, `try_join_spawn!` <-> `try_join!` *)
Definition with_spawn (s : bool) (p : sprog) : sprog :=
  mkSprog (mkConfig (is_async (sp_cfg p)) (is_try (sp_cfg p)) s) (sp_names p) (sp_trees p) (sp_handler p).

(* what a sync kind does with the result of step k (`rec` = the steps from k+1 on) *)
Definition after_sync (awaitsem : val -> comp val) (p : sprog) (rec : list (option dval) -> comp dval)
           (last : bool) (k : nat) (st : list (option dval)) (sr : dval) : comp dval :=
  let acts := actives p k in
  let! ds := extract acts sr in
  let st' := set_all st acts ds in
  if negb (is_try (sp_cfg p)) then (if last then final_tuple p st' else rec st')
  else if last then transpose awaitsem p (seq 0 (List.length (sp_trees p))) st'
       else let! oks := mapM classify ds in
            match first_false oks ds with
            | Some d => std_map d (fun _ => Panic P_UNREACHABLE)
            | None => rec st'
            end.

Lemma steps_sync msem dotsem callsem awaitsem (p : sprog) fuel k st :
  is_async (sp_cfg p) = false ->
  steps msem dotsem callsem awaitsem p (S fuel) k st =
  (let! sr := step_result msem dotsem callsem awaitsem p k st in
   after_sync awaitsem p (steps msem dotsem callsem awaitsem p fuel (S k)) (Nat.eqb fuel 0) k st sr).
Proof.
  intros Ha. cbn [steps]. rewrite Ha. unfold after_sync.
  destruct (is_try (sp_cfg p)); cbn [negb]; reflexivity.
Qed.

Lemma step_result_single msem dotsem callsem awaitsem (p : sprog) k st :
  is_async (sp_cfg p) = false -> Nat.ltb 1 (List.length (actives p k)) = false ->
  step_result msem dotsem callsem awaitsem p k st =
  (let! cp := captures p (snap_of p st) k (actives p k) in
   match actives p k with
   | [b] => chain msem dotsem callsem p (snap_of p st) cp k st b
   | _ => Panic P_STUCK
   end).
Proof. intros Ha Hm. unfold step_result. rewrite Ha, Hm, Bool.andb_false_r. reflexivity. Qed.

(* `SpecThreads.spec_spawn_step_is_thread_step`, by conversion (no extensionality) *)
Lemma step_result_spawn_multi msem dotsem callsem awaitsem (p : sprog) k st :
  is_async (sp_cfg p) = false -> is_spawn (sp_cfg p) = true -> Nat.ltb 1 (List.length (actives p k)) = true ->
  step_result msem dotsem callsem awaitsem p k st =
  std_thread_step (actives p k) (captures p (snap_of p st) k (actives p k))
                  (fun cp b => let! d := chain msem dotsem callsem p (snap_of p st) cp k st b in to_val d).
Proof. intros Ha Hs Hm. unfold step_result. rewrite Ha, Hs, Hm. reflexivity. Qed.

Lemma step_result_plain_multi msem dotsem callsem awaitsem (p : sprog) k st :
  is_async (sp_cfg p) = false -> is_spawn (sp_cfg p) = false -> Nat.ltb 1 (List.length (actives p k)) = true ->
  step_result msem dotsem callsem awaitsem p k st =
  (let! cp := captures p (snap_of p st) k (actives p k) in
   let! ds := mapM (chain msem dotsem callsem p (snap_of p st) cp k st) (actives p k) in
   Spec.vals_tuple ds).
Proof. intros Ha Hs Hm. unfold step_result. rewrite Ha, Hs, Hm. reflexivity. Qed.

Section Walk.
  Variable cls : forall A : Type, (A -> Prop) -> comp A -> Prop.
  Hypothesis CC : code_class cls.
  Notation KC := (code_call_class cls CC).
  Notation dval_ok := (dval_okC cls).
  Notation st_ok := (st_okC cls).

  (* thread code (left) against plain code (right) *)
  Variable simr : forall A : Type, (A -> Prop) -> comp A -> comp A -> Prop.
  Hypothesis simr_refl : forall A (Q : A -> Prop) c, cls A Q c -> simr A Q c c.
  Hypothesis simr_bind : forall A B (Q : A -> Prop) (R : B -> Prop) c1 c2 f1 f2,
      simr A Q c1 c2 -> (forall a, Q a -> simr B R (f1 a) (f2 a)) -> simr B R (bind c1 f1) (bind c2 f2).
  (* THE STEP: spawn one named thread per branch and join them in order / run the chains in place.
     The hypothesis may use a property `okacts` of the list of branches that holds of every
     `actives p k` (e.g. `actives_lt`); `fun _ => True` if it needs none. *)
  Variable okacts : list nat -> Prop.
  Hypothesis simr_thread_step : forall (C : Type) acts (caps : comp C) (child : C -> nat -> comp dval),
      okacts acts -> cls C top caps -> (forall cp b, cls dval dval_ok (child cp b)) ->
      simr dval dval_ok
           (std_thread_step acts caps (fun cp b => let! d := child cp b in to_val d))
           (let! cp := caps in let! ds := mapM (child cp) acts in Spec.vals_tuple ds).

  Variable msem : string -> option (list operand) -> dval -> list dval -> comp dval.
  Variable dotsem : operand -> list (string * option val) -> dval -> comp dval.
  Variable callsem : val -> list dval -> comp dval.
  Variable awaitsem : val -> comp val.
  Hypothesis HU : user_codeC cls msem dotsem callsem awaitsem.
  Variable p : sprog.
  Hypothesis Hsync : is_async (sp_cfg p) = false.
  Hypothesis okacts_actives : forall k, okacts (actives p k).

  Notation ps := (with_spawn true p).
  Notation pp := (with_spawn false p).
  Notation Steps := (steps msem dotsem callsem awaitsem).
  Notation Step_result := (step_result msem dotsem callsem awaitsem).
  Notation Chain := (chain msem dotsem callsem).

  Lemma walk_step_result k st : st_ok st -> simr _ dval_ok (Step_result ps k st) (Step_result pp k st).
  Proof.
    intros Hst. destruct (Nat.ltb 1 (List.length (actives pp k))) eqn:Hm.
    - rewrite (step_result_spawn_multi msem dotsem callsem awaitsem ps k st Hsync eq_refl Hm).
      rewrite (step_result_plain_multi msem dotsem callsem awaitsem pp k st Hsync eq_refl Hm).
      refine (simr_thread_step _ (actives pp k) (captures pp (snap_of pp st) k (actives pp k))
                               (fun cp b => Chain pp (snap_of pp st) cp k st b) _ _ _).
      + exact (okacts_actives k).
      + apply (cls_captures cls CC).
      + intros cp b. eapply cls_chain; eauto.
    - rewrite (step_result_single msem dotsem callsem awaitsem ps k st Hsync Hm).
      rewrite (step_result_single msem dotsem callsem awaitsem pp k st Hsync Hm).
      apply simr_refl.
      eapply (cc_bind _ CC); [apply (cls_captures cls CC)|]. intros cp _.
      destruct (actives pp k) as [|b [|]]; try apply (cc_panic _ CC). eapply cls_chain; eauto.
  Qed.

  Lemma walk_after (rec1 rec2 : list (option dval) -> comp dval) last k st sr :
    st_ok st -> dval_ok sr -> (forall st', st_ok st' -> simr _ dval_ok (rec1 st') (rec2 st')) ->
    simr _ dval_ok (after_sync awaitsem pp rec1 last k st sr) (after_sync awaitsem pp rec2 last k st sr).
  Proof.
    intros Hst Hsr Hrec. unfold after_sync.
    eapply simr_bind with (Q := Forall dval_ok); [apply simr_refl, (cls_extract cls KC), Hsr|]. intros ds Hds.
    assert (Hst' : st_ok (set_all st (actives pp k) ds)) by (apply set_all_ok; assumption).
    destruct (negb (is_try (sp_cfg pp))).
    - destruct last; [apply simr_refl, (cls_final_tuple cls KC), Hst'|apply Hrec, Hst'].
    - destruct last; [apply simr_refl; eapply (cls_transpose cls KC); eauto|].
      eapply simr_bind; [apply simr_refl, (c_mapM cls KC) with (Q := top); intros; apply (cls_classify cls KC)|]. intros oks _.
      destruct (first_false oks ds) as [d|] eqn:E; [|apply Hrec, Hst'].
      apply simr_refl, (cls_std_map cls KC); [|intros; apply (cc_panic _ CC)].
      apply first_false_in in E. rewrite Forall_forall in Hds. auto.
  Qed.

  Lemma walk_steps fuel : forall k st, st_ok st -> simr _ dval_ok (Steps ps fuel k st) (Steps pp fuel k st).
  Proof.
    induction fuel as [|fuel IH]; intros k st Hst; [apply simr_refl, (cc_panic _ CC)|].
    rewrite (steps_sync msem dotsem callsem awaitsem ps fuel k st Hsync).
    rewrite (steps_sync msem dotsem callsem awaitsem pp fuel k st Hsync).
    eapply simr_bind; [apply walk_step_result, Hst|]. intros sr Hsr.
    exact (walk_after _ _ _ k st sr Hst Hsr (fun st' H => IH (S k) st' H)).
  Qed.

  Lemma spec_sync s : spec msem dotsem callsem awaitsem (with_spawn s p) = run_body msem dotsem callsem awaitsem (with_spawn s p).
  Proof. unfold spec. cbn [with_spawn sp_cfg is_async]. rewrite Hsync. reflexivity. Qed.

  Lemma walk_spec :
    simr _ dval_ok (spec msem dotsem callsem awaitsem ps) (spec msem dotsem callsem awaitsem pp).
  Proof.
    rewrite !spec_sync. unfold run_body.
    eapply simr_bind with (Q := fun ho : option (hkind * dval) => match ho with Some (_, hv) => dval_ok hv | None => True end).
    - apply simr_refl. cbn [with_spawn sp_handler].
      destruct (sp_handler p) as [[hk o]|]; [|apply (cc_ret _ CC); exact I].
      apply (cc_vis _ CC); [discriminate|]. intros v. apply (cc_ret _ CC). exact I.
    - intros ho Hho. eapply simr_bind.
      + apply walk_steps. apply Forall_forall. intros o Ho. apply in_map_iff in Ho.
        destruct Ho as (x & <- & _). exact I.
      + intros rs Hrs. apply simr_refl. eapply (cls_handle_results cls KC); eauto.
  Qed.

  Lemma walk_program :
    simr _ top (let! d := spec msem dotsem callsem awaitsem ps in to_val d)
               (let! d := spec msem dotsem callsem awaitsem pp in to_val d).
  Proof. eapply simr_bind; [apply walk_spec|]. intros d _. apply simr_refl, (cls_to_val cls KC). Qed.
End Walk.
