(* Refinement, chain level: the code rendered for the bracket tree of one
   branch-step denotes the documented method chain `sem_nodes`.
     - flat chains, wrappers at any depth (closures `|__v| ..` shadow `__v`),
     - hoisted block operands: the `let __ewB_E_I = {..};` definitions executed ahead of the
       chains are `capture_nodes`, and the chains then read the captured values. *)
From Coq Require Import Lia FunctionalExtensionality.
From Join Require Import Tok Names Ast Ir Gen Comp Denote Spec NamesInj CompLaws DocTable SpecProps GenPropsBase
  Render RefineBase.

(* the definitions `let __ewB_E_I = {block};` of an operand list, and the operands after replacement *)
Fixpoint op_defs (b e i : nat) (c : comb) (ops : list operand) : list rstmt :=
  match ops with
  | [] => []
  | o :: r => if hoistable c o then SLet (PIdent (n_ew b e i)) (RUser o) :: op_defs b e (S i) c r
              else op_defs b e (S i) c r
  end.
Fixpoint op_args (b e i : nat) (c : comb) (ops : list operand) : list rexpr :=
  match ops with
  | [] => []
  | o :: r => (if hoistable c o then RVar (n_ew b e i) else RUser o) :: op_args b e (S i) c r
  end.
Fixpoint op_keys (b e i : nat) (c : comb) (ops : list operand) : list key :=
  match ops with
  | [] => []
  | o :: r => if hoistable c o then (b, e, i) :: op_keys b e (S i) c r else op_keys b e (S i) c r
  end.

Fixpoint node_defs (b : nat) (n : node) : list rstmt :=
  match n with
  | NAct e a => op_defs b e 0 (a_comb a) (exprs_of a)
  | NWrap _ _ inner => (fix go (l : list node) : list rstmt :=
                          match l with [] => [] | x :: r => node_defs b x ++ go r end) inner
  end.
Definition nodes_defs (b : nat) : list node -> list rstmt :=
  fix go (l : list node) : list rstmt := match l with [] => [] | x :: r => node_defs b x ++ go r end.

Fixpoint node_keys (b : nat) (n : node) : list key :=
  match n with
  | NAct e a => op_keys b e 0 (a_comb a) (exprs_of a)
  | NWrap _ _ inner => (fix go (l : list node) : list key :=
                          match l with [] => [] | x :: r => node_keys b x ++ go r end) inner
  end.
Definition nodes_keys (b : nat) : list node -> list key :=
  fix go (l : list node) : list key := match l with [] => [] | x :: r => node_keys b x ++ go r end.

(* positions (index of the action within its step) occurring in a tree *)
Fixpoint node_pos (n : node) : list nat :=
  match n with
  | NAct e _ => [e]
  | NWrap e _ inner => e :: (fix go (l : list node) : list nat :=
                               match l with [] => [] | x :: r => node_pos x ++ go r end) inner
  end.
Definition nodes_pos : list node -> list nat :=
  fix go (l : list node) : list nat := match l with [] => [] | x :: r => node_pos x ++ go r end.

Lemma nodes_defs_cons b x r : nodes_defs b (x :: r) = node_defs b x ++ nodes_defs b r.
Proof. reflexivity. Qed.
Lemma node_defs_NWrap b e a inner : node_defs b (NWrap e a inner) = nodes_defs b inner.
Proof. reflexivity. Qed.
Lemma nodes_keys_cons b x r : nodes_keys b (x :: r) = node_keys b x ++ nodes_keys b r.
Proof. reflexivity. Qed.
Lemma node_keys_NWrap b e a inner : node_keys b (NWrap e a inner) = nodes_keys b inner.
Proof. reflexivity. Qed.
Lemma nodes_pos_cons x r : nodes_pos (x :: r) = node_pos x ++ nodes_pos r.
Proof. reflexivity. Qed.
Lemma node_pos_NWrap e a inner : node_pos (NWrap e a inner) = e :: nodes_pos inner.
Proof. reflexivity. Qed.

(* operand counts of the combinators whose `replace_inner_exprs` would silently drop operands
   (for all other combinators a wrong count already makes the generator fail).  Weaker than
   `GenPropsParse.arity_ok`, the exact operand count of every combinator, which the parser establishes. *)
Definition arity_ok (a : action) : bool :=
  match a_comb a with
  | Fold | TryFold => Nat.eqb (List.length (a_ops a)) 2
  | Or | OrElse | MapErr | Initial => Nat.eqb (List.length (a_ops a)) 1
  | _ => true
  end.

Fixpoint node_ok (n : node) : Prop :=
  match n with
  | NAct _ a => arity_ok a = true
  | NWrap _ a inner => can_be_wrapper (a_comb a) = true /\
                       (fix go (l : list node) : Prop := match l with [] => True | x :: r => node_ok x /\ go r end) inner
  end.
Definition nodes_ok : list node -> Prop :=
  fix go (l : list node) : Prop := match l with [] => True | x :: r => node_ok x /\ go r end.
Lemma nodes_ok_cons x r : nodes_ok (x :: r) = (node_ok x /\ nodes_ok r).
Proof. reflexivity. Qed.
Lemma node_ok_NWrap e a inner : node_ok (NWrap e a inner) = (can_be_wrapper (a_comb a) = true /\ nodes_ok inner).
Proof. reflexivity. Qed.

Lemma hoist_ops b e c : is_replaceable c && has_inner_exprs c = true ->
  forall ops i, hoist b e i (map RUser ops) = (op_defs b e i c ops, op_args b e i c ops).
Proof.
  intros Hc. induction ops as [|o r IH]; intros i; cbn [map hoist op_defs op_args].
  - reflexivity.
  - rewrite IH. unfold hoistable. rewrite Hc. cbn [arg_is_block andb].
    destruct (is_block o); reflexivity.
Qed.

Lemma op_defs_not_hoistable b e c : is_replaceable c && has_inner_exprs c = false ->
  forall ops i, op_defs b e i c ops = [] /\ op_args b e i c ops = map RUser ops /\ op_keys b e i c ops = [].
Proof.
  intros Hc. induction ops as [|o r IH]; intros i; cbn [map op_defs op_args op_keys].
  - auto.
  - unfold hoistable. rewrite Hc. cbn [andb]. destruct (IH (S i)) as (-> & -> & ->). auto.
Qed.

Lemma op_defs_nil_args b e c : forall ops i, op_defs b e i c ops = [] -> op_args b e i c ops = map RUser ops.
Proof.
  induction ops as [|o r IH]; intros i; cbn [map op_defs op_args]; [reflexivity|].
  destruct (hoistable c o); [discriminate|]. intros H. rewrite IH by exact H. reflexivity.
Qed.

Lemma op_args_length b e c : forall ops i, List.length (op_args b e i c ops) = List.length ops.
Proof. induction ops as [|o r IH]; intros i; cbn [op_args List.length]; [reflexivity|]. rewrite IH. reflexivity. Qed.

Lemma separate_defs a b e :
  fst (separate_block_expr (mk_pos a b e)) = op_defs b e 0 (a_comb a) (exprs_of a).
Proof.
  unfold separate_block_expr, mk_pos, exprs_of. cbn [p_comb p_args p_branch p_expr].
  destruct (is_replaceable (a_comb a) && has_inner_exprs (a_comb a)) eqn:Hc.
  - apply andb_prop in Hc as Hc'. destruct Hc' as [_ Hi]. rewrite Hi.
    rewrite (hoist_ops b e (a_comb a) Hc).
    destruct (op_defs b e 0 (a_comb a) (a_ops a)) as [|d ds]; [reflexivity|].
    destruct (replace_inner _ _); reflexivity.
  - cbn [fst]. destruct (op_defs_not_hoistable b e (a_comb a) Hc (a_ops a) 0) as (Hd & _).
    destruct (has_inner_exprs (a_comb a)); [rewrite Hd|]; reflexivity.
Qed.

Lemma expand_arity cfg prev c args ops s :
  is_replaceable c && has_inner_exprs c = true -> expand cfg prev c args ops = Ok s ->
  inner_arity c = Some (List.length args).
Proof.
  destruct c; try discriminate; intros _; cbn [expand meth1];
    destruct args as [|x [|y [|z r]]]; try discriminate; reflexivity.
Qed.

Lemma replace_inner_arity_ok {A} a (l l' : list A) :
  arity_ok a = true -> List.length l = List.length (a_ops a) -> replace_inner (a_comb a) l = Some l' ->
  inner_arity (a_comb a) = Some (List.length l).
Proof.
  unfold arity_ok, replace_inner. intros Har Hlen. destruct (last_error l); [|discriminate].
  destruct (a_comb a); try discriminate; try (apply Nat.eqb_eq in Har; rewrite Hlen, Har; reflexivity);
    destruct l as [|x [|y r]]; try discriminate; reflexivity.
Qed.

Lemma separate_args cfg a b e prev s :
  arity_ok a = true ->
  expand cfg prev (a_comb a) (snd (separate_block_expr (mk_pos a b e))) (a_ops a) = Ok s ->
  expand cfg prev (a_comb a) (op_args b e 0 (a_comb a) (exprs_of a)) (a_ops a) = Ok s.
Proof.
  unfold separate_block_expr, mk_pos, exprs_of. cbn [p_comb p_args p_branch p_expr].
  intros Har.
  destruct (is_replaceable (a_comb a) && has_inner_exprs (a_comb a)) eqn:Hc.
  - apply andb_prop in Hc as Hc'. destruct Hc' as [_ Hi]. rewrite Hi.
    rewrite (hoist_ops b e (a_comb a) Hc).
    pose proof (op_args_length b e (a_comb a) (a_ops a) 0) as Hlen.
    destruct (op_defs b e 0 (a_comb a) (a_ops a)) as [|d ds] eqn:Hd.
    + cbn [snd]. rewrite (op_defs_nil_args _ _ _ _ _ Hd). auto.
    + destruct (replace_inner (a_comb a) (op_args b e 0 (a_comb a) (a_ops a))) as [l'|] eqn:Er; cbn [snd].
      * rewrite replace_inner_id in Er by (eapply replace_inner_arity_ok; eauto). injection Er as <-. auto.
      * (* `replace_inner` fails: impossible, as `expand` succeeds only on the combinator's operand count, and on that
           count `replace_inner` succeeds *)
        intros He. apply (expand_arity _ _ _ _ _ _ Hc) in He. rewrite map_length, <- Hlen in He.
        rewrite (replace_inner_id _ _ He) in Er. discriminate.
  - cbn [snd]. destruct (op_defs_not_hoistable b e (a_comb a) Hc (a_ops a) 0) as (_ & Ha & _).
    destruct (has_inner_exprs (a_comb a)); [rewrite Ha|cbn [op_args]]; auto.
Qed.

Definition levels_pos (L : list (list node)) : list nat := flat_map nodes_pos L.

Lemma nest_step_pos e x L : L <> [] ->
  levels_pos (nest_step (e, x) L) = match a_mv x with Unwrap => levels_pos L | _ => e :: levels_pos L end.
Proof.
  intros HL. unfold nest_step. cbn [fst snd].
  destruct (a_mv x); destruct L as [|cur [|outer rest]]; try congruence; unfold levels_pos;
    cbn [flat_map nodes_pos node_pos app]; rewrite ?app_nil_r; try reflexivity.
  change ((fix go (l : list node) : list nat := match l with [] => [] | x0 :: r => node_pos x0 ++ go r end) cur)
    with (nodes_pos cur).
  change ((fix go (l : list node) : list nat := match l with [] => [] | x0 :: r => node_pos x0 ++ go r end) outer)
    with (nodes_pos outer).
  rewrite <- !app_assoc. reflexivity.
Qed.

Lemma nest_levels_pos acts : forall e0,
  NoDup (levels_pos (fold_right nest_step [[]] (enum_from e0 acts))) /\
  (forall e, In e (levels_pos (fold_right nest_step [[]] (enum_from e0 acts))) -> e0 <= e).
Proof.
  induction acts as [|x r IH]; intros e0; cbn [enum_from fold_right].
  - split; [constructor|]. intros e [].
  - destruct (IH (S e0)) as [Hnd Hge].
    rewrite nest_step_pos by apply nest_fold_nonempty.
    destruct (a_mv x).
    + split. { constructor; [|exact Hnd]. intro Hin. apply Hge in Hin. lia. }
      intros e [<-|Hin]; [lia|]. apply Hge in Hin. lia.
    + split; [exact Hnd|]. intros e Hin. apply Hge in Hin. lia.
    + split. { constructor; [|exact Hnd]. intro Hin. apply Hge in Hin. lia. }
      intros e [<-|Hin]; [lia|]. apply Hge in Hin. lia.
Qed.

Lemma nest_pos_nodup acts t : nest acts = Some t -> NoDup (nodes_pos t).
Proof.
  unfold nest, nest_levels. intros H.
  destruct (nest_levels_pos acts 0) as [Hnd _].
  destruct (fold_right nest_step [[]] (enum_from 0 acts)) as [|t0 [|t1 rest]]; try discriminate.
  inversion H; subst. unfold levels_pos in Hnd. cbn [flat_map] in Hnd. rewrite app_nil_r in Hnd. exact Hnd.
Qed.

Lemma op_keys_in b e c : forall ops i k, In k (op_keys b e i c ops) -> exists i', k = (b, e, i') /\ i <= i'.
Proof.
  induction ops as [|o r IH]; intros i k; cbn [op_keys]; [intros []|].
  destruct (hoistable c o).
  - intros [<-|Hin]. { exists i. split; [reflexivity|lia]. }
    destruct (IH _ _ Hin) as (i' & -> & Hle). exists i'. split; [reflexivity|lia].
  - intros Hin. destruct (IH _ _ Hin) as (i' & -> & Hle). exists i'. split; [reflexivity|lia].
Qed.

Lemma op_keys_nodup b e c : forall ops i, NoDup (op_keys b e i c ops).
Proof.
  induction ops as [|o r IH]; intros i; cbn [op_keys]; [constructor|].
  destruct (hoistable c o); [|apply IH].
  constructor; [|apply IH]. intro Hin. apply op_keys_in in Hin. destruct Hin as (i' & E & Hle).
  inversion E. lia.
Qed.

Lemma nodes_keys_in b : forall t k, In k (nodes_keys b t) -> exists e i, k = (b, e, i) /\ In e (nodes_pos t).
Proof.
  apply (nodes_ind2
    (fun n => forall k, In k (node_keys b n) -> exists e i, k = (b, e, i) /\ In e (node_pos n))
    (fun t => forall k, In k (nodes_keys b t) -> exists e i, k = (b, e, i) /\ In e (nodes_pos t))).
  - intros e a k Hin. cbn [node_keys] in Hin. apply op_keys_in in Hin. destruct Hin as (i' & -> & _).
    exists e, i'. split; [reflexivity|]. left. reflexivity.
  - intros e a inner IH k Hin. rewrite node_keys_NWrap in Hin. destruct (IH _ Hin) as (e' & i & -> & He).
    exists e', i. split; [reflexivity|]. rewrite node_pos_NWrap. right. exact He.
  - intros k [].
  - intros x r IHx IHr k Hin. rewrite nodes_keys_cons in Hin. rewrite nodes_pos_cons.
    apply in_app_or in Hin. destruct Hin as [Hin|Hin].
    + destruct (IHx _ Hin) as (e & i & -> & He). exists e, i. split; [reflexivity|]. apply in_or_app. left. exact He.
    + destruct (IHr _ Hin) as (e & i & -> & He). exists e, i. split; [reflexivity|]. apply in_or_app. right. exact He.
Qed.

Lemma NoDup_app_intro {A} (l1 l2 : list A) :
  NoDup l1 -> NoDup l2 -> (forall x, In x l1 -> In x l2 -> False) -> NoDup (l1 ++ l2).
Proof.
  induction l1 as [|a l1 IH]; intros H1 H2 Hd; cbn [app]; [exact H2|].
  inversion H1; subst. constructor.
  - intro Hin. apply in_app_or in Hin. destruct Hin as [Hin|Hin]; [contradiction|].
    apply (Hd a); [left; reflexivity|exact Hin].
  - apply IH; auto. intros x Hx1 Hx2. apply (Hd x); [right; exact Hx1|exact Hx2].
Qed.

Lemma NoDup_app_inv {A} (l1 l2 : list A) :
  NoDup (l1 ++ l2) -> NoDup l1 /\ NoDup l2 /\ (forall x, In x l1 -> In x l2 -> False).
Proof.
  induction l1 as [|a l1 IH]; cbn [app]; intros H.
  - split; [constructor|]. split; [exact H|]. intros x [].
  - inversion H; subst. destruct (IH H3) as (N1 & N2 & Hd). split; [|split; [exact N2|]].
    + constructor; [|exact N1]. intro Hin. apply H2. apply in_or_app. left. exact Hin.
    + intros x [<-|Hx1] Hx2.
      * apply H2. apply in_or_app. right. exact Hx2.
      * apply (Hd x); assumption.
Qed.

Lemma nodes_keys_nodup b : forall t, NoDup (nodes_pos t) -> NoDup (nodes_keys b t).
Proof.
  apply (nodes_ind2
    (fun n => NoDup (node_pos n) -> NoDup (node_keys b n))
    (fun t => NoDup (nodes_pos t) -> NoDup (nodes_keys b t))).
  - intros e a _. cbn [node_keys]. apply op_keys_nodup.
  - intros e a inner IH H. rewrite node_pos_NWrap in H. rewrite node_keys_NWrap. inversion H; subst. auto.
  - intros _. constructor.
  - intros x r IHx IHr H. rewrite nodes_pos_cons in H. rewrite nodes_keys_cons.
    apply NoDup_app_inv in H. destruct H as (N1 & N2 & Hd).
    apply NoDup_app_intro; auto.
    intros k Hk1 Hk2.
    destruct (nodes_keys_in b [x] k) as (e1 & i1 & E1 & He1).
    { rewrite nodes_keys_cons. cbn. rewrite app_nil_r. exact Hk1. }
    destruct (nodes_keys_in b r k Hk2) as (e2 & i2 & E2 & He2).
    rewrite nodes_pos_cons in He1. cbn in He1. rewrite app_nil_r in He1.
    rewrite E1 in E2. inversion E2; subst. apply (Hd e2); assumption.
Qed.

Definition key_name (k : key) : string := let '(b, e, i) := k in n_ew b e i.

Lemma key_name_inj k k' : key_name k = key_name k' -> k = k'.
Proof.
  destruct k as [[b e] i], k' as [[b' e'] i']. cbn [key_name]. intros H.
  apply n_ew_inj in H. destruct H as (-> & -> & ->). reflexivity.
Qed.

Lemma key_eqb_eq k k' : key_eqb k k' = true <-> k = k'.
Proof.
  destruct k as [[b e] i], k' as [[b' e'] i']. cbn [key_eqb]. rewrite !andb_true_iff, !Nat.eqb_eq.
  split. { intros [[-> ->] ->]. reflexivity. } intros H. inversion H. auto.
Qed.
Lemma key_eqb_refl k : key_eqb k k = true.
Proof. apply key_eqb_eq. reflexivity. Qed.
Lemma key_eqb_neq k k' : key_eqb k k' = false <-> k <> k'.
Proof.
  split.
  - intros H E. apply key_eqb_eq in E. congruence.
  - intros N. destruct (key_eqb k k') eqn:E; [|reflexivity]. apply key_eqb_eq in E. contradiction.
Qed.

Definition ext_env (ρ : env) (cp : caps) : env :=
  fold_left (fun ρ kv => upd ρ (key_name (fst kv)) (DV (snd kv))) cp ρ.

Lemma ext_env_nil ρ : ext_env ρ [] = ρ.
Proof. reflexivity. Qed.
Lemma ext_env_cons ρ k v r : ext_env ρ ((k, v) :: r) = ext_env (upd ρ (key_name k) (DV v)) r.
Proof. reflexivity. Qed.
Lemma ext_env_app ρ c1 c2 : ext_env ρ (c1 ++ c2) = ext_env (ext_env ρ c1) c2.
Proof. unfold ext_env. apply fold_left_app. Qed.

Lemma ext_env_other cp : forall ρ x, (forall k, In k (map fst cp) -> x <> key_name k) -> ext_env ρ cp x = ρ x.
Proof.
  induction cp as [|[k v] r IH]; intros ρ x H; [reflexivity|].
  rewrite ext_env_cons. rewrite IH.
  - apply upd_other. apply H. left. reflexivity.
  - intros k' Hk'. apply H. right. exact Hk'.
Qed.

Lemma ext_env_lookup cp : forall ρ k v,
  NoDup (map fst cp) -> lookup_cap cp k = Some v -> ext_env ρ cp (key_name k) = Some (DV v).
Proof.
  induction cp as [|[k' v'] r IH]; intros ρ k v Hnd Hl; [discriminate|].
  cbn [map fst] in Hnd. inversion Hnd; subst. cbn [lookup_cap] in Hl. rewrite ext_env_cons.
  destruct (key_eqb k' k) eqn:E.
  - apply key_eqb_eq in E. subst k'. inversion Hl; subst v'.
    rewrite ext_env_other. { apply upd_same. }
    intros k2 Hk2 E2. apply key_name_inj in E2. subst. contradiction.
  - apply IH; assumption.
Qed.

Lemma key_name_gname k : exists g, key_name k = gname_str g /\ (exists b e i, g = GEW b e i).
Proof. destruct k as [[b e] i]. exists (GEW b e i). split; [reflexivity|]. eauto. Qed.

Lemma ext_env_not_ew ρ cp x : (forall b e i, x <> n_ew b e i) -> ext_env ρ cp x = ρ x.
Proof.
  intros H. apply ext_env_other. intros [[b e] i] _. apply H.
Qed.

Lemma lookup_cap_in cp k : In k (map fst cp) -> lookup_cap cp k <> None.
Proof.
  induction cp as [|[k' v'] r IH]; cbn [map fst In lookup_cap]; [intros []|].
  intros [->|Hin]. { rewrite key_eqb_refl. discriminate. }
  destruct (key_eqb k' k); [discriminate|]. auto.
Qed.

Definition is_DV (d : dval) : Prop := match d with DV _ => True | _ => False end.

Section Chain.
  Variable unames : list string.
  Variable msem : string -> option (list operand) -> dval -> list dval -> comp dval.
  Variable dotsem : operand -> list (string * option val) -> dval -> comp dval.
  Variable callsem : val -> list dval -> comp dval.
  Variable awaitsem : val -> comp val.

  Notation D := (den unames msem dotsem callsem awaitsem).
  Notation X := (exec unames msem dotsem callsem awaitsem).
  Notation execs := (execs unames msem dotsem callsem awaitsem).
  Notation dens := (dens unames msem dotsem callsem awaitsem).
  Notation snapρ := (snap unames).
  Notation app_d := (apply callsem).
  Notation Sem_node := (sem_node msem dotsem callsem).
  Notation Sem_nodes := (sem_nodes msem dotsem callsem).

  (* No hypothesis on the abstract user-code semantics `msem dotsem callsem awaitsem`.
     The user's `let` names do not start with `__`: *)
  Hypothesis unames_user : Forall user_ident unames.

  Lemma gname_not_uname g : ~ In (gname_str g) unames.
  Proof.
    intro Hin. rewrite Forall_forall in unames_user. apply unames_user in Hin.
    eapply user_ident_neq_gname; eauto.
  Qed.

  Lemma snap_upd_gname ρ g d : snapρ (upd ρ (gname_str g) d) = snapρ ρ.
  Proof. apply snap_upd_other. apply gname_not_uname. Qed.

  Lemma snap_ext_env cp : forall ρ, snapρ (ext_env ρ cp) = snapρ ρ.
  Proof.
    induction cp as [|[k v] r IH]; intros ρ; [reflexivity|].
    rewrite ext_env_cons, IH. destruct (key_name_gname k) as (g & -> & _). apply snap_upd_gname.
  Qed.

  Lemma sem_nodes_nil async sn cp b recv : Sem_nodes async sn cp b [] recv = recv.
  Proof. reflexivity. Qed.

  Lemma capture_nodes_cons sn b x r :
    capture_nodes sn b (x :: r) = let! c1 := capture_node sn b x in let! c2 := capture_nodes sn b r in Ret (c1 ++ c2).
  Proof. reflexivity. Qed.

  Definition inspect_body : rexpr := RBlock [SExpr (RCall (RVar n_h) [RRef (RVar n_v)])] (RVar n_v).
  Definition inspect_clo : list carg -> comp val :=
    fun vs => match bind_params [n_h; n_v] vs with
              | Some ρf => let! d := D inspect_body ρf in to_val d
              | None => Panic P_ILLTYPED end.

  Lemma exec_inspect_fn ρ : X inspect_fn ρ = Ret (upd ρ n_inspect (DFn inspect_clo)).
  Proof. reflexivity. Qed.

  (* the fn item `__inspect` IS Spec.inspect_sem - for every callback and every receiver, also the
     ill-typed ones: a receiver that is a generated closure is shown to the callback (`__h(&__v)`) and
     only fails when it is returned (`__v`, to_val); futures / items / builders are not arguments at all *)
  Lemma apply_inspect f r : app_d (DFn inspect_clo) [f; r] = inspect_sem callsem f r.
  Proof.
    assert (Hb : forall (cf cr : carg),
               inspect_clo [cf; cr] =
               (let! _ := app_d (match cf with CV w => DV w | CF g => DF g end)
                                [match cr with CV w => DV w | CF g => DF g end] in
                to_val (match cr with CV w => DV w | CF g => DF g end))).
    { intros cf cr. unfold inspect_clo. cbn [bind_params].
      set (fd := match cf with CV w => DV w | CF g => DF g end).
      set (rd := match cr with CV w => DV w | CF g => DF g end).
      set (ρf := upd (upd empty_env n_h fd) n_v rd).
      assert (Hh : ρf n_h = Some fd).
      { unfold ρf. rewrite upd_other by (apply (gname_neq GH GV); discriminate). apply upd_same. }
      assert (Hvv : ρf n_v = Some rd) by apply upd_same.
      unfold inspect_body. rewrite den_RBlock, execs_cons, exec_SExpr, den_RCall_var, den_RVar, Hh.
      rewrite dens_cons, den_RRef, den_RVar, Hvv, dens_nil. cbn [execs]. nb.
      apply bind_ext. intros _. nb. rewrite den_RVar, Hvv. nb. reflexivity. }
    unfold apply at 1.
    destruct f as [fv|g| | | | |]; try reflexivity; destruct r as [v|g'| | | | |]; try reflexivity.
    all: cbn [all_cargs inspect_sem]; rewrite Hb, bind_assoc; apply bind_ext; intros _; reflexivity.
  Qed.

  Section Fixed.
    Variable cfg : config.
    Variable sn : list (string * option val).
    Variable cp : caps.
    Variable b : nat.
    Let async := is_async cfg.

    Record chain_env (ρ : env) : Prop := {
      ce_inspect : is_async cfg = false -> ρ n_inspect = Some (DFn inspect_clo);
      ce_snap : snapρ ρ = sn;
      ce_caps : forall e i v, lookup_cap cp (b, e, i) = Some v -> ρ (n_ew b e i) = Some (DV v)
    }.
    Definition covers (ks : list key) : Prop := forall k, In k ks -> lookup_cap cp k <> None.

    Lemma chain_env_upd_v ρ v : chain_env ρ -> chain_env (upd ρ n_v (DV v)).
    Proof.
      intros [H1 H2 H3]. split.
      - intros Ha. rewrite upd_other; auto. apply (gname_neq GInspect GV). discriminate.
      - rewrite (snap_upd_gname ρ GV). exact H2.
      - intros e i w Hl. rewrite upd_other; auto. apply (gname_neq (GEW b e i) GV). discriminate.
    Qed.

    Lemma dens_op_args ρ e c : chain_env ρ ->
      forall ops i, covers (op_keys b e i c ops) -> dens ρ (op_args b e i c ops) = eval_args sn cp b e i c ops.
    Proof.
      intros Hρ. induction ops as [|o r IH]; intros i Hcov; cbn [op_args eval_args]; [reflexivity|].
      rewrite dens_cons. cbn [op_keys] in Hcov.
      destruct (hoistable c o) eqn:Hh.
      - rewrite den_RVar.
        destruct (lookup_cap cp (b, e, i)) as [v|] eqn:Hl.
        + rewrite (ce_caps ρ Hρ _ _ _ Hl). rewrite IH; [reflexivity|].
          intros k Hk. apply Hcov. right. exact Hk.
        + exfalso. apply (Hcov (b, e, i)); [left; reflexivity|exact Hl].
      - rewrite den_RUser, (ce_snap ρ Hρ). rewrite IH; [reflexivity|exact Hcov].
    Qed.

    Lemma eval_args_DV e c : forall ops i, leaves (Forall is_DV) (eval_args sn cp b e i c ops).
    Proof.
      induction ops as [|o r IH]; intros i; cbn [eval_args]. { constructor. constructor. }
      eapply leaves_bind with (P := is_DV).
      - destruct (hoistable c o).
        + destruct (lookup_cap cp (b, e, i)); constructor. exact I.
        + constructor. intros v. constructor. exact I.
      - intros d Hd. eapply leaves_bind; [apply IH|]. intros ds Hds. constructor. constructor; assumption.
    Qed.

    Lemma render_NAct_inv e a ds s ds' s' :
      render_node cfg b (NAct e a) (ds, s) = Ok (ds', s') -> arity_ok a = true ->
      ds' = ds ++ node_defs b (NAct e a) /\
      expand cfg s (a_comb a) (op_args b e 0 (a_comb a) (exprs_of a)) (a_ops a) = Ok s'.
    Proof.
      cbn [render_node fst snd]. unfold gen_def_and_step. intros H Har.
      pose proof (separate_defs a b e) as Hd.
      pose proof (separate_args cfg a b e s) as Ha.
      destruct (separate_block_expr (mk_pos a b e)) as [dd args]. cbn [fst snd] in *.
      change (p_comb (mk_pos a b e)) with (a_comb a) in H. change (p_ops (mk_pos a b e)) with (a_ops a) in H.
      destruct (expand cfg s (a_comb a) args (a_ops a)) as [s1| |] eqn:He; cbn [rbind] in H; try discriminate.
      inversion H; subst. split; [reflexivity|]. apply Ha; auto.
    Qed.

    Lemma wrapper_closure_not_block body : arg_is_block (wrapper_closure cfg body) = false.
    Proof. unfold wrapper_closure. destruct (is_async cfg && is_spawn cfg); reflexivity. Qed.

    Lemma render_NWrap_inv e a inner ds s ds' s' :
      render_node cfg b (NWrap e a inner) (ds, s) = Ok (ds', s') -> can_be_wrapper (a_comb a) = true ->
      exists body, render_nodes cfg b inner (ds, RVar n_v) = Ok (ds', body) /\
                   expand cfg s (a_comb a) [wrapper_closure cfg body] (a_ops a) = Ok s'.
    Proof.
      rewrite render_node_NWrap. cbn [fst snd]. intros H Hw.
      destruct (render_nodes cfg b inner (ds, RVar n_v)) as [[ds1 body]| |]; cbn [rbind] in H; try discriminate.
      cbn [fst snd] in H. rewrite (replace_inner_id _ [_] (can_be_wrapper_arity _ Hw)) in H.
      unfold gen_def_and_step, separate_block_expr, set_args, mk_pos in H.
      cbn [p_comb p_args p_ops p_branch p_expr] in H.
      assert (Hc : is_replaceable (a_comb a) && has_inner_exprs (a_comb a) = true)
        by (destruct (a_comb a); try discriminate; reflexivity).
      rewrite Hc in H. cbn [hoist] in H. rewrite wrapper_closure_not_block in H.
      destruct (expand cfg s (a_comb a) [wrapper_closure cfg body] (a_ops a)) as [s1| |] eqn:He; cbn [rbind] in H; try discriminate.
      inversion H; subst. exists body. rewrite app_nil_r. split; [reflexivity|exact He].
    Qed.

    Lemma render_nodes_defs : forall t ds s ds' s',
      render_nodes cfg b t (ds, s) = Ok (ds', s') -> nodes_ok t -> ds' = ds ++ nodes_defs b t.
    Proof.
      apply (nodes_ind2
        (fun n => forall ds s ds' s', render_node cfg b n (ds, s) = Ok (ds', s') -> node_ok n -> ds' = ds ++ node_defs b n)
        (fun t => forall ds s ds' s', render_nodes cfg b t (ds, s) = Ok (ds', s') -> nodes_ok t -> ds' = ds ++ nodes_defs b t)).
      - intros e a ds s ds' s' H Hok. apply (render_NAct_inv e a ds s ds' s' H Hok).
      - intros e a inner IH ds s ds' s' H Hok. rewrite node_ok_NWrap in Hok. destruct Hok as [Hw Hin].
        destruct (render_NWrap_inv _ _ _ _ _ _ _ H Hw) as (body & Hr & _).
        rewrite node_defs_NWrap. eapply IH; eauto.
      - intros ds s ds' s' H _. rewrite render_nodes_nil in H. inversion H. rewrite app_nil_r. reflexivity.
      - intros x r IHx IHr ds s ds' s' H Hok. rewrite nodes_ok_cons in Hok. destruct Hok as [Hx Hr].
        rewrite render_nodes_cons in H.
        destruct (render_node cfg b x (ds, s)) as [[ds1 s1]| |] eqn:E1; cbn [rbind] in H; try discriminate.
        rewrite (IHr _ _ _ _ H Hr). rewrite (IHx _ _ _ _ E1 Hx). rewrite nodes_defs_cons, app_assoc. reflexivity.
    Qed.

    Lemma expand_method prev a args s :
      is_method_op (a_comb a) = true -> expand cfg prev (a_comb a) args (a_ops a) = Ok s ->
      s = RMeth prev (doc_method (a_comb a)) (types_of a) (if has_inner_exprs (a_comb a) then args else []).
    Proof.
      unfold types_of. destruct (a_comb a); try discriminate; intros _; cbn [expand meth1 has_inner_exprs doc_method];
        try (intros [= <-]; destruct (a_ops a); reflexivity);
        destruct args as [|x [|y [|z r]]]; try discriminate; intros [= <-]; reflexivity.
    Qed.

    Lemma wrapper_is_method a : can_be_wrapper (a_comb a) = true -> a_comb a <> Inspect ->
      is_method_op (a_comb a) = true /\ has_inner_exprs (a_comb a) = true /\ types_of a = None.
    Proof. unfold types_of. destruct (a_comb a); try discriminate; intros _ N; try contradiction; auto. Qed.

    Lemma inspect_call_sem ρ f prev (F : comp dval) : chain_env ρ -> is_async cfg = false -> D f ρ = F ->
      D (RCall (RVar n_inspect) [f; prev]) ρ = let! d := F in let! r := D prev ρ in inspect_sem callsem d r.
    Proof.
      intros Hρ Ha <-. rewrite den_RCall_var, den_RVar, (ce_inspect ρ Hρ Ha), !dens_cons, dens_nil. nb.
      apply bind_ext. intros d. nb. apply bind_ext. intros r. nb. apply apply_inspect.
    Qed.

    Lemma NAct_sem ρ e a s s' :
      chain_env ρ -> covers (node_keys b (NAct e a)) ->
      expand cfg s (a_comb a) (op_args b e 0 (a_comb a) (exprs_of a)) (a_ops a) = Ok s' ->
      D s' ρ = Sem_node async sn cp b (NAct e a) (D s ρ).
    Proof.
      intros Hρ Hcov He. cbn [node_keys] in Hcov.
      pose proof (dens_op_args ρ e (a_comb a) Hρ (exprs_of a) 0 Hcov) as Hargs.
      apply sem_act_cases; intros Ec.
      - apply expand_method in He; [|exact Ec]. subst s'. rewrite den_RMeth, <- Hargs.
        unfold exprs_of. destruct (has_inner_exprs (a_comb a)); reflexivity.
      - rewrite Ec in He. cbn [expand] in He.
        destruct (a_ops a) as [|o [|]]; try discriminate. injection He as <-.
        rewrite den_RDot, (ce_snap ρ Hρ). reflexivity.
      - rewrite Ec in He. cbn [expand] in He. rewrite <- Ec in *.
        destruct (op_args b e 0 (a_comb a) (exprs_of a)) as [|f [|]]; try discriminate.
        rewrite <- Hargs, dens_cons, dens_nil.
        injection He as <-. unfold async. destruct (is_async cfg) eqn:Easync.
        + rewrite den_RMeth, dens_cons, dens_nil. nb. apply bind_ext. intros r. nb. reflexivity.
        + rewrite (inspect_call_sem ρ f s _ Hρ Easync eq_refl). nb. reflexivity.
      - rewrite Ec in He. cbn [expand] in He. rewrite <- Ec in *.
        destruct (op_args b e 0 (a_comb a) (exprs_of a)) as [|f [|]]; try discriminate.
        rewrite <- Hargs, dens_cons, dens_nil.
        injection He as <-. rewrite den_RThenCall. nb. reflexivity.
      - rewrite Ec in He. cbn [expand] in He. rewrite <- Ec in *.
        destruct (op_args b e 0 (a_comb a) (exprs_of a)) as [|f [|]]; try discriminate.
        rewrite <- Hargs, dens_cons, dens_nil.
        injection He as <-. nb. symmetry. apply bind_ret_r.
      - rewrite Ec in He. discriminate.
    Qed.

    Lemma NWrap_sem ρ e a inner body s s' :
      chain_env ρ -> can_be_wrapper (a_comb a) = true ->
      expand cfg s (a_comb a) [wrapper_closure cfg body] (a_ops a) = Ok s' ->
      (forall v, D body (upd ρ n_v (DV v)) = Sem_nodes async sn cp b inner (Ret (DV v))) ->
      D s' ρ = Sem_node async sn cp b (NWrap e a inner) (D s ρ).
    Proof.
      intros Hρ Hw He IH.
      assert (Hclo : D (wrapper_closure cfg body) ρ = Ret (wrap_closure msem dotsem callsem async sn cp b inner)).
      { rewrite den_wrapper_closure, den_RClosure. unfold wrap_closure. f_equal. f_equal. extensionality vs.
        destruct vs as [|v [|]]; try reflexivity. rewrite IH. reflexivity. }
      apply sem_wrap_cases; intros Ec.
      - rewrite Ec in He. injection He as <-. unfold async. destruct (is_async cfg) eqn:Easync.
        + rewrite den_RMeth, dens_cons, Hclo, dens_nil. nb. reflexivity.
        + apply (inspect_call_sem ρ _ s _ Hρ Easync Hclo).
      - destruct (wrapper_is_method a Hw Ec) as (Hm & Hi & Ht).
        apply expand_method in He; [|exact Hm]. rewrite Hi, Ht in He. subst s'.
        rewrite den_RMeth, dens_cons, Hclo, dens_nil. nb. reflexivity.
    Qed.

    Lemma covers_app k1 k2 : covers (k1 ++ k2) -> covers k1 /\ covers k2.
    Proof.
      intros H. split; intros k Hk; apply H; apply in_or_app; [left|right]; exact Hk.
    Qed.

    Lemma render_nodes_sem : forall t ds s ds' s' ρ,
      render_nodes cfg b t (ds, s) = Ok (ds', s') -> nodes_ok t -> chain_env ρ ->
      covers (nodes_keys b t) ->
      D s' ρ = Sem_nodes async sn cp b t (D s ρ).
    Proof.
      apply (nodes_ind2
        (fun n => forall ds s ds' s' ρ,
           render_node cfg b n (ds, s) = Ok (ds', s') -> node_ok n -> chain_env ρ ->
           covers (node_keys b n) ->
           D s' ρ = Sem_node async sn cp b n (D s ρ))
        (fun t => forall ds s ds' s' ρ,
           render_nodes cfg b t (ds, s) = Ok (ds', s') -> nodes_ok t -> chain_env ρ ->
           covers (nodes_keys b t) ->
           D s' ρ = Sem_nodes async sn cp b t (D s ρ))).
      - intros e a ds s ds' s' ρ H Hok Hρ Hcov.
        destruct (render_NAct_inv e a ds s ds' s' H Hok) as [_ He].
        apply NAct_sem; assumption.
      - intros e a inner IH ds s ds' s' ρ H Hok Hρ Hcov.
        rewrite node_ok_NWrap in Hok. destruct Hok as [Hw Hin].
        destruct (render_NWrap_inv _ _ _ _ _ _ _ H Hw) as (body & Hr & He).
        eapply NWrap_sem; eauto.
        intros v. rewrite node_keys_NWrap in Hcov.
        assert (Hv : D (RVar n_v) (upd ρ n_v (DV v)) = Ret (DV v)) by (rewrite den_RVar, upd_same; reflexivity).
        rewrite <- Hv. eapply IH; eauto.
        apply chain_env_upd_v. exact Hρ.
      - intros ds s ds' s' ρ H _ _ _. rewrite render_nodes_nil in H. inversion H. reflexivity.
      - intros x r IHx IHr ds s ds' s' ρ H Hok Hρ Hcov.
        rewrite nodes_ok_cons in Hok. destruct Hok as [Hx Hr].
        rewrite nodes_keys_cons in Hcov. apply covers_app in Hcov. destruct Hcov as [Hc1 Hc2].
        rewrite render_nodes_cons in H.
        destruct (render_node cfg b x (ds, s)) as [[ds1 s1]| |] eqn:E1; cbn [rbind] in H; try discriminate.
        rewrite chain_is_left_to_right.
        rewrite <- (IHx _ _ _ _ _ E1 Hx Hρ Hc1).
        eapply IHr; eauto.
    Qed.
  End Fixed.

  Lemma execs_op_defs b e c : forall ops i ρ,
    execs (op_defs b e i c ops) ρ = let! cp := capture_ops (snapρ ρ) b e i c ops in Ret (ext_env ρ cp).
  Proof.
    induction ops as [|o r IH]; intros i ρ; cbn [op_defs capture_ops]; [reflexivity|].
    destruct (hoistable c o).
    - rewrite execs_cons, exec_SLet_ident, den_RUser. nb. apply Vis_ext. intros v. nb.
      rewrite IH, (snap_upd_gname ρ (GEW b e i)). nb. apply bind_ext. intros cp. nb. reflexivity.
    - apply IH.
  Qed.

  Lemma execs_nodes_defs b : forall t ρ,
    execs (nodes_defs b t) ρ = let! cp := capture_nodes (snapρ ρ) b t in Ret (ext_env ρ cp).
  Proof.
    apply (nodes_ind2
      (fun n => forall ρ, execs (node_defs b n) ρ = let! cp := capture_node (snapρ ρ) b n in Ret (ext_env ρ cp))
      (fun t => forall ρ, execs (nodes_defs b t) ρ = let! cp := capture_nodes (snapρ ρ) b t in Ret (ext_env ρ cp))).
    - intros e a ρ. cbn [node_defs capture_node]. apply execs_op_defs.
    - intros e a inner IH ρ. rewrite node_defs_NWrap, capture_node_wrap. apply IH.
    - intros ρ. reflexivity.
    - intros x r IHx IHr ρ. rewrite nodes_defs_cons, execs_app, capture_nodes_cons, IHx. nb.
      apply bind_ext. intros c1. nb. rewrite IHr, snap_ext_env. nb. apply bind_ext. intros c2. nb.
      rewrite ext_env_app. reflexivity.
  Qed.

  Lemma capture_ops_keys sn b e c : forall ops i,
    leaves (fun cp => map fst cp = op_keys b e i c ops) (capture_ops sn b e i c ops).
  Proof.
    induction ops as [|o r IH]; intros i; cbn [capture_ops op_keys]. { constructor. reflexivity. }
    destruct (hoistable c o); [|apply IH].
    constructor. intros v. eapply leaves_bind; [apply IH|]. intros cp Hcp. constructor. cbn [map fst]. rewrite Hcp. reflexivity.
  Qed.

  Lemma capture_nodes_keys sn b : forall t,
    leaves (fun cp => map fst cp = nodes_keys b t) (capture_nodes sn b t).
  Proof.
    apply (nodes_ind2
      (fun n => leaves (fun cp => map fst cp = node_keys b n) (capture_node sn b n))
      (fun t => leaves (fun cp => map fst cp = nodes_keys b t) (capture_nodes sn b t))).
    - intros e a. cbn [capture_node node_keys]. apply capture_ops_keys.
    - intros e a inner IH. rewrite capture_node_wrap, node_keys_NWrap. exact IH.
    - constructor. reflexivity.
    - intros x r IHx IHr. rewrite capture_nodes_cons, nodes_keys_cons.
      eapply leaves_bind; [exact IHx|]. intros c1 H1. eapply leaves_bind; [exact IHr|]. intros c2 H2.
      constructor. rewrite map_app. congruence.
  Qed.

  Lemma chain_env_ext cfg ρ cp b :
    (is_async cfg = false -> ρ n_inspect = Some (DFn inspect_clo)) ->
    NoDup (map fst cp) ->
    chain_env cfg (snapρ ρ) cp b (ext_env ρ cp).
  Proof.
    intros Hi Hnd. split.
    - intros Ha. rewrite ext_env_not_ew; auto.
      intros b' e i. apply (gname_neq GInspect (GEW b' e i)). discriminate.
    - apply snap_ext_env.
    - intros e i v Hl. apply (ext_env_lookup cp ρ (b, e, i) v Hnd Hl).
  Qed.

  (* One branch-step.  The block `{ let __ewB_E_I = ..; ..  chain }` generated for the
     actions `acts` of branch b denotes: capture the block operands (in position order), then the
     documented chain over the bracket tree, started from the branch's current value. *)
  Theorem branch_step_refines j b prev acts t defs c ρ :
    nest acts = Some t -> nodes_ok t ->
    gen_branch_step j b prev acts = Ok (defs, c) ->
    (is_async (j_cfg j) = false -> ρ n_inspect = Some (DFn inspect_clo)) ->
    (forall b' e i, prev <> n_ew b' e i) ->
    D (RBlock defs c) ρ =
    let! cp := capture_nodes (snapρ ρ) b t in
    Sem_nodes (is_async (j_cfg j)) (snapρ ρ) cp b t (D (wrap_into_block j (RVar prev)) ρ).
  Proof.
    intros Hn Hok Hg Hi Hprev.
    rewrite (gen_branch_step_is_render j b prev acts t Hn) in Hg.
    pose proof (render_nodes_defs (j_cfg j) b t _ _ _ _ Hg Hok) as Hd. cbn [app] in Hd. subst defs.
    rewrite den_RBlock, execs_nodes_defs. nb.
    eapply bind_ext_leaves; [apply capture_nodes_keys|]. intros cp Hk. nb.
    assert (Hnd : NoDup (map fst cp)).
    { rewrite Hk. apply nodes_keys_nodup. eapply nest_pos_nodup; eauto. }
    assert (Hs : D (wrap_into_block j (RVar prev)) (ext_env ρ cp) = D (wrap_into_block j (RVar prev)) ρ).
    { unfold wrap_into_block. destruct (is_async (j_cfg j)).
      - rewrite !den_RAsyncMove. cbn [execs]. nb. rewrite !den_RVar, ext_env_not_ew by exact Hprev. reflexivity.
      - rewrite !den_RBlock. cbn [execs]. nb. rewrite !den_RVar, ext_env_not_ew by exact Hprev. reflexivity. }
    rewrite <- Hs.
    eapply render_nodes_sem; eauto.
    - apply chain_env_ext; assumption.
    - intros k Hin. apply lookup_cap_in. rewrite Hk. exact Hin.
  Qed.
End Chain.

Print Assumptions branch_step_refines.
