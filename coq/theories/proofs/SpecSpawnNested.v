(* Beyond SpecSpawn.v: user code may itself spawn threads (a nested `join_spawn!` reached
   through `msem` / `dotsem` / `callsem` / `awaitsem`, at any depth).

   Then children spawn grandchildren, handles (pool indices) depend on the schedule, and the
   deterministic-handle evaluator `evalT` of SpecSpawn.v does not apply.  What replaces
   "events only" is PARAMETRICITY: code may spawn and join, but
     - it treats handles abstractly (a handle only ever reaches `Join`),
     - what it does, and what it returns, does not depend on the thread's name
       (names only flow into the names of the threads it spawns),
     - a spawned thread starts with no handles and returns a value without handles.
   This is a logical relation `crel` between two copies of the code running under different
   thread names with handles related by a (growing) list of pairs; `pcode Q c` = c is related to
   itself (and its results satisfy Q).  The generated thread step is `pcode` (`pcode_thread_step`:
   the `__tb` names differ, the handles differ, the joined values agree), so the hypothesis is
   closed under nesting: `ExNested` feeds a whole `join_spawn!` back in as user code.

   The reference `evalN` reads thread operations sequentially: `Spawn` runs the child to its end,
   at once, and remembers the outcome; `Join` looks it up.  (On code without thread operations it
   is `eval` of SpecSpawn.v: `evalN_nothr`.)

   Machine (`nested_run_is_evalN`): every thread x of the pool runs code related - by `crel`, with a
   per-thread renaming of handles - to a residual of the code it was spawned with, whose `evalN`
   is the predicted outcome `outs[x]`, fixed at spawn time.  A one-step invariant; handles are
   never compared across schedules.  The world is stateless, so a detached sibling that runs on
   after the caller panicked influences nobody: no strictness, no name discipline is needed. *)
From Coq Require Import ZArith Lia.
From Join Require Import Tok Ast Comp Std Spec Threads ThreadsProps SpecCode SpecSpawn.
Import ListNotations.

Local Notation top := (fun _ => True).

(* pairs (handle on the left, handle on the right) *)
Definition hrel := list (nat * nat).

Fixpoint crel {A} (Q : hrel -> A -> A -> Prop) (nm1 nm2 : option string) (rho : hrel) (c1 c2 : comp A)
         {struct c1} : Prop :=
  match c1, c2 with
  | Ret a1, Ret a2 => Q rho a1 a2
  | Panic _, Panic _ => True
  | Vis e1 k1, Vis e2 k2 =>
      e1 = e2 /\
      match e1 with
      | EThreadName => crel Q nm1 nm2 rho (k1 (name_val nm1)) (k2 (name_val nm2))
      | _ => forall v, crel Q nm1 nm2 rho (k1 v) (k2 v)
      end
  | Spawn n1 t1 k1, Spawn n2 t2 k2 =>
      crel (fun _ v1 v2 => v1 = v2) (Some n1) (Some n2) [] t1 t2 /\
      forall h1 h2, crel Q nm1 nm2 ((h1, h2) :: rho) (k1 h1) (k2 h2)
  | Join h1 k1, Join h2 k2 => In (h1, h2) rho /\ forall r, crel Q nm1 nm2 rho (k1 r) (k2 r)
  | _, _ => False
  end.

Definition pcode {A} (Q : A -> Prop) (c : comp A) : Prop :=
  forall nm1 nm2 rho, crel (fun _ a1 a2 => a1 = a2 /\ Q a1) nm1 nm2 rho c c.

Lemma crel_weaken {A} (Q R : hrel -> A -> A -> Prop) (c1 : comp A) :
  (forall rho a1 a2, Q rho a1 a2 -> R rho a1 a2) ->
  forall c2 nm1 nm2 rho, crel Q nm1 nm2 rho c1 c2 -> crel R nm1 nm2 rho c1 c2.
Proof.
  intros HQ. induction c1 as [A a|A n|A e k IH|A name t IHt k IH|A i k IH];
    intros [a2|n2|e2 k2|name2 t2 k2|i2 k2] nm1 nm2 rho H; cbn in H |- *; try contradiction; auto.
  - destruct H as [He Hk]. split; [exact He|]. destruct e; try intros v; (eapply IH; [exact HQ|apply Hk]).
  - destruct H as [Ht Hk]. split; [exact Ht|]. intros h1 h2. eapply IH; [exact HQ|apply Hk].
  - destruct H as [Hi Hk]. split; [exact Hi|]. intros r. eapply IH; [exact HQ|apply Hk].
Qed.

Lemma crel_bind {A B} (Q : hrel -> A -> A -> Prop) (R : hrel -> B -> B -> Prop) (c1 : comp A) :
  forall (c2 : comp A) (f1 f2 : A -> comp B) nm1 nm2 rho,
    crel Q nm1 nm2 rho c1 c2 ->
    (forall rho' a1 a2, incl rho rho' -> Q rho' a1 a2 -> crel R nm1 nm2 rho' (f1 a1) (f2 a2)) ->
    crel R nm1 nm2 rho (bind c1 f1) (bind c2 f2).
Proof.
  induction c1 as [A a|A n|A e k IH|A name t IHt k IH|A i k IH];
    intros [a2|n2|e2 k2|name2 t2 k2|i2 k2] f1 f2 nm1 nm2 rho H Hf; cbn in H; try contradiction; cbn [bind].
  - apply Hf; [apply incl_refl|exact H].
  - exact I.
  - destruct H as [He Hk]. cbn. split; [exact He|]. destruct e; eauto.
  - destruct H as [Ht Hk]. cbn. split; [exact Ht|]. intros h1 h2.
    eapply IH; [apply Hk|]. intros rho' a1 a2 Hi. apply Hf. intros x Hx. apply Hi. now right.
  - destruct H as [Hi Hk]. cbn. split; [exact Hi|]. eauto.
Qed.

Lemma pcode_class : code_class (@pcode).
Proof.
  split.
  - intros A Q a Ha nm1 nm2 rho. cbn. auto.
  - intros A Q n nm1 nm2 rho. exact I.
  - intros A Q e k He Hk nm1 nm2 rho. cbn. split; [reflexivity|].
    destruct e; try congruence; intros v; apply Hk.
  - intros A B Q R c f Hc Hf nm1 nm2 rho.
    eapply crel_bind; [apply Hc|]. intros rho' a1 a2 _ [<- Ha]. apply Hf, Ha.
Qed.

Lemma pcode_weaken {A} (Q R : A -> Prop) (c : comp A) : (forall a, Q a -> R a) -> pcode Q c -> pcode R c.
Proof.
  intros HQ Hc nm1 nm2 rho. eapply crel_weaken; [|apply Hc]. cbn. intros _ a1 a2 [E Ha]. auto.
Qed.

Lemma pcode_closed (Q : val -> Prop) (c : comp val) nm1 nm2 rho :
  pcode Q c -> crel (fun _ v1 v2 => v1 = v2) nm1 nm2 rho c c.
Proof. intros Hc. eapply crel_weaken; [|apply Hc]. cbn. intros _ a1 a2 [E _]. exact E. Qed.

Lemma ucode_pcode {A} (Q : A -> Prop) (c : comp A) : ucode Q c -> pcode Q c.
Proof. apply ucode_least, pcode_class. Qed.

Notation dval_okP := (dval_okC (@pcode)).
(* THE HYPOTHESIS ON USER CODE, nested version (`SpecCode.user_codeC` at the class `pcode`): methods,
   field/method tokens, calls and awaits may spawn and join threads, but treat handles abstractly and do not
   depend on the thread's name, and hand back such values, provided the closures they are given are. *)
Notation user_code_nested := (user_codeC (@pcode)).

Definition builders_rel (bs1 bs2 : list dval) : Prop :=
  Forall2 (fun d1 d2 => exists n1 n2, d1 = DBuilder n1 /\ d2 = DBuilder n2) bs1 bs2.
Definition handle_lists (rho : hrel) (hs1 hs2 : list dval) : Prop :=
  exists l, hs1 = map (fun h => DV (VHandle h)) (map fst l) /\ hs2 = map (fun h => DV (VHandle h)) (map snd l) /\
            Forall (fun p => In p rho) l.

Lemma crel_builders nm1 nm2 acts : forall rho,
  crel (fun _ => builders_rel) nm1 nm2 rho
       (mapM (fun b => thread_builder (Z.of_nat b)) acts) (mapM (fun b => thread_builder (Z.of_nat b)) acts).
Proof.
  induction acts as [|b acts IH]; intros rho; cbn [mapM]; [constructor|].
  eapply crel_bind with (Q := fun _ d1 d2 => exists n1 n2, d1 = DBuilder n1 /\ d2 = DBuilder n2).
  - unfold thread_builder. cbn. split; [reflexivity|]. rewrite !tb_name_child_name. cbn. eauto.
  - intros rho' d1 d2 _ Hd. eapply crel_bind; [apply IH|]. intros rho'' ds1 ds2 _ Hds. cbn. constructor; assumption.
Qed.

Lemma crel_spawn_all nm1 nm2 (child : nat -> comp val) bs1 bs2 :
  (forall b, pcode top (child b)) -> builders_rel bs1 bs2 ->
  forall acts rho,
    crel handle_lists nm1 nm2 rho
         (mapM (std_spawn_one child) (combine bs1 acts)) (mapM (std_spawn_one child) (combine bs2 acts)).
Proof.
  intros Hch Hbs. induction Hbs as [|d1 d2 bs1 bs2 (n1 & n2 & -> & ->) Hbs IH]; intros acts rho.
  - exists []. repeat split. constructor.
  - destruct acts as [|a acts]; [exists []; repeat split; constructor|]. cbn [combine mapM].
    unfold std_spawn_one at 1 3. cbn [fst snd]. unfold std_spawn. cbn [bind std_unwrap]. cbn.
    split; [apply (pcode_closed top), Hch|]. intros h1 h2.
    eapply crel_bind; [apply IH|]. intros rho' hs1 hs2 Hi (l & -> & -> & Hl).
    exists ((h1, h2) :: l). repeat split. constructor; [apply Hi; now left|exact Hl].
Qed.

Lemma crel_join_all nm1 nm2 l : forall rho,
  Forall (fun p => In p rho) l ->
  crel (fun _ vs1 vs2 => vs1 = vs2) nm1 nm2 rho
       (mapM std_join_one (map VHandle (map fst l))) (mapM std_join_one (map VHandle (map snd l))).
Proof.
  induction l as [|[h1 h2] l IH]; intros rho Hl; cbn [map mapM fst snd]; [reflexivity|].
  inversion Hl as [|? ? Hin Hl']; subst.
  eapply crel_bind with (Q := fun _ v1 v2 => v1 = v2).
  - unfold std_join_one, std_join. cbn. split; [exact Hin|]. intros [v|]; cbn; auto.
  - intros rho' v1 v2 Hi <-. eapply crel_bind.
    + apply IH. eapply Forall_impl; [|exact Hl']. intros pr Hp. apply Hi, Hp.
    + intros rho'' vs1 vs2 _ <-. cbn. reflexivity.
Qed.

(* THE GENERATED STEP IS PARAMETRIC: under two names the `__tb` names differ and under two handle
   relations the handles differ, but handles only reach `Join` and the joined values agree *)
Lemma pcode_thread_step {C} acts (caps : comp C) (child : C -> nat -> comp val) :
  pcode top caps -> (forall cp b, pcode top (child cp b)) ->
  pcode dval_okP (std_thread_step acts caps child).
Proof.
  intros Hcaps Hchild nm1 nm2 rho. unfold std_thread_step.
  eapply crel_bind; [apply crel_builders|]. intros rho1 bs1 bs2 _ Hbs.
  eapply crel_bind; [apply Hcaps|]. intros rho2 cp ? _ [<- _].
  unfold std_spawn_join.
  eapply crel_bind; [apply crel_spawn_all; [apply Hchild|exact Hbs]|]. intros rho3 hs1 hs2 _ (l & -> & -> & Hl).
  unfold vals_tuple. rewrite !all_vals_handles. cbn [bind].
  eapply crel_bind; [apply crel_join_all, Hl|]. intros rho4 vs ? _ <-. cbn. auto.
Qed.

Section World.
  Variable h : ev -> option val.

  (* `Spawn` runs the child to its end at once and remembers its outcome; `Join i` looks up the
     outcome of the i-th thread this code spawned; None = panic (or a handle that is not in scope) *)
  Fixpoint evalN {A} (nm : option string) (c : comp A) (rs : list (option val)) {struct c}
    : option (A * list (option val)) :=
    match c with
    | Ret a => Some (a, rs)
    | Panic _ => None
    | Vis e k => match ans h nm e with Some v => evalN nm (k v) rs | None => None end
    | Spawn name t k => evalN nm (k (List.length rs)) (rs ++ [option_map fst (evalN (Some name) t [])])
    | Join i k => match nth_error rs i with Some r => evalN nm (k r) rs | None => None end
    end.

  Definition outN (nm : option string) (c : comp val) : option val := option_map fst (evalN nm c []).

  Lemma evalN_bind {A B} nm (c : comp A) (f : A -> comp B) : forall rs,
    evalN nm (bind c f) rs = match evalN nm c rs with Some (a, rs') => evalN nm (f a) rs' | None => None end.
  Proof.
    induction c as [A a|A n|A e k IH|A name t IHt k IH|A i k IH]; cbn; intros rs; auto.
    - destruct (ans h nm e); auto.
    - destruct (nth_error rs i); auto.
  Qed.

  Lemma evalN_nothr {A} nm (c : comp A) rs :
    nothr c -> evalN nm c rs = option_map (fun a => (a, rs)) (eval h nm c).
  Proof.
    induction c as [A a|A n|A e k IH|A name t IHt k IH|A i k IH]; cbn; intros Hc; auto; try contradiction.
    destruct (ans h nm e); auto.
  Qed.

  Lemma evalN_vis_next nm e (k : val -> comp val) rs : evalN nm (Vis e k) rs = evalN nm (vis_next k (ans h nm e)) rs.
  Proof. cbn. destruct (ans h nm e); reflexivity. Qed.

  Lemma crel_vis_next (Q : hrel -> val -> val -> Prop) nm1 nm2 rho e1 e2 k1 k2 :
    crel Q nm1 nm2 rho (Vis e1 k1) (Vis e2 k2) ->
    crel Q nm1 nm2 rho (vis_next k1 (ans h nm1 e1)) (vis_next k2 (ans h nm2 e2)).
  Proof.
    cbn. intros [<- Hk]. destruct e1; cbn [ans]; [destruct (h _); [apply Hk|exact I]..|apply Hk].
  Qed.

  Lemma outN_nothr nm (c : comp val) : nothr c -> outN nm c = eval h nm c.
  Proof. intros Hc. unfold outN. rewrite evalN_nothr by exact Hc. destruct (eval h nm c); reflexivity. Qed.

  Definition rs_rel (rho : hrel) (rs1 rs2 : list (option val)) : Prop :=
    forall h1 h2, In (h1, h2) rho -> exists o, nth_error rs1 h1 = Some o /\ nth_error rs2 h2 = Some o.

  Definition res_rel {A} (Q : hrel -> A -> A -> Prop) (rho : hrel)
             (r1 r2 : option (A * list (option val))) : Prop :=
    match r1, r2 with
    | Some (a1, rs1), Some (a2, rs2) => exists rho', incl rho rho' /\ Q rho' a1 a2 /\ rs_rel rho' rs1 rs2
    | None, None => True
    | _, _ => False
    end.

  Lemma rs_rel_snoc rho rs1 rs2 o :
    rs_rel rho rs1 rs2 -> rs_rel ((List.length rs1, List.length rs2) :: rho) (rs1 ++ [o]) (rs2 ++ [o]).
  Proof.
    intros Hr h1 h2 [E|Hin].
    - injection E as <- <-. exists o. split; apply nth_error_app_new.
    - destruct (Hr _ _ Hin) as (o' & H1 & H2). exists o'.
      rewrite !nth_error_app1 by (eapply nth_error_Some_lt; eauto). auto.
  Qed.

  (* the fundamental lemma: related code, related outcome lists => related results *)
  Lemma evalN_crel {A} (c1 : comp A) :
    forall (c2 : comp A) (Q : hrel -> A -> A -> Prop) nm1 nm2 rho rs1 rs2,
      crel Q nm1 nm2 rho c1 c2 -> rs_rel rho rs1 rs2 ->
      res_rel Q rho (evalN nm1 c1 rs1) (evalN nm2 c2 rs2).
  Proof.
    induction c1 as [A a|A n|A e k IH|A name t IHt k IH|A i k IH];
      intros [a2|n2|e2 k2|name2 t2 k2|i2 k2] Q nm1 nm2 rho rs1 rs2 H Hrs; cbn in H; try contradiction.
    - cbn. exists rho. split; [apply incl_refl|]. auto.
    - exact I.
    - destruct H as [<- Hk]. cbn [evalN]. destruct e; cbn [ans].
      + destruct (h _); [apply IH; auto|exact I].
      + destruct (h _); [apply IH; auto|exact I].
      + apply IH; auto.
    - destruct H as [Ht Hk]. cbn [evalN].
      assert (E : option_map fst (evalN (Some name) t []) = option_map fst (evalN (Some name2) t2 [])).
      { pose proof (IHt t2 _ _ _ [] [] [] Ht ltac:(intros ? ? [])) as Hr. unfold res_rel in Hr.
        destruct (evalN (Some name) t []) as [[v1 r1]|], (evalN (Some name2) t2 []) as [[v2 r2]|]; try contradiction; [|reflexivity].
        destruct Hr as (_ & _ & -> & _). reflexivity. }
      rewrite <- E.
      pose proof (IH (List.length rs1) (k2 (List.length rs2)) Q nm1 nm2 _ _ _ (Hk _ _)
                     (rs_rel_snoc rho rs1 rs2 (option_map fst (evalN (Some name) t [])) Hrs)) as Hr.
      unfold res_rel in Hr |- *.
      destruct (evalN nm1 (k (List.length rs1)) _) as [[a1 r1]|], (evalN nm2 (k2 (List.length rs2)) _) as [[a2' r2]|]; auto.
      destruct Hr as (rho' & Hi & HQ & Hrr). exists rho'. split; [|auto].
      intros x Hx. apply Hi. now right.
    - destruct H as [Hin Hk]. cbn [evalN]. destruct (Hrs _ _ Hin) as (o & -> & ->). apply IH; auto.
  Qed.

  Lemma evalN_pcode_indep {A} (Q : A -> Prop) (c : comp A) nm1 nm2 rs1 rs2 :
    pcode Q c -> option_map fst (evalN nm1 c rs1) = option_map fst (evalN nm2 c rs2).
  Proof.
    intros Hc. pose proof (evalN_crel c c _ nm1 nm2 [] rs1 rs2 (Hc nm1 nm2 []) ltac:(intros ? ? [])) as Hr.
    unfold res_rel in Hr. destruct (evalN nm1 c rs1) as [[a1 r1]|], (evalN nm2 c rs2) as [[a2 r2]|]; try contradiction; [|reflexivity].
    destruct Hr as (_ & _ & [-> _] & _). reflexivity.
  Qed.

  Lemma evalN_pcode_post {A} (Q : A -> Prop) (c : comp A) nm rs a rs' :
    pcode Q c -> evalN nm c rs = Some (a, rs') -> Q a.
  Proof.
    intros Hc E. pose proof (evalN_crel c c _ nm nm [] rs rs (Hc nm nm []) ltac:(intros ? ? [])) as Hr.
    unfold res_rel in Hr. rewrite E in Hr. destruct Hr as (_ & _ & [_ Ha] & _). exact Ha.
  Qed.

  Section Machine.
    Variable W : Type.
    Variable handle : option string -> ev -> W -> option val * W.
    Hypothesis Hstateless : stateless h W handle.

    (* thread x, in a pool whose predicted outcomes are `outs`: its code is related to a residual cv
       (running under a name vnm, with its own handles and outcome list rsv) whose sequential
       reading is the prediction for x.  (`ThreadsProps.tinv`, where a thread stands in the blocks of its own
       code, is another invariant; this one shadows it from here on.) *)
    Definition tinv (outs : list (option val)) (x : nat) (th : thread) : Prop :=
      exists vnm (cv : comp val) rsv rho,
        crel (fun _ v1 v2 => v1 = v2) vnm (th_name th) rho cv (th_code th) /\
        rs_rel rho rsv outs /\
        nth_error outs x = Some (option_map fst (evalN vnm cv rsv)).

    (* the machine invariant of `nested_run_is_evalN`, kept by every step (`ninv_step`); `ThreadsIndep.ninv` /
       `ninv_step`, the invariant of schedule independence for block-structured code, are unrelated *)
    Definition ninv (R : option val) (s : Threads.state W) : Prop :=
      exists outs,
        List.length outs = List.length (pool s) /\ nth_error outs 0 = Some R /\
        forall x th, nth_error (pool s) x = Some th -> tinv outs x th.

    Lemma tinv_grow outs o x th : tinv outs x th -> tinv (outs ++ [o]) x th.
    Proof.
      intros (vnm & cv & rsv & rho & Hc & Hr & Hx). exists vnm, cv, rsv, rho. split; [exact Hc|]. split.
      - intros h1 h2 Hin. destruct (Hr _ _ Hin) as (o' & H1 & H2). exists o'. split; [exact H1|].
        rewrite nth_error_app1 by (eapply nth_error_Some_lt; eauto). exact H2.
      - rewrite nth_error_app1 by (eapply nth_error_Some_lt; eauto). exact Hx.
    Qed.

    Lemma tinv_outcome outs x th r :
      tinv outs x th -> outcome (th_code th) = Some r -> nth_error outs x = Some r.
    Proof.
      intros (vnm & cv & rsv & rho & Hc & _ & Hx) Ho. rewrite Hx. f_equal.
      destruct (th_code th) as [v|n|e k|name t k|i k]; cbn in Ho; try discriminate; injection Ho as <-;
        destruct cv as [v1|n1|e1 k1|name1 t1 k1|i1 k1]; cbn in Hc; try contradiction.
      - subst. reflexivity.
      - reflexivity.
    Qed.

    Lemma ninv_upd R (pl : list thread) w' tr' outs i th' :
      List.length outs = List.length pl -> nth_error outs 0 = Some R ->
      (forall x th, nth_error pl x = Some th -> tinv outs x th) -> i < List.length pl ->
      tinv outs i th' -> ninv R (mkState (upd pl i th') w' tr').
    Proof.
      intros Hlen H0 Hall Hi Hth'. exists outs. cbn [pool]. rewrite upd_length. split; [exact Hlen|]. split; [exact H0|].
      intros x thx Hx. destruct (Nat.eq_dec x i) as [->|Hne].
      - rewrite nth_error_upd_eq in Hx by exact Hi. injection Hx as <-. exact Hth'.
      - rewrite nth_error_upd_neq in Hx by congruence. apply Hall, Hx.
    Qed.

    Lemma ninv_step R i s s' : ninv R s -> step_rel W handle i s s' -> ninv R s'.
    Proof.
      intros (outs & Hlen & H0 & Hall) Hst. pose proof Hst as Hst'.
      destruct Hst as [th e k r w' Hth Hc Ha ->|th name t k Hth Hc Es|th j k th' r Hth Hc Hth' Ho ->];
        unfold thr_of in *; pose proof (nth_error_Some_lt _ _ _ Hth) as Hi.
      -
        apply (answer_fst h W handle Hstateless) in Ha. subst r.
        apply (ninv_upd R (pool s) _ _ outs i _ Hlen H0 Hall Hi).
        destruct (Hall _ _ Hth) as (vnm & cv & rsv & rho & Hcr & Hr & Hout). rewrite Hc in Hcr.
        destruct cv as [v1|n1|e1 k1|name1 t1 k1|i1 k1]; try contradiction.
        exists vnm, (vis_next k1 (ans h vnm e1)), rsv, rho. cbn [set_code th_name th_code].
        split; [apply crel_vis_next, Hcr|]. split; [exact Hr|]. rewrite <- evalN_vis_next. exact Hout.
      -
        destruct (Hall _ _ Hth) as (vnm & cv & rsv & rho & Hcr & Hr & Hout). rewrite Hc in Hcr.
        destruct cv as [v1|n1|e1 k1|name1 t1 k1|i1 k1]; cbn in Hcr; try contradiction.
        destruct Hcr as [Ht Hk]. cbn [evalN] in Hout.
        set (o := option_map fst (evalN (Some name1) t1 [])) in *.
        destruct (thr_upd_app W s s' i th _ _ (f_equal (@pool W) Es) Hth) as (Ei & Enew & El). unfold thr_of in Ei, Enew.
        exists (outs ++ [o]). rewrite El, app_length, Hlen.
        split; [cbn; lia|]. split; [rewrite nth_error_app1 by (eapply nth_error_Some_lt; eauto); exact H0|].
        intros x thx Hx.
        destruct (step_thr_inv W handle i _ _ x thx Hst' Hx) as [(thx0 & Hx0 & _ & _ & Hsame & _)|[-> _]].
        + destruct (Nat.eq_dec x i) as [->|Hne]; [|rewrite (Hsame Hne); apply tinv_grow, Hall, Hx0].
          rewrite Ei in Hx. injection Hx as <-. cbn [set_code th_name th_code].
          exists vnm, (k1 (List.length rsv)), (rsv ++ [o]), ((List.length rsv, List.length (pool s)) :: rho).
          split; [apply Hk|]. split.
          * rewrite <- Hlen. apply rs_rel_snoc, Hr.
          * rewrite nth_error_app1 by (eapply nth_error_Some_lt; eauto). exact Hout.
        + rewrite Enew in Hx. injection Hx as <-.
          exists (Some name1), t1, [], []. cbn [th_name th_code]. split; [exact Ht|]. split; [intros ? ? []|].
          rewrite <- Hlen. apply nth_error_app_new.
      - (* a join: the joined thread is finished, so it holds its prediction *)
        apply (ninv_upd R (pool s) _ _ outs i _ Hlen H0 Hall Hi).
        destruct (Hall _ _ Hth) as (vnm & cv & rsv & rho & Hcr & Hr & Hout). rewrite Hc in Hcr.
        destruct cv as [v1|n1|e1 k1|name1 t1 k1|i1 k1]; cbn in Hcr; try contradiction.
        destruct Hcr as [Hin Hk]. cbn [evalN] in Hout. cbn [set_code th_name th_code].
        destruct (Hr _ _ Hin) as (o & Hv & Hj).
        rewrite (tinv_outcome outs j th' r (Hall _ _ Hth') Ho) in Hj. injection Hj as <-.
        rewrite Hv in Hout.
        exists vnm, (k1 r), rsv, rho. cbn [set_code th_name th_code]. auto.
    Qed.

    Theorem nested_run_is_evalN (c : comp val) nm w sched :
      pcode top c ->
      let s := run_thr handle sched (init nm c w) in
      thr_finished 0 s = true -> result_of 0 s = Some (outN nm c).
    Proof.
      intros Hc s Hfin.
      assert (Hinv : ninv (outN nm c) s).
      { apply (run_thr_invariant W handle (ninv (outN nm c))).
        - intros i s1 s2. apply ninv_step.
        - exists [outN nm c]. cbn. split; [reflexivity|]. split; [reflexivity|].
          intros [|[|x]] th Hx; cbn in Hx; try discriminate. injection Hx as <-.
          exists nm, c, [], []. cbn. split; [apply (pcode_closed top), Hc|]. split; [intros ? ? []|reflexivity]. }
      destruct Hinv as (outs & _ & H0 & Hall).
      unfold thr_finished in Hfin. unfold result_of.
      destruct (nth_error (pool s) 0) as [th|] eqn:Hth; [|discriminate].
      destruct (outcome (th_code th)) as [r|] eqn:Ho.
      - rewrite (tinv_outcome outs 0 th r (Hall _ _ Hth) Ho) in H0. congruence.
      - destruct (th_code th); cbn in *; discriminate.
    Qed.
  End Machine.

  Definition agreesN {A} (nm : option string) (c1 c2 : comp A) : Prop :=
    forall rs1 rs2, option_map fst (evalN nm c1 rs1) = option_map fst (evalN nm c2 rs2).

  Definition simN {A} (nm : option string) (Q : A -> Prop) (c1 c2 : comp A) : Prop :=
    pcode Q c1 /\ pcode Q c2 /\ agreesN nm c1 c2.

  Lemma simN_refl {A} nm (Q : A -> Prop) (c : comp A) : pcode Q c -> simN nm Q c c.
  Proof.
    intros Hc. split; [exact Hc|]. split; [exact Hc|]. intros rs1 rs2. eapply evalN_pcode_indep; eauto.
  Qed.

  Lemma simN_bind {A B} nm (Q : A -> Prop) (R : B -> Prop) (c1 c2 : comp A) (f1 f2 : A -> comp B) :
    simN nm Q c1 c2 -> (forall a, Q a -> simN nm R (f1 a) (f2 a)) -> simN nm R (bind c1 f1) (bind c2 f2).
  Proof.
    intros (H1 & H2 & Hag) Hf. split; [|split].
    - eapply (cc_bind _ pcode_class); [exact H1|]. intros a Ha. apply (Hf a Ha).
    - eapply (cc_bind _ pcode_class); [exact H2|]. intros a Ha. apply (Hf a Ha).
    - intros rs1 rs2. rewrite !evalN_bind. specialize (Hag rs1 rs2).
      destruct (evalN nm c1 rs1) as [[a1 r1]|] eqn:E1, (evalN nm c2 rs2) as [[a2 r2]|] eqn:E2;
        cbn in Hag; try discriminate; [|reflexivity].
      injection Hag as <-.
      assert (Ha : Q a1) by (eapply evalN_pcode_post; eauto).
      apply (Hf a1 Ha).
  Qed.

  Lemma evalN_builders nm acts rs :
    evalN nm (mapM (fun b => thread_builder (Z.of_nat b)) acts) rs =
    Some (map (fun b => DBuilder (child_name nm b)) acts, rs).
  Proof.
    induction acts as [|b acts IH]; cbn [mapM map]; [reflexivity|].
    rewrite evalN_bind. unfold thread_builder at 1. cbn [evalN ans]. rewrite tb_name_child_name. cbn [evalN].
    rewrite evalN_bind, IH. reflexivity.
  Qed.

  Lemma evalN_spawn_all nm (name : nat -> string) (child : nat -> comp val) acts : forall rs,
    evalN nm (mapM (std_spawn_one child) (combine (map (fun b => DBuilder (name b)) acts) acts)) rs =
    Some (map (fun i => DV (VHandle i)) (seq (List.length rs) (List.length acts)),
          rs ++ map (fun b => outN (Some (name b)) (child b)) acts).
  Proof.
    induction acts as [|b acts IH]; intros rs; cbn [mapM map combine List.length seq].
    - now rewrite app_nil_r.
    - rewrite evalN_bind. unfold std_spawn_one at 1. cbn [fst snd]. unfold std_spawn. cbn [bind evalN std_unwrap].
      rewrite evalN_bind, IH. rewrite app_length. cbn [List.length]. rewrite Nat.add_1_r.
      cbn [evalN]. rewrite <- app_assoc. reflexivity.
  Qed.

  Lemma evalN_join_all nm rs hs outs :
    Forall2 (fun i r => nth_error rs i = Some r) hs outs ->
    evalN nm (mapM std_join_one (map VHandle hs)) rs = option_map (fun vs => (vs, rs)) (all_some outs).
  Proof.
    induction 1 as [|i r hs outs Hi _ IH]; cbn [mapM map all_some]; [reflexivity|].
    rewrite evalN_bind. unfold std_join_one at 1. unfold std_join. cbn [bind evalN]. rewrite Hi.
    destruct r as [v|]; cbn [evalN std_unwrap bind to_val]; [|reflexivity].
    rewrite evalN_bind, IH. destruct (all_some outs); reflexivity.
  Qed.

  (* plain code runs the chains one after the other; each is parametric, so what came before does not matter *)
  Lemma evalN_mapM_pcode {A B} (Q : B -> Prop) nm (f : A -> comp B) (l : list A) : (forall x, pcode Q (f x)) ->
    forall rs, option_map fst (evalN nm (mapM f l) rs) = all_some (map (fun x => option_map fst (evalN nm (f x) [])) l).
  Proof.
    intros Hf. induction l as [|x l IH]; intros rs; cbn [mapM map all_some]; [reflexivity|].
    rewrite evalN_bind. pose proof (evalN_pcode_indep Q (f x) nm nm rs [] (Hf x)) as E.
    destruct (evalN nm (f x) rs) as [[y r1]|], (evalN nm (f x) []) as [[y' r2]|]; cbn in E; try discriminate; [|reflexivity].
    injection E as <-. cbn [option_map fst]. rewrite evalN_bind. specialize (IH r1).
    destruct (evalN nm (mapM f l) r1) as [[ys r3]|]; cbn in IH |- *; rewrite <- IH; reflexivity.
  Qed.

  Lemma simN_thread_step {C} nm acts (caps : comp C) (child : C -> nat -> comp dval) :
    pcode top caps -> (forall cp b, pcode dval_okP (child cp b)) ->
    simN nm dval_okP
         (std_thread_step acts caps (fun cp b => let! d := child cp b in to_val d))
         (let! cp := caps in let! ds := mapM (child cp) acts in Spec.vals_tuple ds).
  Proof.
    intros Hcaps Hchild.
    assert (Hcv : forall cp b, pcode top (let! d := child cp b in to_val d)).
    { intros cp b. eapply (cc_bind _ pcode_class); [apply Hchild|]. intros d _.
      destruct d; first [apply (cc_ret _ pcode_class); exact I | apply (cc_panic _ pcode_class)]. }
    split; [|split].
    - apply pcode_thread_step; assumption.
    - eapply (cc_bind _ pcode_class); [exact Hcaps|]. intros cp _.
      eapply (cc_bind _ pcode_class); [apply (c_mapM _ (code_call_class _ pcode_class)); intros b _; apply Hchild|]. intros ds _.
      unfold Spec.vals_tuple. destruct (all_vals ds); [apply (cc_ret _ pcode_class); exact I|apply (cc_panic _ pcode_class)].
    - intros rs1 rs2. unfold std_thread_step.
      rewrite evalN_bind, evalN_builders, !evalN_bind.
      pose proof (evalN_pcode_indep top caps nm nm rs1 rs2 Hcaps) as Ecaps.
      destruct (evalN nm caps rs1) as [[cp r1]|], (evalN nm caps rs2) as [[cp' r2]|]; cbn in Ecaps; try discriminate; [|reflexivity].
      injection Ecaps as <-.
      unfold std_spawn_join.
      rewrite evalN_bind, (evalN_spawn_all nm (child_name nm) (fun b => let! d := child cp b in to_val d)).
      rewrite evalN_bind. unfold vals_tuple at 1. rewrite all_vals_handles. cbn [evalN].
      rewrite evalN_bind.
      rewrite (evalN_join_all nm _ _ (map (fun b => outN (Some (child_name nm b)) (let! d := child cp b in to_val d)) acts)).
      2:{ pose proof (CompLaws.nth_error_seq_app (map (fun b => outN (Some (child_name nm b)) (let! d := child cp b in to_val d)) acts) r1) as H.
          rewrite map_length in H. exact H. }
      rewrite evalN_bind.
      pose proof (evalN_mapM_pcode dval_okP nm (child cp) acts (Hchild cp) r2) as Em.
      assert (E : map (fun b => outN (Some (child_name nm b)) (let! d := child cp b in to_val d)) acts =
                  map (fun o => match o with Some (DV v) => Some v | _ => None end)
                      (map (fun b => option_map fst (evalN nm (child cp b) [])) acts)).
      { rewrite map_map. apply map_ext. intros b. unfold outN.
        rewrite (evalN_pcode_indep top _ (Some (child_name nm b)) nm [] []) by apply Hcv.
        rewrite evalN_bind.
        destruct (evalN nm (child cp b) []) as [[d r]|]; [|reflexivity]. destruct d; reflexivity. }
      rewrite E, all_some_vals.
      destruct (evalN nm (mapM (child cp) acts) r2) as [[ds r3]|]; cbn in Em; rewrite <- Em; cbn [option_map]; [|reflexivity].
      unfold Spec.vals_tuple. destruct (all_vals ds); reflexivity.
  Qed.

  Lemma simN_program msem dotsem callsem awaitsem (HU : user_code_nested msem dotsem callsem awaitsem)
        (p : sprog) (Hsync : is_async (sp_cfg p) = false) (nm : option string) :
    simN nm top (let! d := spec msem dotsem callsem awaitsem (with_spawn true p) in to_val d)
                (let! d := spec msem dotsem callsem awaitsem (with_spawn false p) in to_val d).
  Proof.
    apply (walk_program (@pcode) pcode_class (fun A => @simN A nm)) with (okacts := top); try assumption.
    - intros A Q c. apply simN_refl.
    - intros A B Q R c1 c2 f1 f2. apply simN_bind.
    - intros C acts caps child _. apply simN_thread_step.
    - intros k. exact I.
  Qed.
End World.

(* As `SpecSpawn.spawn_macro_agrees_with_plain`, but user code may spawn threads itself (parametric
   code, e.g. nested `join_spawn!` invocations).  The plain program is read sequentially by `evalN`
   (a nested thread block runs its children in order, on the spot). *)
Theorem spawn_macro_agrees_with_plain_nested :
  forall (h : ev -> option val)
         (W : Type) (handle : option string -> ev -> W -> option val * W)
         msem dotsem callsem awaitsem (p : sprog) (nm : option string) (w : W) (sched : list nat),
    stateless h W handle ->
    user_code_nested msem dotsem callsem awaitsem ->
    is_async (sp_cfg p) = false ->
    let spawn_prog := (let! d := spec msem dotsem callsem awaitsem (with_spawn true p) in to_val d) in
    let plain_prog := (let! d := spec msem dotsem callsem awaitsem (with_spawn false p) in to_val d) in
    let s := run_thr handle sched (init nm spawn_prog w) in
    thr_finished 0 s = true ->
    result_of 0 s = Some (outN h nm plain_prog).
Proof.
  intros h W handle msem dotsem callsem awaitsem p nm w sched Hw HU Hsync spawn_prog plain_prog s Hfin.
  destruct (simN_program h msem dotsem callsem awaitsem HU p Hsync nm) as (Hp & _ & Hag).
  unfold s. rewrite (nested_run_is_evalN h W handle Hw spawn_prog nm w sched Hp Hfin).
  exact (f_equal Some (Hag [] [])).
Qed.
Print Assumptions spawn_macro_agrees_with_plain_nested.

Corollary spawn_macro_any_two_schedules_agree_nested :
  forall (h : ev -> option val)
         (W : Type) (handle : option string -> ev -> W -> option val * W)
         msem dotsem callsem awaitsem (p : sprog) (nm : option string) (w : W) (sched1 sched2 : list nat),
    stateless h W handle ->
    user_code_nested msem dotsem callsem awaitsem ->
    is_async (sp_cfg p) = false ->
    let spawn_prog := (let! d := spec msem dotsem callsem awaitsem (with_spawn true p) in to_val d) in
    let s1 := run_thr handle sched1 (init nm spawn_prog w) in
    let s2 := run_thr handle sched2 (init nm spawn_prog w) in
    thr_finished 0 s1 = true -> thr_finished 0 s2 = true ->
    result_of 0 s1 = result_of 0 s2.
Proof.
  intros h W handle msem dotsem callsem awaitsem p nm w sched1 sched2 Hw HU Hsync spawn_prog s1 s2 H1 H2.
  unfold s1, s2, spawn_prog.
  rewrite (spawn_macro_agrees_with_plain_nested h W handle msem dotsem callsem awaitsem p nm w sched1 Hw HU Hsync H1).
  rewrite (spawn_macro_agrees_with_plain_nested h W handle msem dotsem callsem awaitsem p nm w sched2 Hw HU Hsync H2).
  reflexivity.
Qed.
Print Assumptions spawn_macro_any_two_schedules_agree_nested.

(* the thread-spawning macro over parametric user code is parametric user code again: the
   hypothesis is closed under nesting *)
Lemma pcode_spec_spawn msem dotsem callsem awaitsem (p : sprog) :
  user_code_nested msem dotsem callsem awaitsem -> is_async (sp_cfg p) = false ->
  pcode dval_okP (spec msem dotsem callsem awaitsem (with_spawn true p)).
Proof.
  intros HU Hsync.
  refine (proj1 (walk_spec (@pcode) pcode_class (fun A => @simN (fun _ => None) A None) _ _ top _
                           msem dotsem callsem awaitsem HU p Hsync (fun _ => I))).
  - intros A Q c. apply simN_refl.
  - intros A B Q R c1 c2 f1 f2. apply simN_bind.
  - intros C acts caps child _. apply simN_thread_step.
Qed.

Module ExNested.
  Import ExSpawn.

  (* `recv.nested` runs the 2-branch program of `ExSpawn` as a thread-spawning macro of its own *)
  Definition inner : comp dval := spec msemE dotsemE callsemE awaitsemE (with_spawn true (prog2 false "dbl")).
  Definition dotsemN (o : operand) (sn : list (string * option val)) (recv : dval) : comp dval :=
    match o with
    | [TI x] => if String.eqb x "nested" then inner else dotsemE o sn recv
    | _ => dotsemE o sn recv
    end.

  Lemma user_code_nested_ex : user_code_nested msemE dotsemN callsemE awaitsemE.
  Proof.
    pose proof (user_code_ex_cls _ pcode_class) as HE. split.
    - apply (uc_msem _ _ _ _ _ HE).
    - intros o sn recv Hrecv. unfold dotsemN.
      assert (Hd : pcode dval_okP (dotsemE o sn recv)) by (apply (uc_dotsem _ _ _ _ _ HE), Hrecv).
      destruct o as [|[c j|x|l|d ts] [|]]; try exact Hd.
      destruct (String.eqb x "nested"); [|exact Hd].
      apply pcode_spec_spawn; [exact HE|reflexivity].
    - apply (uc_callsem _ _ _ _ _ HE).
    - apply (uc_awaitsem _ _ _ _ _ HE).
  Qed.

  (* join_spawn! { one -> nested,  two -> inc } : five threads, two levels *)
  Definition progN : sprog :=
    mkSprog (mkConfig false false false) [None; None]
            [ [ [NAct 0 (ini "one"); NAct 1 (dot false "nested")] ];
              [ [NAct 0 (ini "two"); NAct 1 (dot false "inc")] ] ] None.
  Definition spawnN : comp val := let! d := spec msemE dotsemN callsemE awaitsemE (with_spawn true progN) in to_val d.
  Definition plainN : comp val := let! d := spec msemE dotsemN callsemE awaitsemE (with_spawn false progN) in to_val d.

  Definition sched_rr : list nat := List.concat (repeat [0; 1; 2; 3; 4] 40).
  (* the first child runs ahead and spawns its own children before the caller spawns the second child *)
  Definition sched_deep : list nat := repeat 0 3 ++ repeat 1 20 ++ List.concat (repeat [4; 3; 2; 1; 0] 40).
  Definition runN (sched : list nat) := run_thr handleE sched (init (Some "main") spawnN 0).

  Definition expectedN : val := VTuple [VTuple [VInt 4; VInt 3]; VInt 3].

  Example plainN_value : outN h (Some "main") plainN = Some expectedN.
  Proof. vm_compute. reflexivity. Qed.
  Example spawnN_rr : result_of 0 (runN sched_rr) = Some (Some expectedN).
  Proof. vm_compute. reflexivity. Qed.
  Example spawnN_deep : result_of 0 (runN sched_deep) = Some (Some expectedN).
  Proof. vm_compute. reflexivity. Qed.
  (* handles differ between the two runs: the pool is ordered differently *)
  Example namesN_rr :
    map th_name (pool (runN sched_rr)) =
    [Some "main"; Some "main_join_0"; Some "main_join_1"; Some "main_join_0_join_0"; Some "main_join_0_join_1"].
  Proof. vm_compute. reflexivity. Qed.
  Example namesN_deep :
    map th_name (pool (runN sched_deep)) =
    [Some "main"; Some "main_join_0"; Some "main_join_0_join_0"; Some "main_join_0_join_1"; Some "main_join_1"].
  Proof. vm_compute. reflexivity. Qed.

  Example spawnN_all_schedules sched :
    thr_finished 0 (runN sched) = true -> result_of 0 (runN sched) = Some (Some expectedN).
  Proof.
    unfold runN, spawnN. intros Hfin. rewrite <- plainN_value.
    exact (spawn_macro_agrees_with_plain_nested h nat handleE msemE dotsemN callsemE awaitsemE progN
             (Some "main") 0 sched stateless_ex user_code_nested_ex eq_refl Hfin).
  Qed.
End ExNested.
