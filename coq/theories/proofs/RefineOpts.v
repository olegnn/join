(* Refinement WITH the macro options: den (gen cfg inp) = spec_opts (resolve cfg inp) (prepare cfg inp)
   for all eight kinds, EVERY setting of custom_joiner / lazy_branches / transpose_results and every input
   satisfying `RefineProg.wf_opts`; under the default options (`wf`) the right-hand side is `spec`. *)
From Join Require Import Tok Ir Gen Comp Denote Spec SpecOpts RefineProg RefineSteps SpecOptsDefault.

Section TopOpts.
  Variable msem : string -> option (list operand) -> dval -> list dval -> comp dval.
  Variable dotsem : operand -> list (string * option val) -> dval -> comp dval.
  Variable callsem : val -> list dval -> comp dval.
  Variable awaitsem : val -> comp val.

  (* no hypothesis on the abstract user-code semantics: the theorems hold for EVERY msem / dotsem /
     callsem / awaitsem *)

  Theorem gen_refines_spec_opts cfg inp e sp :
    wf_opts inp -> gen cfg inp = Ok e -> prepare cfg inp = Some sp ->
    den (user_names inp) msem dotsem callsem awaitsem e empty_env
    = spec_opts msem dotsem callsem awaitsem (resolve cfg inp) sp.
  Proof.
    intros Hwf Hg Hp.
    destruct (gen_rel cfg inp e sp Hwf Hg Hp) as (j & HR & Ho & Hun & <-).
    apply (gen_output_opts (user_names inp) msem dotsem callsem awaitsem cfg j sp HR Hun e Ho).
  Qed.

  Corollary gen_refines_spec_from_opts cfg inp e sp :
    wf inp -> gen cfg inp = Ok e -> prepare cfg inp = Some sp ->
    den (user_names inp) msem dotsem callsem awaitsem e empty_env = spec msem dotsem callsem awaitsem sp.
  Proof.
    intros Hwf Hg Hp.
    rewrite (gen_refines_spec_opts cfg inp e sp (wf_wf_opts inp Hwf) Hg Hp).
    assert (E : resolve cfg inp = default_opts (sp_cfg sp)).
    { unfold resolve. rewrite (wf_joiner _ Hwf), (wf_lazy _ Hwf), (wf_transpose _ Hwf).
      unfold prepare in Hp. destruct (all_some _) in Hp; [|discriminate]. inversion Hp. reflexivity. }
    rewrite E. apply spec_opts_default.
  Qed.
End TopOpts.

Print Assumptions gen_refines_spec_opts.
