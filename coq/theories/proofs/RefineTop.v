(* Refinement under the default options: den (gen cfg inp) = spec (prepare cfg inp) for every kind and every
   input satisfying `RefineProg.wf`, and its instances for the four synchronous kinds. *)
From Join Require Import Tok Ast Ir Gen Comp Denote Spec RefineProg RefineOpts.

Section Top.
  Variable msem : string -> option (list operand) -> dval -> list dval -> comp dval.
  Variable dotsem : operand -> list (string * option val) -> dval -> comp dval.
  Variable callsem : val -> list dval -> comp dval.
  Variable awaitsem : val -> comp val.

  Theorem gen_refines_spec cfg inp e sp :
    wf inp -> gen cfg inp = Ok e -> prepare cfg inp = Some sp ->
    den (user_names inp) msem dotsem callsem awaitsem e empty_env = spec msem dotsem callsem awaitsem sp.
  Proof. apply gen_refines_spec_from_opts. Qed.

  Theorem refine_join inp e sp :
    let cfg := {| is_async := false; is_try := false; is_spawn := false |} in
    wf inp -> gen cfg inp = Ok e -> prepare cfg inp = Some sp ->
    den (user_names inp) msem dotsem callsem awaitsem e empty_env = spec msem dotsem callsem awaitsem sp.
  Proof. intros cfg. apply gen_refines_spec. Qed.

  Theorem refine_try_join inp e sp :
    let cfg := {| is_async := false; is_try := true; is_spawn := false |} in
    wf inp -> gen cfg inp = Ok e -> prepare cfg inp = Some sp ->
    den (user_names inp) msem dotsem callsem awaitsem e empty_env = spec msem dotsem callsem awaitsem sp.
  Proof. intros cfg. apply gen_refines_spec. Qed.

  Corollary refine_join_spawn inp e sp :
    let cfg := {| is_async := false; is_try := false; is_spawn := true |} in
    wf inp -> gen cfg inp = Ok e -> prepare cfg inp = Some sp ->
    den (user_names inp) msem dotsem callsem awaitsem e empty_env = spec msem dotsem callsem awaitsem sp.
  Proof. intros cfg. apply gen_refines_spec. Qed.

  Corollary refine_try_join_spawn inp e sp :
    let cfg := {| is_async := false; is_try := true; is_spawn := true |} in
    wf inp -> gen cfg inp = Ok e -> prepare cfg inp = Some sp ->
    den (user_names inp) msem dotsem callsem awaitsem e empty_env = spec msem dotsem callsem awaitsem sp.
  Proof. intros cfg. apply gen_refines_spec. Qed.
End Top.

Print Assumptions refine_join.
Print Assumptions refine_try_join.
Print Assumptions gen_refines_spec.
