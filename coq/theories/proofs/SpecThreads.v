(* The tie between the reference semantics and the thread machine's block theorems: the step of a
   thread-spawning macro with more than one active branch, as Spec.v defines it, IS the
   `std_thread_step` shape that ThreadsProps.v proves to be a spawn-all / join-all block; with ONE
   active branch the step of every non-async macro is the sequential one. *)
From Join Require Import Tok Ast Comp Spec ThreadsProps.

Theorem spec_spawn_step_is_thread_step :
  forall msem dotsem callsem awaitsem (p : sprog) k st,
    is_async (sp_cfg p) = false -> is_spawn (sp_cfg p) = true ->
    Nat.ltb 1 (List.length (actives p k)) = true ->
    step_result msem dotsem callsem awaitsem p k st =
    std_thread_step (actives p k) (captures p (snap_of p st) k (actives p k))
                    (fun cp b => let! d := chain msem dotsem callsem p (snap_of p st) cp k st b in to_val d).
Proof.
  intros msem dotsem callsem awaitsem p k st Ha Hs Hm.
  unfold step_result. rewrite Ha, Hs, Hm. reflexivity.
Qed.
Print Assumptions spec_spawn_step_is_thread_step.

(* a step with ONE active branch of a non-async macro, thread-spawning or not, contains no thread
   operation of its own: it is the sequential step *)
Theorem spec_spawn_single_is_sequential :
  forall msem dotsem callsem awaitsem (p : sprog) k st b,
    is_async (sp_cfg p) = false -> actives p k = [b] ->
    step_result msem dotsem callsem awaitsem p k st =
    (let! cp := captures p (snap_of p st) k [b] in chain msem dotsem callsem p (snap_of p st) cp k st b).
Proof.
  intros msem dotsem callsem awaitsem p k st b Ha Hacts.
  unfold step_result. rewrite Ha, Hacts. cbn [List.length Nat.ltb Nat.leb andb].
  rewrite Bool.andb_false_r. reflexivity.
Qed.
Print Assumptions spec_spawn_single_is_sequential.
