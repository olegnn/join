(* NamesInj - C17: the names the generator makes up (Names.v) are pairwise different, and none of them can be a
   user identifier that does not start with `__`.  `gname` tags every generated name; `gen_names_distinct` is the one
   injectivity statement, the `n_*_inj` are its cases with an index. *)
From Coq Require Import DecimalString Decimal DecimalNat.
From Join Require Import Tok Names.

(* Tok.v opens string_scope, in which `<=?` is String.leb; put nat_scope back on top so that
   the numeric comparisons in is_digit parse as Nat.leb (string literals are unaffected). *)
Local Open Scope nat_scope.

Lemma dec_inj : forall a b, dec a = dec b -> a = b.
Proof.
  unfold dec. intros a b H.
  apply (f_equal NilEmpty.uint_of_string) in H.
  rewrite !NilEmpty.usu in H. injection H as H.
  apply (f_equal Nat.of_uint) in H.
  rewrite !DecimalNat.Unsigned.of_to in H. exact H.
Qed.

Definition is_digit (c : ascii) : bool := (48 <=? nat_of_ascii c) && (nat_of_ascii c <=? 57).
Fixpoint all_digits (s : string) : bool := match s with EmptyString => true | String c r => is_digit c && all_digits r end.

Lemma uint_digits : forall d, all_digits (NilEmpty.string_of_uint d) = true.
Proof.
  induction d; cbn [NilEmpty.string_of_uint all_digits]; try reflexivity;
    rewrite IHd; reflexivity.
Qed.

Lemma dec_digits : forall n, all_digits (dec n) = true.
Proof. intro n. unfold dec. apply uint_digits. Qed.

Lemma dec_nonempty : forall n, dec n <> EmptyString.
Proof.
  intros n H.
  assert (E : Nat.to_uint n = Nil).
  { unfold dec in H. destruct (Nat.to_uint n); cbn in H; try discriminate H. reflexivity. }
  apply (f_equal Nat.of_uint) in E.
  rewrite DecimalNat.Unsigned.of_to in E. cbn in E. subst n.
  vm_compute in H. discriminate H.
Qed.

Local Opaque dec.

Lemma app_dec_inj p i j : p +++ dec i = p +++ dec j -> i = j.
Proof. induction p as [|c p IH]; cbn; intros H; [apply dec_inj; exact H|injection H as H; auto]. Qed.

Lemma n_r_inj : forall i j, n_r i = n_r j -> i = j.
Proof. exact (app_dec_inj "__r"). Qed.
Lemma n_sr_inj : forall i j, n_sr i = n_sr j -> i = j.
Proof. exact (app_dec_inj "__sr"). Qed.
Lemma n_j_inj : forall i j, n_j i = n_j j -> i = j.
Proof. exact (app_dec_inj "__j"). Qed.

Lemma underscore_not_digit : is_digit "_"%char = false.
Proof. reflexivity. Qed.

Lemma digits_sep_inj : forall s s' r r',
  all_digits s = true -> all_digits s' = true ->
  s +++ String "_" r = s' +++ String "_" r' -> s = s' /\ r = r'.
Proof.
  induction s as [|c s IH]; intros [|c' s'] r r' D D' H; cbn in *.
  - injection H as H. auto.
  - injection H as Hc _. subst c'.
    rewrite underscore_not_digit in D'. discriminate D'.
  - injection H as Hc _. subst c.
    rewrite underscore_not_digit in D. discriminate D.
  - injection H as Hc H. subst c'.
    apply andb_true_iff in D. apply andb_true_iff in D'.
    destruct D as [_ D]. destruct D' as [_ D'].
    destruct (IH s' r r' D D' H) as [-> ->]. auto.
Qed.

Lemma n_ew_inj : forall b e i b' e' i', n_ew b e i = n_ew b' e' i' -> b = b' /\ e = e' /\ i = i'.
Proof.
  unfold n_ew. intros b e i b' e' i' H. cbn in H. injection H as H.
  apply digits_sep_inj in H; try apply dec_digits. destruct H as [Hb H].
  apply digits_sep_inj in H; try apply dec_digits. destruct H as [He Hi].
  repeat split; apply dec_inj; assumption.
Qed.

(* a tagged description of every generated name *)

Inductive gname := GR (i : nat) | GSR (k : nat) | GJ (i : nat) | GEW (b e i : nat)
                 | GV | GH | GRS | GInspect | GTb | GSpawnTokio | GHandlerTmp | GFailIndex | GFuture.
Definition gname_str (g : gname) : string :=
  match g with
  | GR i => n_r i | GSR k => n_sr k | GJ i => n_j i | GEW b e i => n_ew b e i
  | GV => n_v | GH => n_h | GRS => n_rs | GInspect => n_inspect | GTb => n_tb
  | GSpawnTokio => n_spawn_tokio | GHandlerTmp => n_handler_tmp | GFailIndex => n_fail_index | GFuture => n_future
  end.

Lemma gen_names_distinct : forall g g', gname_str g = gname_str g' -> g = g'.
Proof.
  intros g g' H. destruct g, g'; cbn [gname_str] in H; try reflexivity.
  (* names of two kinds differ in their third character, except r/rs, sr/spawn_tokio, h/handler, fail_index/future *)
  all: try (apply (f_equal (String.get 2)) in H; discriminate H).
  - apply n_r_inj in H. now subst.
  - (* dec i = "s" *) injection H as H. pose proof (dec_digits i) as D. rewrite H in D. discriminate D.
  - apply n_sr_inj in H. now subst.
  - discriminate H.
  - apply n_j_inj in H. now subst.
  - apply n_ew_inj in H as (-> & -> & ->). reflexivity.
  - discriminate H.
  - injection H as H. pose proof (dec_digits i) as D. rewrite <- H in D. discriminate D.
  - discriminate H.
  - discriminate H.
  - discriminate H.
  - discriminate H.
Qed.

Lemma gen_name_prefix : forall g, String.prefix "__" (gname_str g) = true.
Proof. destruct g; reflexivity. Qed.

(* hence a user identifier that does not start with "__" differs from every generated name *)
Lemma user_name_not_gen : forall x g, String.prefix "__" x = false -> x <> gname_str g.
Proof.
  intros x g Hx E. subst x. rewrite gen_name_prefix in Hx. discriminate Hx.
Qed.

(* boolean forms, convenient for rewriting inside `if String.eqb ..` *)
Lemma gname_eqb_neq : forall g g', g <> g' -> String.eqb (gname_str g) (gname_str g') = false.
Proof.
  intros g g' N. apply String.eqb_neq. intro E. apply N. apply gen_names_distinct; exact E.
Qed.

Lemma user_gname_eqb : forall x g, String.prefix "__" x = false -> String.eqb x (gname_str g) = false /\ String.eqb (gname_str g) x = false.
Proof.
  intros x g Hx. pose proof (user_name_not_gen x g Hx) as N.
  split; apply String.eqb_neq; congruence.
Qed.

Print Assumptions n_ew_inj.
Print Assumptions gen_names_distinct.
