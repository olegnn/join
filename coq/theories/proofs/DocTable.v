(* C01 / C11: the reference semantics says, operator by operator, what the README says.  Also the normal forms
   the other files reason with: of the meaning of an action (`sem_act_cases`) and of a wrapper (`sem_wrap_cases`),
   and of a step in the kinds without OS threads (`captures_before_chains_sequential`, `step_result_async` and
   its corollary `captures_before_chains_async`). *)
From Join Require Import Tok Ast Comp Std Denote Spec.

(* the README's operator table *)
Theorem documented_methods :
  doc_method Map = "map" /\ doc_method AndThen = "and_then" /\ doc_method Filter = "filter" /\
  doc_method Or = "or" /\ doc_method OrElse = "or_else" /\ doc_method MapErr = "map_err" /\
  doc_method Collect = "collect" /\ doc_method Chain = "chain" /\ doc_method FindMap = "find_map" /\
  doc_method FilterMap = "filter_map" /\ doc_method Enumerate = "enumerate" /\ doc_method Partition = "partition" /\
  doc_method Flatten = "flatten" /\ doc_method Fold = "fold" /\ doc_method TryFold = "try_fold" /\
  doc_method Find = "find" /\ doc_method Zip = "zip" /\ doc_method Unzip = "unzip" /\ doc_method Inspect = "inspect".
Proof. repeat split. Qed.

Section Doc.
  Variable msem : string -> option (list operand) -> dval -> list dval -> comp dval.
  Variable dotsem : operand -> list (string * option val) -> dval -> comp dval.
  Variable callsem : val -> list dval -> comp dval.
  Notation sem_node := (sem_node msem dotsem callsem).

  Definition is_method_op (c : comb) : bool :=
    match c with Initial | Then | Dot | UNWRAP | Inspect => false | _ => true end.

  (* the operators are the method operators and five special ones: every fact about the meaning of an
     action follows from these six shapes; a proof by this lemma has its cases in the order method operator,
     `Dot`, `Inspect`, `Then`, `Initial`, `UNWRAP` *)
  Lemma sem_act_cases (P : comp dval -> Prop) (async : bool) sn cp b e a recv :
    let c := a_comb a in
    let args := Spec.eval_args sn cp b e 0 c (exprs_of a) in
    (is_method_op c = true -> P (let! r := recv in let! ds := args in msem (doc_method c) (types_of a) r ds)) ->
    (c = Dot -> P (match a_ops a with [o] => let! r := recv in dotsem o sn r | _ => Panic P_STUCK end)) ->
    (c = Inspect ->
     P (if async
        then let! r := recv in let! ds := args in
             match ds with [f] => msem "inspect" None r [f] | _ => Panic P_STUCK end
        else let! ds := args in
             match ds with [f] => let! r := recv in inspect_sem callsem f r | _ => Panic P_STUCK end)) ->
    (c = Then ->
     P (let! ds := args in match ds with [f] => let! r := recv in apply callsem f [r] | _ => Panic P_STUCK end)) ->
    (c = Initial -> P (let! ds := args in match ds with [x] => Ret x | _ => Panic P_STUCK end)) ->
    (c = UNWRAP -> P (Panic P_STUCK)) ->
    P (sem_node async sn cp b (NAct e a) recv).
  Proof.
    intros c args Hmethod Hdot Hinspect Hthen Hinitial Hunwrap. subst c args. cbn [Spec.sem_node].
    destruct (a_comb a); try (apply Hmethod; reflexivity);
      [apply Hdot|apply Hinspect|apply Hthen|apply Hinitial|apply Hunwrap]; reflexivity.
  Qed.

  (* every method operator: receiver first, then the operands left to right, then THE documented method *)
  Theorem method_operator_means_documented_method async sn cp b e a recv :
    is_method_op (a_comb a) = true ->
    sem_node async sn cp b (NAct e a) recv =
    (let! r := recv in
     let! ds := Spec.eval_args sn cp b e 0 (a_comb a) (exprs_of a) in
     msem (doc_method (a_comb a)) (types_of a) r ds).
  Proof.
    intros H. apply sem_act_cases; intros Hc; [reflexivity|..]; rewrite Hc in H; discriminate H.
  Qed.

  (* `->` : call-with-value *)
  Theorem then_operator_calls_with_value async sn cp b e a recv :
    a_comb a = Then ->
    sem_node async sn cp b (NAct e a) recv =
    (let! ds := Spec.eval_args sn cp b e 0 Then (exprs_of a) in
     match ds with [f] => let! r := recv in apply callsem f [r] | _ => Panic P_STUCK end).
  Proof. destruct a as [c d m ops]; cbn; intros ->; reflexivity. Qed.

  (* `..` / `>.` : member access *)
  Theorem dot_operator_is_member_access async sn cp b e a recv o :
    a_comb a = Dot -> a_ops a = [o] ->
    sem_node async sn cp b (NAct e a) recv = (let! r := recv in dotsem o sn r).
  Proof. destruct a as [c d m ops]; cbn; intros -> ->; reflexivity. Qed.

  (* sync `??` : the callback sees the value, the value is passed through unchanged *)
  Theorem inspect_passes_value_through f v :
    inspect_sem callsem (DV f) (DV v) = (let! _ := apply callsem (DV f) [DV v] in Ret (DV v)).
  Proof. reflexivity. Qed.

  (* async `??` : FutureExt::inspect *)
  Theorem inspect_async_is_the_method sn cp b e a recv :
    a_comb a = Inspect ->
    sem_node true sn cp b (NAct e a) recv =
    (let! r := recv in let! ds := Spec.eval_args sn cp b e 0 Inspect (exprs_of a) in
     match ds with [f] => msem "inspect" None r [f] | _ => Panic P_STUCK end).
  Proof. destruct a as [c d m ops]; cbn; intros ->; reflexivity. Qed.

  (* the closure `|v| <inner over v>` a wrapper hands to its method *)
  Definition wrap_closure (async : bool) (sn : list (string * option val)) (cp : caps) (b : nat) (inner : list node) : dval :=
    DF (fun vs => match vs with
                  | [v] => let! d := sem_nodes msem dotsem callsem async sn cp b inner (Ret (DV v)) in to_val d
                  | _ => Panic P_ILLTYPED end).

  Lemma sem_node_wrap async sn cp b e a inner recv :
    sem_node async sn cp b (NWrap e a inner) recv =
    match a_comb a with
    | Inspect => if async then let! r := recv in msem "inspect" None r [wrap_closure async sn cp b inner]
                 else let! r := recv in inspect_sem callsem (wrap_closure async sn cp b inner) r
    | c => let! r := recv in msem (doc_method c) None r [wrap_closure async sn cp b inner]
    end.
  Proof. (* unfolded first so that the closure's loop reads `sem_node` as in `sem_nodes` *)
    cbn [Spec.sem_node]. reflexivity.
  Qed.

  (* `X >>> inner <<<` : the method of X applied to the closure |v| <inner over v> *)
  Theorem wrapper_means_method_over_closure async sn cp b e a inner recv :
    a_comb a <> Inspect ->
    sem_node async sn cp b (NWrap e a inner) recv =
    (let! r := recv in
     msem (doc_method (a_comb a)) None r
          [DF (fun vs => match vs with
                         | [v] => let! d := sem_nodes msem dotsem callsem async sn cp b inner (Ret (DV v)) in to_val d
                         | _ => Panic P_ILLTYPED end)]).
  Proof. intros H. rewrite sem_node_wrap. destruct (a_comb a); try reflexivity. contradiction H; reflexivity. Qed.

  (* a wrapper is `??` or a method operator *)
  Lemma sem_wrap_cases (P : comp dval -> Prop) (async : bool) sn cp b e a inner recv :
    let clo := wrap_closure async sn cp b inner in
    (a_comb a = Inspect ->
     P (if async then let! r := recv in msem "inspect" None r [clo] else let! r := recv in inspect_sem callsem clo r)) ->
    (a_comb a <> Inspect -> P (let! r := recv in msem (doc_method (a_comb a)) None r [clo])) ->
    P (sem_node async sn cp b (NWrap e a inner) recv).
  Proof.
    intros clo Hinspect Hmethod.
    assert (D : a_comb a = Inspect \/ a_comb a <> Inspect) by (destruct (a_comb a); auto; right; discriminate).
    destruct D as [E|E].
    - rewrite sem_node_wrap, E. apply Hinspect, E.
    - rewrite wrapper_means_method_over_closure by exact E. apply Hmethod, E.
  Qed.

  Theorem chain_is_left_to_right async sn cp b x t recv :
    sem_nodes msem dotsem callsem async sn cp b (x :: t) recv =
    sem_nodes msem dotsem callsem async sn cp b t (sem_node async sn cp b x recv).
  Proof. reflexivity. Qed.

  (* C11: a hoisted block operand is not evaluated in the chain: the chain uses the captured value *)
  Theorem hoisted_operand_uses_captured_value sn cp b e i c o r v :
    hoistable c o = true -> lookup_cap cp (b, e, i) = Some v ->
    Spec.eval_args sn cp b e i c (o :: r) =
    (let! ds := Spec.eval_args sn cp b e (S i) c r in Ret (DV v :: ds)).
  Proof. intros H L. cbn [Spec.eval_args]. rewrite H, L. reflexivity. Qed.

  (* C11: captures of a step are evaluated branch by branch, inside a branch in tree (position) order *)
  Theorem captures_branch_then_position p sn k b r :
    captures p sn k (b :: r) =
    (let! c1 := capture_nodes sn b (tree p b k) in let! c2 := captures p sn k r in Ret (c1 ++ c2)).
  Proof. reflexivity. Qed.
End Doc.

(* C11 for join! / try_join! (`captures_before_chains_async` below for the async kinds): the captures of step k
   run after step k-1 has produced the state (they are the first thing `step_result k st` does) and before any
   chain of step k *)
Theorem captures_before_chains_sequential msem dotsem callsem awaitsem (p : sprog) k st :
  is_async (sp_cfg p) = false -> is_spawn (sp_cfg p) = false ->
  step_result msem dotsem callsem awaitsem p k st =
  (let! cp := captures p (snap_of p st) k (actives p k) in
   if Nat.ltb 1 (List.length (actives p k))
   then let! ds := mapM (chain msem dotsem callsem p (snap_of p st) cp k st) (actives p k) in vals_tuple ds
   else match actives p k with [b] => chain msem dotsem callsem p (snap_of p st) cp k st b | _ => Panic P_STUCK end).
Proof. intros Ha Hs. unfold step_result. rewrite Ha, Hs. reflexivity. Qed.

(* async: the futures of the active branches are built in branch order (for the spawn kinds each is handed to
   tokio::spawn, which takes a future or a ready value), then joined; a single future is awaited in place *)
Lemma step_result_async msem dotsem callsem awaitsem (p : sprog) k st :
  is_async (sp_cfg p) = true ->
  step_result msem dotsem callsem awaitsem p k st =
  (let! cp := captures p (snap_of p st) k (actives p k) in
   if Nat.ltb 1 (List.length (actives p k))
   then let! futs := mapM (fun b => let! d := chain msem dotsem callsem p (snap_of p st) cp k st b in
                                    if is_spawn (sp_cfg p)
                                    then match d with DFut _ | DV _ => Ret d | _ => Panic P_ILLTYPED end
                                    else Ret d) (actives p k) in
        let! v := (if is_try (sp_cfg p) then try_join_seq awaitsem futs [] else join_seq awaitsem futs) in
        Ret (DV v)
   else match actives p k with
        | [b] => let! d := chain msem dotsem callsem p (snap_of p st) cp k st b in
                 let! v := await_d awaitsem d in Ret (DV v)
        | _ => Panic P_STUCK
        end).
Proof. intros Ha. unfold step_result. rewrite Ha. reflexivity. Qed.

Theorem captures_before_chains_async msem dotsem callsem awaitsem (p : sprog) k st :
  is_async (sp_cfg p) = true ->
  exists body, step_result msem dotsem callsem awaitsem p k st =
               (let! cp := captures p (snap_of p st) k (actives p k) in body cp).
Proof. intros Ha. rewrite step_result_async by assumption. eexists (fun cp => _). reflexivity. Qed.
