(* Refinement, step level and whole macro, for every kind and EVERY setting of custom_joiner /
   lazy_branches / transpose_results: den (gen_output j) = spec_opts (opts_of j) sp under Rel_opts.
   Tuples of chains, extraction patterns with the active-branch filter, the per-step failure
   check of the try kinds, the transposer, thread builders / spawn / join, join! / try_join! /
   await, the custom joiner, handlers.
   All statements are for ALL branch counts and depth profiles (induction on the number of
   remaining steps).  The options enter in two places only: the step statement (`gen_step` with
   `wrap_branch`) and the step sequencing (`join_steps`).  One step is proved against the
   interface `step_hyp_opts` (`step_opts_all`); `step_hyp` / `step_all` (Section DefaultSteps) are
   the same against the step of Spec.v, under the default options. *)
From Coq Require Import ZArith Lia FunctionalExtensionality FinFun.
From Join Require Import Tok Names Ast Ir Gen Comp Std Denote Spec SpecOpts NamesInj CompLaws Render SpecProps
     GenPropsBase RefineBase RefineChain RefineProg SpecOptsDefault.
From Join Require GenPropsE.

Lemma nodup_flat_opt {A} (l : list (option A)) : NoDup (flat_map opt_list l) ->
  forall i i' x, nth_error l i = Some (Some x) -> nth_error l i' = Some (Some x) -> i = i'.
Proof.
  induction l as [|o r IH]; intros Hnd i i' x Hi Hi'; [destruct i; discriminate|].
  cbn [flat_map] in Hnd. apply NoDup_app_inv in Hnd. destruct Hnd as (N1 & N2 & Hd).
  assert (Hin : forall k, nth_error r k = Some (Some x) -> In x (flat_map opt_list r)).
  { intros k Hk. apply in_flat_map. exists (Some x). split; [eapply nth_error_In; eauto|left; reflexivity]. }
  destruct i as [|i], i' as [|i']; cbn [nth_error] in *.
  - reflexivity.
  - inversion Hi; subst o. exfalso. apply (Hd x); [left; reflexivity|eauto].
  - inversion Hi'; subst o. exfalso. apply (Hd x); [left; reflexivity|eauto].
  - f_equal. eapply IH; eauto.
Qed.

Lemma two_shape {T U} (l : list T) (x : T -> U) (y : U) : 2 <= List.length l ->
  match l with [e] => x e | _ => y end = y.
Proof. destruct l as [|a [|b r]]; cbn; intros; try lia; reflexivity. Qed.

Definition pat_var (p : rpat) : option string :=
  match p with PIdent x => Some x | PUser _ x => Some x | PTuple _ => None end.

Fixpoint upd_list (ρ : env) (xs : list string) (ds : list dval) : env :=
  match xs, ds with
  | x :: xs', d :: ds' => upd_list (upd ρ x d) xs' ds'
  | _, _ => ρ
  end.

Fixpoint bind_pats (ps : list rpat) (vs : list val) (ρ : env) {struct ps} : option env :=
  match ps, vs with
  | [], [] => Some ρ
  | q :: ps', v :: vs' => match bind_pat q (DV v) ρ with Some ρ' => bind_pats ps' vs' ρ' | None => None end
  | _, _ => None
  end.

Lemma bind_pat_tuple ps d ρ :
  bind_pat (PTuple ps) d ρ =
  match ps with
  | [q] => bind_pat q d ρ
  | _ => match d with DV (VTuple vs) => bind_pats ps vs ρ | _ => None end
  end.
Proof.
  destruct ps as [|p [|q r]]; reflexivity.
Qed.

Lemma bind_pats_vars : forall ps xs vs ρ, map pat_var ps = map Some xs ->
  bind_pats ps vs ρ = if Nat.eqb (List.length vs) (List.length xs) then Some (upd_list ρ xs (map DV vs)) else None.
Proof.
  induction ps as [|p ps IH]; intros xs vs ρ H; destruct xs as [|x xs]; try discriminate.
  - destruct vs; reflexivity.
  - cbn [map] in H. inversion H as [[Hp Hps]].
    destruct vs as [|v vs]; cbn [bind_pats List.length Nat.eqb]; [reflexivity|].
    assert (E : bind_pat p (DV v) ρ = Some (upd ρ x (DV v))).
    { destruct p; cbn [pat_var] in Hp; inversion Hp; subst; reflexivity. }
    rewrite E, (IH xs vs _ Hps). cbn [map upd_list]. reflexivity.
Qed.

Section Steps.
  Variable unames : list string.
  Variable msem : string -> option (list operand) -> dval -> list dval -> comp dval.
  Variable dotsem : operand -> list (string * option val) -> dval -> comp dval.
  Variable callsem : val -> list dval -> comp dval.
  Variable awaitsem : val -> comp val.

  Notation D := (den unames msem dotsem callsem awaitsem).
  Notation X := (exec unames msem dotsem callsem awaitsem).
  Notation execs := (execs unames msem dotsem callsem awaitsem).
  Notation dens := (dens unames msem dotsem callsem awaitsem).
  Notation snapρ := (snap unames).
  Notation app_d := (apply callsem).
  Notation inspect_clo := (inspect_clo unames msem dotsem callsem awaitsem).

  Variable cfg : config.
  Variable j : jout.
  Variable sp : sprog.
  Hypothesis HR : Rel_opts cfg j sp.
  Hypothesis Hun : unames = flat_map opt_list (map pat_name (j_pats j)).

  Notation n := (j_branch_count j).
  Definition bname (b : nat) : string := branch_name j b.
  Definition vars : list string := map bname (seq 0 n).
  Definition pats : list rpat := map (branch_pat j) (seq 0 n).

  Lemma unames_user : Forall user_ident unames.
  Proof. rewrite Hun. apply (r_unames_user _ _ _ HR). Qed.

  Lemma bname_cases b :
    (exists toks x, nth b (j_pats j) None = Some (toks, x) /\ bname b = x /\ user_ident x /\ In x unames
                    /\ nth_error (map pat_name (j_pats j)) b = Some (Some x))
    \/ (nth b (j_pats j) None = None /\ bname b = n_r b).
  Proof.
    unfold bname, branch_name.
    destruct (nth b (j_pats j) None) as [[toks x]|] eqn:E; [left|right; auto].
    exists toks, x.
    assert (Hb : b < List.length (j_pats j)).
    { destruct (Nat.lt_ge_cases b (List.length (j_pats j))) as [H|H]; [exact H|].
      rewrite nth_overflow in E by exact H. discriminate. }
    assert (Hne : nth_error (map pat_name (j_pats j)) b = Some (Some x)).
    { rewrite nth_error_map. rewrite (nth_error_nth' _ None Hb), E. reflexivity. }
    assert (Hin : In x unames).
    { rewrite Hun. apply in_flat_map. exists (Some x). split; [eapply nth_error_In; eauto|left; reflexivity]. }
    repeat split; auto.
    pose proof unames_user as Hu. rewrite Forall_forall in Hu. apply Hu. exact Hin.
  Qed.

  Lemma bname_pat_var b : pat_var (branch_pat j b) = Some (bname b).
  Proof. unfold branch_pat, bname, branch_name. destruct (nth b (j_pats j) None) as [[toks x]|]; reflexivity. Qed.

  Lemma bname_inj b b' : bname b = bname b' -> b = b'.
  Proof.
    intros E.
    destruct (bname_cases b) as [(t & x & _ & Ex & Hu & _ & Hn)|[_ Ex]];
      destruct (bname_cases b') as [(t' & x' & _ & Ex' & Hu' & _ & Hn')|[_ Ex']].
    - rewrite Ex, Ex' in E. subst x'.
      eapply nodup_flat_opt; eauto. rewrite <- Hun. rewrite Hun. apply (r_unames_nodup _ _ _ HR).
    - rewrite Ex, Ex' in E. subst x. exfalso. eapply (user_ident_neq_gname _ (GR b')); eauto.
    - rewrite Ex, Ex' in E. subst x'. exfalso. eapply (user_ident_neq_gname _ (GR b)); eauto.
    - rewrite Ex, Ex' in E. apply n_r_inj. exact E.
  Qed.

  Lemma bname_not_gname b g : (forall i, g <> GR i) -> bname b <> gname_str g.
  Proof.
    intros Hg. destruct (bname_cases b) as [(t & x & _ & Ex & Hu & _)|[_ Ex]]; rewrite Ex.
    - apply user_ident_neq_gname. exact Hu.
    - apply (gname_neq (GR b) g). apply not_eq_sym. apply Hg.
  Qed.

  Lemma gname_not_uname' g : ~ In (gname_str g) unames.
  Proof. apply gname_not_uname. apply unames_user. Qed.

  Record Inv (ρ : env) (st : state) : Prop := {
    inv_len : List.length st = n;
    inv_names : forall b, b < n -> ρ (bname b) = nth b st None;
    inv_inspect : is_async cfg = false -> ρ n_inspect = Some (DFn inspect_clo);
    inv_tb : is_spawn cfg = true -> is_async cfg = false -> ρ n_tb = Some DTb;
    inv_tokio : is_spawn cfg = true -> is_async cfg = true -> ρ n_spawn_tokio = Some DSpawnTokio
  }.

  Definition temp_name (x : string) : Prop :=
    exists g, x = gname_str g /\ (forall i, g <> GR i) /\ g <> GInspect /\ g <> GTb /\ g <> GSpawnTokio.

  Lemma Inv_upd_temp ρ st x d : Inv ρ st -> temp_name x -> Inv (upd ρ x d) st.
  Proof.
    intros [H1 H2 H3 H4 H5] (g & -> & Hg & Hi & Ht & Hk). split; auto.
    - intros b Hb. rewrite upd_other; auto. apply bname_not_gname. exact Hg.
    - intros Ha. rewrite upd_other; auto. apply (gname_neq GInspect g). congruence.
    - intros Hs Ha. rewrite upd_other; auto. apply (gname_neq GTb g). congruence.
    - intros Hs Ha. rewrite upd_other; auto. apply (gname_neq GSpawnTokio g). congruence.
  Qed.

  Lemma temp_sr k : temp_name (n_sr k).
  Proof. exists (GSR k). repeat split; try discriminate. Qed.
  Lemma Inv_upd_sr k ρ st d : Inv ρ st -> Inv (upd ρ (n_sr k) d) st.
  Proof. intros HI. apply Inv_upd_temp; [exact HI|apply temp_sr]. Qed.
  Lemma temp_ew b e i : temp_name (n_ew b e i).
  Proof. exists (GEW b e i). repeat split; try discriminate. Qed.
  Lemma temp_j b : temp_name (n_j b).
  Proof. exists (GJ b). repeat split; try discriminate. Qed.
  Lemma temp_fail : temp_name n_fail_index.
  Proof. exists GFailIndex. repeat split; try discriminate. Qed.
  Lemma temp_v : temp_name n_v.
  Proof. exists GV. repeat split; try discriminate. Qed.

  Lemma Inv_ext_env ρ st cp : Inv ρ st -> Inv (ext_env ρ cp) st.
  Proof.
    revert ρ. induction cp as [|[[[b e] i] v] r IH]; intros ρ H; [exact H|].
    rewrite ext_env_cons. apply IH. apply Inv_upd_temp; [exact H|apply temp_ew].
  Qed.

  Lemma Inv_set1 ρ st b d : Inv ρ st -> b < n -> Inv (upd ρ (bname b) d) (set1 st b d).
  Proof.
    intros [H1 H2 H3 H4 H5] Hb. split.
    - rewrite set1_length. exact H1.
    - intros b' Hb'. destruct (Nat.eq_dec b' b) as [->|Hne].
      + rewrite upd_same, nth_set1_eq; [reflexivity|lia].
      + rewrite upd_other, nth_set1_neq; auto. intro E. apply Hne. apply bname_inj. exact E.
    - intros Ha. rewrite upd_other; auto. apply not_eq_sym. apply (bname_not_gname b GInspect). discriminate.
    - intros Hs Ha. rewrite upd_other; auto. apply not_eq_sym. apply (bname_not_gname b GTb). discriminate.
    - intros Hs Ha. rewrite upd_other; auto. apply not_eq_sym. apply (bname_not_gname b GSpawnTokio). discriminate.
  Qed.

  Lemma Inv_set_all : forall acts ds ρ st,
    Inv ρ st -> (forall b, In b acts -> b < n) ->
    Inv (upd_list ρ (map bname acts) ds) (set_all st acts ds).
  Proof.
    induction acts as [|b r IH]; intros ds ρ st HI Hlt; [exact HI|].
    destruct ds as [|d ds]; [exact HI|]. cbn [map upd_list set_all].
    apply IH.
    - apply Inv_set1; auto. apply Hlt. left. reflexivity.
    - intros b' Hb'. apply Hlt. right. exact Hb'.
  Qed.

  Lemma snap_combine ρ : forall (ps : list (option (operand * string))) (st : state),
    List.length st = List.length ps ->
    (forall i toks x, nth_error ps i = Some (Some (toks, x)) -> ρ x = nth i st None) ->
    map (fun x => (x, shown (ρ x))) (flat_map opt_list (map pat_name ps)) =
    flat_map (fun nv => match fst nv with Some x => [(x, shown (snd nv))] | None => [] end)
             (combine (map pat_name ps) st).
  Proof.
    induction ps as [|p ps IH]; intros st Hl H; [reflexivity|].
    destruct st as [|o st]; [discriminate|]. cbn [map flat_map combine fst snd].
    rewrite map_app. f_equal.
    - destruct p as [[toks x]|]; cbn [pat_name opt_list map]; [|reflexivity].
      rewrite (H 0 toks x eq_refl). reflexivity.
    - apply IH. { cbn in Hl. lia. } intros i toks x Hi. apply (H (S i) toks x Hi).
  Qed.

  Lemma snap_inv ρ st : Inv ρ st -> snapρ ρ = snap_of sp st.
  Proof.
    intros HI. unfold snap, snap_of. rewrite (r_names _ _ _ HR), Hun.
    apply (snap_combine ρ (j_pats j) st).
    - rewrite (inv_len _ _ HI). symmetry. apply (rel_n_pats _ _ _ HR).
    - intros i toks x Hi.
      assert (Hb : i < n).
      { rewrite <- (rel_n_pats _ _ _ HR). apply nth_error_Some. congruence. }
      rewrite <- (inv_names _ _ HI i Hb). unfold bname, branch_name.
      rewrite (nth_error_nth _ _ None Hi). reflexivity.
  Qed.

  Lemma nth_vars b : b < n -> nth b vars "" = bname b.
  Proof.
    intros Hb. unfold vars. apply nth_error_nth. rewrite nth_error_map.
    rewrite (nth_error_nth' (seq 0 n) 0) by (rewrite seq_length; exact Hb).
    rewrite seq_nth by exact Hb. reflexivity.
  Qed.

  Definition chain_ok (k : nat) (c : rexpr) (bt : nat * list node) : Prop :=
    exists c0, c = wrap_branch j k (fst bt) c0 /\
      render_nodes (j_cfg j) (fst bt) (snd bt) ([], wrap_into_block j (RVar (nth (fst bt) vars "")))
      = Ok (nodes_defs (fst bt) (snd bt), c0).

  Lemma gen_branches_spec k : forall chs trs b defs cs,
    Forall2 (Forall2 step_rel) chs trs -> gen_branches j k vars b chs = Ok (defs, cs) ->
    defs = flat_map (fun bt => nodes_defs (fst bt) (snd bt)) (spec_branches k b trs) /\
    Forall2 (chain_ok k) cs (spec_branches k b trs).
  Proof.
    intros chs trs b defs cs H. revert b defs cs.
    induction H as [|ch tr rest trest Hct Hrest IH]; intros b defs cs Hg.
    - cbn in Hg. inversion Hg; subst. split; [reflexivity|constructor].
    - cbn [gen_branches spec_branches] in *.
      destruct (gen_branches j k vars (S b) rest) as [[dtl ctl]| |] eqn:Etl; cbn [rbind] in Hg; try discriminate.
      destruct (IH _ _ _ Etl) as [IHd IHc].
      destruct (nth_error ch k) as [acts|] eqn:Ek.
      + destruct (Forall2_nth_error _ _ _ Hct _ _ Ek) as (t & Et & Hne & Hn & Hok). rewrite Et.
        destruct acts as [|a0 acts']; [congruence|].
        rewrite (gen_branch_step_is_render j b (nth b vars "") (a0 :: acts') t Hn) in Hg.
        destruct (render_nodes (j_cfg j) b t ([], wrap_into_block j (RVar (nth b vars "")))) as [[ds c0]| |] eqn:Er;
          cbn [rbind] in Hg; try discriminate.
        inversion Hg; subst defs cs. cbn [fst snd flat_map].
        pose proof (render_nodes_defs (j_cfg j) b t _ _ _ _ Er Hok) as Hd. cbn [app] in Hd. subst ds.
        split; [rewrite IHd; reflexivity|]. constructor; [|exact IHc].
        exists c0. cbn [fst snd]. split; [reflexivity|exact Er].
      + assert (Et : nth_error tr k = None).
        { apply nth_error_None. rewrite <- (Forall2_length _ _ _ Hct). apply nth_error_None. exact Ek. }
        rewrite Et. inversion Hg; subst defs cs. split; assumption.
  Qed.

  Lemma execs_step_defs k : forall acts ρ,
    execs (flat_map (fun b => nodes_defs b (tree sp b k)) acts) ρ =
    let! cp := captures sp (snapρ ρ) k acts in Ret (ext_env ρ cp).
  Proof.
    induction acts as [|b r IH]; intros ρ; cbn [flat_map captures]; [reflexivity|].
    rewrite execs_app, (execs_nodes_defs _ _ _ _ _ unames_user). nb.
    apply bind_ext. intros c1. nb. rewrite IH, (snap_ext_env _ unames_user). nb.
    apply bind_ext. intros c2. nb. rewrite ext_env_app. reflexivity.
  Qed.

  Definition step_keys (k : nat) (acts : list nat) : list key :=
    flat_map (fun b => nodes_keys b (tree sp b k)) acts.

  Lemma captures_keys sn k : forall acts,
    leaves (fun cp => map fst cp = step_keys k acts) (captures sp sn k acts).
  Proof.
    induction acts as [|b r IH]; cbn [captures step_keys flat_map]. { constructor. reflexivity. }
    eapply leaves_bind; [apply capture_nodes_keys|]. intros c1 H1.
    eapply leaves_bind; [apply IH|]. intros c2 H2. constructor. rewrite map_app, H1, H2. reflexivity.
  Qed.

  Lemma step_keys_nodup k : forall acts, NoDup acts ->
    (forall b, In b acts -> NoDup (nodes_pos (tree sp b k))) -> NoDup (step_keys k acts).
  Proof.
    induction acts as [|b r IH]; intros Hnd Hp; cbn [step_keys flat_map]; [constructor|].
    inversion Hnd as [|? ? Hnin Hnd']; subst. apply NoDup_app_intro.
    - apply nodes_keys_nodup. apply Hp. left. reflexivity.
    - apply IH; auto. intros b' Hb'. apply Hp. right. exact Hb'.
    - intros key H1 H2. apply nodes_keys_in in H1. destruct H1 as (e & i & -> & _).
      apply in_flat_map in H2. destruct H2 as (b' & Hb' & H2).
      apply nodes_keys_in in H2. destruct H2 as (e' & i' & E & _). inversion E; subst. contradiction.
  Qed.

  Lemma actives_keys_nodup k : NoDup (step_keys k (actives sp k)).
  Proof.
    apply step_keys_nodup. { apply actives_NoDup. }
    intros b Hb. destruct (rel_tree_ok _ _ _ HR k b Hb) as (acts & _ & Hn & _).
    eapply nest_pos_nodup; eauto.
  Qed.

  (* the hoisted definitions of step k, `let __srK = rhs;`, then `post`: the definitions are the captures, and what
     follows runs with them bound *)
  Lemma step_defs_sem k ρ st rhs post A (K : env -> comp A) (K' : caps -> comp A) :
    Inv ρ st ->
    (forall cp, map fst cp = step_keys k (actives sp k) -> Inv (ext_env ρ cp) st ->
       (let! d := D rhs (ext_env ρ cp) in bind (execs post (upd (ext_env ρ cp) (n_sr k) d)) K) = K' cp) ->
    bind (execs (flat_map (fun b => nodes_defs b (tree sp b k)) (actives sp k) ++ [SLet (PIdent (n_sr k)) rhs] ++ post) ρ) K
    = let! cp := captures sp (snap_of sp st) k (actives sp k) in K' cp.
  Proof.
    intros HI H. rewrite execs_app, execs_step_defs. nb. rewrite (snap_inv ρ st HI).
    eapply bind_ext_leaves; [apply captures_keys|]. intros cp Hkeys. nb.
    rewrite execs_app. cbn [execs]. rewrite exec_SLet_ident. nb.
    apply H; [exact Hkeys|apply Inv_ext_env; exact HI].
  Qed.

  Lemma start_sem ρ st b : Inv ρ st -> b < n -> (forall b' e i, bname b <> n_ew b' e i) ->
    forall cp, D (wrap_into_block j (RVar (nth b vars ""))) (ext_env ρ cp) = start sp st b.
  Proof.
    intros HI Hb Hne cp. rewrite (nth_vars b Hb). unfold wrap_into_block, start.
    rewrite (r_cfg_j _ _ _ HR), (r_cfg_sp _ _ _ HR).
    assert (E : D (RVar (bname b)) (ext_env ρ cp) = get st b).
    { rewrite den_RVar, ext_env_not_ew by exact Hne. rewrite (inv_names _ _ HI b Hb). reflexivity. }
    destruct (is_async cfg).
    - rewrite den_RAsyncMove. cbn [execs]. nb. rewrite E. reflexivity.
    - rewrite den_RBlock_nil. exact E.
  Qed.

  Lemma bname_not_ew b b' e i : bname b <> n_ew b' e i.
  Proof. apply (bname_not_gname b (GEW b' e i)). discriminate. Qed.

  Lemma chain_in_step k ρ st cp b ds c0 :
    Inv ρ st -> In b (actives sp k) -> map fst cp = step_keys k (actives sp k) ->
    render_nodes (j_cfg j) b (tree sp b k) ([], wrap_into_block j (RVar (nth b vars ""))) = Ok (ds, c0) ->
    D c0 (ext_env ρ cp) = chain msem dotsem callsem sp (snap_of sp st) cp k st b.
  Proof.
    intros HI Hb Hk Hr. unfold chain.
    pose proof (rel_actives_lt _ _ _ HR k b Hb) as Hbn.
    destruct (rel_tree_ok _ _ _ HR k b Hb) as (acts & _ & Hn & Hok).
    rewrite <- (start_sem ρ st b HI Hbn (bname_not_ew b) cp).
    rewrite <- (snap_inv ρ st HI).
    rewrite (r_cfg_sp _ _ _ HR), <- (r_cfg_j _ _ _ HR).
    eapply (render_nodes_sem unames msem dotsem callsem awaitsem unames_user); eauto.
    - apply chain_env_ext; [exact unames_user| |].
      + rewrite (r_cfg_j _ _ _ HR). apply (inv_inspect _ _ HI).
      + rewrite Hk. apply actives_keys_nodup.
    - intros key Hin. apply lookup_cap_in. rewrite Hk. unfold step_keys. apply in_flat_map. eauto.
  Qed.

  Definition chain_of (k : nat) (c : rexpr) (b : nat) : Prop :=
    exists c0 ds, c = wrap_branch j k b c0 /\
      render_nodes (j_cfg j) b (tree sp b k) ([], wrap_into_block j (RVar (nth b vars ""))) = Ok (ds, c0).

  Lemma plain_builders k sr : is_async cfg = false -> is_spawn cfg && Nat.ltb 1 (active_count j k) = false ->
    thread_builders j k sr = ([], []).
  Proof.
    intros Ha Hs. unfold thread_builders. rewrite (r_cfg_j _ _ _ HR), Ha. cbn [orb].
    destruct (is_spawn cfg); cbn [negb orb]; [|reflexivity].
    cbn [andb] in Hs. destruct (active_count j k) as [|[|c]]; try reflexivity. discriminate.
  Qed.

  Lemma bind_pat_var p x d ρ : pat_var p = Some x -> bind_pat p d ρ = Some (upd ρ x d).
  Proof. destruct p; cbn [pat_var]; intros H; inversion H; subst; reflexivity. Qed.

  Lemma extract_pats k : extract_step j (n_sr k) pats k
                         = SLet (PTuple (map (branch_pat j) (actives sp k))) (RVar (n_sr k)).
  Proof.
    unfold extract_step, pats. rewrite enum_filter_map, (rel_actives _ _ _ HR). reflexivity.
  Qed.

  Lemma extract_refines k ρ st srv :
    Inv ρ st -> ρ (n_sr k) = Some srv -> k < j_max j ->
    forall A (K : env -> comp A) (K' : list dval -> comp A),
      (forall ρ' ds, Inv ρ' (set_all st (actives sp k) ds) -> List.length ds = List.length (actives sp k) ->
                     K ρ' = K' ds) ->
      bind (X (extract_step j (n_sr k) pats k) ρ) K = bind (extract (actives sp k) srv) K'.
  Proof.
    intros HI Hsr Hk A K K' HK.
    rewrite extract_pats, exec_SLet, den_RVar, Hsr. nb. rewrite bind_pat_tuple.
    pose proof (rel_actives_nonempty _ _ _ HR k Hk) as Hne.
    pose proof (rel_actives_lt _ _ _ HR k) as Hlt.
    assert (Hvars : map pat_var (map (branch_pat j) (actives sp k)) = map Some (map bname (actives sp k))).
    { rewrite !map_map. apply map_ext. intros b. apply bname_pat_var. }
    destruct (actives sp k) as [|b1 [|b2 r]] eqn:Eacts; [congruence| |].
    - cbn [map extract]. rewrite (bind_pat_var _ _ _ _ (bname_pat_var b1)). nb.
      apply HK; [|reflexivity].
      apply (Inv_set_all [b1] [srv] ρ st HI). rewrite <- Eacts in *; exact Hlt.
    - unfold extract.
      remember (b1 :: b2 :: r) as acts.
      rewrite two_shape by (subst acts; cbn; lia).
      destruct srv as [[]| | | | | |]; try reflexivity. nb.
      rewrite (bind_pats_vars _ _ vs ρ Hvars). rewrite map_length.
      destruct (Nat.eqb (List.length vs) (List.length acts)) eqn:El; nb; [|reflexivity].
      apply HK.
      + apply Inv_set_all; [exact HI|exact Hlt].
      + rewrite map_length. apply Nat.eqb_eq. exact El.
  Qed.

  Lemma den_bname ρ st b : Inv ρ st -> b < n -> D (RVar (bname b)) ρ = get st b.
  Proof. intros HI Hb. rewrite den_RVar, (inv_names _ _ HI b Hb). reflexivity. Qed.

  Lemma dens_vars ρ st : Inv ρ st -> dens ρ (map RVar vars) = mapM (get st) (seq 0 n).
  Proof.
    intros HI. rewrite dens_mapM. unfold vars. rewrite !mapM_map. apply mapM_ext_in.
    intros b Hb. apply in_seq in Hb. apply (den_bname ρ st b HI). lia.
  Qed.

  Lemma final_tuple_sem ρ st : Inv ρ st -> D (tuple_of vars) ρ = final_tuple sp st.
  Proof.
    intros HI. unfold tuple_of, final_tuple. rewrite (rel_n_trees _ _ _ HR).
    rewrite den_RTuple.
    pose proof (dens_vars ρ st HI) as Hd. pose proof (den_bname ρ st 0 HI) as H0.
    unfold vars in *.
    destruct (j_branch_count j) as [|[|m]] eqn:En.
    - reflexivity.
    - cbn [seq map mapM]. nb. rewrite H0 by lia. nb. symmetry. apply bind_ret_r.
    - rewrite two_shape, Hd by (rewrite !map_length, seq_length; lia).
      eapply bind_ext_leaves; [apply leaves_mapM_length|]. intros ds Hl. rewrite seq_length in Hl.
      destruct ds as [|d1 [|d2 r]]; try (cbn in Hl; lia). reflexivity.
  Qed.

  (* `step_hyp_opts` below with the step of Spec.v in place of `step_result_opts`; holds under the default
     options (`step_all`) *)
  Definition step_hyp : Prop :=
    forall k ρ st step, Inv ρ st -> k < j_max j -> gen_step j k vars (n_sr k) = Ok step ->
    forall A (K : env -> comp A) (K' : dval -> comp A),
      (forall ρ' srv, Inv ρ' st -> ρ' (n_sr k) = Some srv -> K ρ' = K' srv) ->
      bind (execs step ρ) K = bind (step_result msem dotsem callsem awaitsem sp k st) K'.

  Notation glue_d := (glue awaitsem).
  Lemma den_RGlue0 recv m ρ : D (RGlue recv m []) ρ = let! r := D recv ρ in glue_d m r [].
  Proof. rewrite den_RGlue, dens_nil. nb. reflexivity. Qed.
  Lemma den_RGlue1 recv m a ρ : D (RGlue recv m [a]) ρ = let! r := D recv ρ in let! d := D a ρ in glue_d m r [d].
  Proof. rewrite den_RGlue, dens_cons, dens_nil. apply bind_ext. intros r. nb. reflexivity. Qed.
  Lemma glue_map r f : glue_d "map" r [DF f] = std_map r f. Proof. reflexivity. Qed.
  Lemma glue_and_then r f : glue_d "and_then" r [DF f] = std_and_then awaitsem r f. Proof. reflexivity. Qed.
  Lemma glue_as_ref v : glue_d "as_ref" (DV v) [] = Ret (DV v). Proof. reflexivity. Qed.
  Lemma glue_unwrap_or r d : glue_d "unwrap_or" r [DV d] = std_unwrap_or r d. Proof. reflexivity. Qed.
  Lemma glue_unwrap r : glue_d "unwrap" r [] = std_unwrap r. Proof. reflexivity. Qed.
  Lemma glue_spawn name f : glue_d "spawn" (DBuilder name) [DF f] = std_spawn name f. Proof. reflexivity. Qed.
  Lemma glue_join h : glue_d "join" (DV (VHandle h)) [] = std_join h. Proof. reflexivity. Qed.

  Lemma upd_list_other : forall xs ds ρ y, ~ In y xs -> upd_list ρ xs ds y = ρ y.
  Proof.
    induction xs as [|x xs IH]; intros ds ρ y Hy; [reflexivity|].
    destruct ds as [|d ds]; [reflexivity|]. cbn [upd_list]. rewrite IH.
    - apply upd_other. intro E. apply Hy. left. congruence.
    - intro Hin. apply Hy. right. exact Hin.
  Qed.

  Lemma dens_upd_list : forall xs ds ρ, NoDup xs -> List.length ds = List.length xs ->
    dens (upd_list ρ xs ds) (map RVar xs) = Ret ds.
  Proof.
    intros xs ds ρ Hnd Hl. rewrite dens_mapM, mapM_map.
    assert (H : forall (l : list string) (es : list dval) ρ', NoDup l -> List.length es = List.length l ->
              forall ρ2, (forall y, In y l -> ρ2 y = upd_list ρ' l es y) -> mapM (fun x => D (RVar x) ρ2) l = Ret es).
    { induction l as [|x l IH]; intros es ρ' Hn Hlen ρ2 H2; destruct es as [|d es]; try discriminate; [reflexivity|].
      apply NoDup_cons_iff in Hn. destruct Hn as [Hx Hn]. cbn [mapM]. rewrite den_RVar, (H2 x) by (left; reflexivity).
      cbn [upd_list]. rewrite upd_list_other by assumption. rewrite upd_same. nb.
      rewrite (IH es (upd ρ' x d)); auto. intros y Hy. apply H2. right. exact Hy. }
    apply (H xs ds ρ Hnd Hl). reflexivity.
  Qed.

  Definition rvars : list string := map n_r (seq 0 n).
  Definition call_handler_block : rexpr :=
    RBlock [SLet (PTuple (map PIdent rvars)) (RVar n_rs)] (RCall (RVar n_h) (map RVar rvars)).

  Lemma rvars_nodup : NoDup rvars.
  Proof.
    unfold rvars.
    apply FinFun.Injective_map_NoDup; [intros a b; apply n_r_inj|apply seq_NoDup].
  Qed.
  Lemma rvars_not_h : ~ In n_h rvars.
  Proof.
    unfold rvars. intro H. apply in_map_iff in H. destruct H as (i & E & _).
    revert E. apply (gname_neq (GR i) GH). discriminate.
  Qed.

  Lemma call_handler_sem ρ rs hd : ρ n_rs = Some rs -> ρ n_h = Some hd ->
    D call_handler_block ρ = call_handler callsem sp hd rs.
  Proof.
    intros Hrs Hh. unfold call_handler_block, call_handler. rewrite (rel_n_trees _ _ _ HR).
    rewrite den_RBlock. cbn [execs]. rewrite exec_SLet, den_RVar, Hrs. nb. rewrite bind_pat_tuple.
    pose proof rvars_nodup as Hnd. pose proof rvars_not_h as Hnh.
    assert (Hlen : List.length rvars = n) by (unfold rvars; rewrite map_length, seq_length; reflexivity).
    assert (Hvars : map pat_var (map PIdent rvars) = map Some rvars) by (rewrite map_map; reflexivity).
    pose proof (rel_n_pos _ _ _ HR) as Hpos.
    assert (Hcall : forall ds, List.length ds = n ->
              D (RCall (RVar n_h) (map RVar rvars)) (upd_list ρ rvars ds) = app_d hd ds).
    { intros ds Hl. rewrite den_RCall_var, den_RVar, upd_list_other, Hh by exact Hnh. nb.
      rewrite dens_upd_list by (auto; congruence). nb. reflexivity. }
    unfold rvars in *. destruct n as [|[|m]] eqn:En; [lia| |].
    - cbn [seq map] in *. cbn [bind_pat]. nb. apply (Hcall [rs]). reflexivity.
    - rewrite two_shape by (rewrite !map_length, seq_length; lia).
      destruct rs as [[]| | | | | |]; try reflexivity. nb.
      rewrite (bind_pats_vars _ _ vs ρ Hvars). rewrite Hlen.
      destruct (Nat.eqb (List.length vs) (S (S m))) eqn:El; nb; [|reflexivity].
      apply Hcall. rewrite map_length. apply Nat.eqb_eq. exact El.
  Qed.

  Lemma glue_iter vs : glue_d "iter" (DV (VList vs)) [] = Ret (DV (VList vs)). Proof. reflexivity. Qed.
  Lemma glue_position vs f : glue_d "position" (DV (VList vs)) [DF f] = let! r := position f vs 0 in Ret (DV r).
  Proof. reflexivity. Qed.
  Lemma glue_as_ref_d d : glue_d "as_ref" d [] = match d with DV _ => Ret d | _ => Panic P_ILLTYPED end.
  Proof. destruct d; reflexivity. Qed.

  (* `x.as_ref().map(|_| true).unwrap_or(false)` classifies the value of x *)
  Lemma is_succ_sem ρ x d : ρ x = Some d ->
    D (is_succ x) ρ = let! b := classify d in Ret (DV (VBool b)).
  Proof.
    intros Hx. unfold is_succ.
    rewrite !den_RGlue1, den_RGlue0, den_RVar, Hx, den_RClosureIgn, den_RBool. nb. rewrite glue_as_ref_d.
    destruct d as [v| | | | | |]; nb; try reflexivity.
    rewrite glue_map.
    destruct v; cbn [std_map classify]; nb; try reflexivity;
      rewrite ?den_RBool; nb; cbn [to_val]; nb; rewrite glue_unwrap_or; reflexivity.
  Qed.

  Fixpoint find_false (bs : list bool) : option nat :=
    match bs with
    | [] => None
    | false :: _ => Some 0
    | true :: r => match find_false r with Some m => Some (S m) | None => None end
    end.

  Lemma position_not ρ : forall (bs : list bool) (i : Z),
    position (fun vs => match vs with
                        | [v] => let! d := D (RNot (RVar n_v)) (upd ρ n_v (DV v)) in to_val d
                        | _ => Panic P_ILLTYPED end) (map VBool bs) i
    = Ret (match find_false bs with Some m => VSome (VInt (i + Z.of_nat m)) | None => VNone end).
  Proof.
    induction bs as [|b r IH]; intros i; cbn [map position find_false]; [reflexivity|].
    rewrite den_RNot, den_RVar, upd_same. nb. cbn [to_val]. nb.
    destruct b; cbn [negb].
    - rewrite IH. destruct (find_false r) as [m|]; [|reflexivity].
      f_equal. f_equal. f_equal. lia.
    - f_equal. f_equal. f_equal. lia.
  Qed.

  Lemma checks_sem ρ : forall xs ds, Forall2 (fun x d => ρ x = Some d) xs ds ->
    dens ρ (map is_succ xs) = let! oks := mapM classify ds in Ret (map (fun b => DV (VBool b)) oks).
  Proof.
    induction 1 as [|x d xs ds Hx Hr IH]; cbn [map mapM]; [reflexivity|].
    rewrite dens_cons, (is_succ_sem ρ x d Hx), IH. nb. apply bind_ext. intros b. nb.
    apply bind_ext. intros bs. nb. reflexivity.
  Qed.

  Lemma first_false_find : forall (oks : list bool) (ds : list dval), List.length oks = List.length ds ->
    first_false oks ds = match find_false oks with Some m => nth_error ds m | None => None end.
  Proof.
    induction oks as [|b r IH]; intros ds Hl; destruct ds as [|d ds]; try discriminate; cbn [first_false find_false].
    - reflexivity.
    - destruct b; [|reflexivity]. rewrite IH by (cbn in Hl; lia).
      destruct (find_false r); reflexivity.
  Qed.

  Lemma find_false_lt : forall (oks : list bool) m, find_false oks = Some m -> m < List.length oks /\ nth_error oks m = Some false.
  Proof.
    induction oks as [|b r IH]; intros m H; cbn [find_false] in H; [discriminate|].
    destruct b.
    - destruct (find_false r) as [m'|] eqn:E; [|discriminate]. inversion H; subst.
      destruct (IH m' eq_refl) as [H1 H2]. split; [cbn; lia|exact H2].
    - inversion H; subst. split; [cbn; lia|reflexivity].
  Qed.

  Lemma match_arms_rank ρ (A : nat * string -> rexpr) : forall (act : list (nat * string)) o m x,
    nth_error act m = Some x ->
    match_arms unames msem dotsem callsem awaitsem ρ (Z.of_nat (o + m))
      (map (fun nv => (fst nv, A (snd nv))) (enum_from o act)) = D (A x) ρ.
  Proof.
    induction act as [|a r IH]; intros o m x Hm; [destruct m; discriminate|].
    cbn [enum_from map fst snd]. rewrite match_arms_cons.
    destruct m as [|m]; cbn [nth_error] in Hm.
    - injection Hm as ->. rewrite Nat.add_0_r, Z.eqb_refl. reflexivity.
    - destruct (Z.eqb_spec (Z.of_nat o) (Z.of_nat (o + S m))) as [E|_]; [lia|].
      replace (o + S m) with (S o + m) by lia. apply IH. exact Hm.
  Qed.

  Lemma mapM_classify_nth : forall ds, leaves (fun oks : list bool => List.length oks = List.length ds /\
      forall m, nth_error oks m = Some false -> exists d, nth_error ds m = Some d /\ cls d = Some false)
    (mapM classify ds).
  Proof.
    induction ds as [|d ds IH]; cbn [mapM].
    - constructor. split; [reflexivity|]. intros [|m]; discriminate.
    - assert (Hc : leaves (fun b => cls d = Some b) (classify d)).
      { rewrite classify_cls. destruct (cls d); constructor; reflexivity. }
      eapply leaves_bind; [exact Hc|]. intros b Hb.
      eapply leaves_bind; [apply IH|]. intros bs [Hl Hn]. constructor. split; [cbn [List.length]; rewrite Hl; reflexivity|].
      intros [|m] Hm; cbn [nth_error] in *.
      + injection Hm as ->. eauto.
      + apply Hn. exact Hm.
  Qed.

  Lemma fail_check_sem ρ (acts : list nat) (ds : list dval) (els : rexpr) :
    Forall2 (fun b d => ρ (bname b) = Some d) acts ds ->
    D (RIfLetSome n_fail_index
         (RGlue (RGlue (RArray (map (fun iv : nat * string => is_succ (snd iv)) (map (fun b => (b, bname b)) acts))) "iter" [])
                "position" [RClosure n_v (RNot (RVar n_v))])
         (RBlock [] (RMatchIdx (RVar n_fail_index)
                       (map (fun nv : nat * (nat * string) =>
                               (fst nv, RGlue (RVar (snd (snd nv))) "map" [RClosureIgn RUnreachable]))
                            (enum_from 0 (map (fun b => (b, bname b)) acts)))))
         els) ρ
    = let! oks := mapM classify ds in
      match first_false oks ds with
      | Some d => std_map d (fun _ => Panic P_UNREACHABLE)
      | None => D els ρ
      end.
  Proof.
    intros HF.
    rewrite den_RIfLetSome, den_RGlue1, den_RGlue0, den_RArray, den_RClosure. nb.
    rewrite !map_map. cbn [snd].
    assert (HF' : Forall2 (fun x d => ρ x = Some d) (map bname acts) ds).
    { clear -HF. induction HF; cbn [map]; constructor; auto. }
    rewrite <- (map_map bname is_succ), (checks_sem ρ _ _ HF'). nb.
    eapply bind_ext_leaves; [apply (mapM_classify_nth ds)|]. intros oks [Hlen Hnth]. nb.
    rewrite all_vals_map_DV. nb. rewrite glue_iter. nb. rewrite glue_position, position_not. nb.
    rewrite (first_false_find oks ds Hlen).
    destruct (find_false oks) as [m|] eqn:Ef; [|reflexivity].
    destruct (find_false_lt oks m Ef) as [Hm Hf].
    destruct (Hnth m Hf) as (d & Hd & Hc). rewrite Hd.
    rewrite den_RBlock_nil. rewrite den_RMatchIdx, den_RVar, upd_same. nb.
    assert (Hb : exists b, nth_error acts m = Some b /\ ρ (bname b) = Some d).
    { clear -HF Hd. revert m Hd. induction HF as [|b0 d0 acts ds H0 Hr IH]; intros m Hd; destruct m; cbn [nth_error] in *; try discriminate.
      - inversion Hd; subst. eauto.
      - eauto. }
    destruct Hb as (b & Hb & Hρ).
    replace (Z.of_nat 0 + Z.of_nat m)%Z with (Z.of_nat (0 + m)) by lia.
    rewrite (match_arms_rank _ (fun x : nat * string => RGlue (RVar (snd x)) "map" [RClosureIgn RUnreachable])
                             (map (fun b => (b, bname b)) acts) 0 m (b, bname b)).
    2:{ rewrite nth_error_map, Hb. reflexivity. }
    cbn [snd]. rewrite den_RGlue1, den_RVar, den_RClosureIgn.
    rewrite upd_other by (apply (bname_not_gname b GFailIndex); discriminate).
    rewrite Hρ. nb. rewrite glue_map.
    rewrite !(std_map_failure _ _ Hc). reflexivity.
  Qed.

  Lemma transposer_cons2 x y l ret :
    transposer (x :: y :: l) ret =
    match transposer (y :: l) ret with
    | Some acc => Some (RGlue (RVar x) "and_then" [RClosure x acc])
    | None => None
    end.
  Proof. reflexivity. Qed.

  Lemma transposer_sem ret :
    (forall ρ st, Inv ρ st -> D ret ρ = final_tuple sp st) ->
    forall bs t, transposer (map bname bs) ret = Some t -> (forall b, In b bs -> b < n) ->
    forall ρ st, Inv ρ st -> D t ρ = transpose awaitsem sp bs st.
  Proof.
    intros Hret. induction bs as [|b r IH]; intros t Ht Hlt ρ st HI; [discriminate Ht|].
    assert (Hb : b < n) by (apply Hlt; left; reflexivity).
    destruct r as [|b2 r'].
    - cbn [map transposer] in Ht. injection Ht as <-. cbn [transpose].
      rewrite den_RGlue1, (den_bname ρ st b HI Hb), den_RClosure. apply bind_ext. intros d. nb.
      rewrite glue_map. f_equal.
      extensionality vs. destruct vs as [|v [|]]; try reflexivity.
      rewrite Hret with (st := set1 st b (DV v)); [reflexivity|]. apply Inv_set1; auto.
    - cbn [map] in Ht, IH. rewrite transposer_cons2 in Ht.
      destruct (transposer (bname b2 :: map bname r') ret) as [acc|] eqn:Eacc; [|discriminate Ht].
      injection Ht as <-. cbn [transpose].
      rewrite den_RGlue1, (den_bname ρ st b HI Hb), den_RClosure. apply bind_ext. intros d. nb.
      rewrite glue_and_then. f_equal.
      extensionality vs. destruct vs as [|v [|]]; try reflexivity.
      rewrite (IH acc eq_refl) with (st := set1 st b (DV v)); [reflexivity| |].
      + intros b' Hb'. apply Hlt. right. exact Hb'.
      + apply Inv_set1; auto.
  Qed.

  Lemma set_all_nth : forall acts ds (st : state), NoDup acts -> List.length ds = List.length acts ->
    (forall b, In b acts -> b < List.length st) ->
    Forall2 (fun b d => nth b (set_all st acts ds) None = Some d) acts ds.
  Proof.
    induction acts as [|a r IH]; intros ds st Hnd Hl Hlt; destruct ds as [|d ds]; try discriminate; [constructor|].
    inversion Hnd; subst. cbn [set_all]. constructor.
    - rewrite nth_set_all_notin by assumption. apply nth_set1_eq. apply Hlt. left. reflexivity.
    - apply IH; auto. intros b Hb. rewrite set1_length. apply Hlt. right. exact Hb.
  Qed.

  Lemma count_active_filter k : forall m b, count_active j k b m = filter (is_active j k) (seq b m).
  Proof.
    induction m as [|m IH]; intros b; cbn [count_active seq filter]; [reflexivity|].
    rewrite IH. reflexivity.
  Qed.
  Lemma active_branches_eq k : active_branches j k = actives sp k.
  Proof. unfold active_branches. rewrite count_active_filter, (rel_actives _ _ _ HR). reflexivity. Qed.

  Definition is_builder (d : dval) : Prop := match d with DBuilder _ => True | _ => False end.

  Lemma thread_builder_leaves i : leaves is_builder (thread_builder i).
  Proof.
    unfold thread_builder. constructor. intros cur. destruct (tb_name cur i); constructor. exact I.
  Qed.

  Lemma Inv_upd_list_temp : forall xs ds ρ st, Inv ρ st -> (forall x, In x xs -> temp_name x) ->
    Inv (upd_list ρ xs ds) st.
  Proof.
    induction xs as [|x xs IH]; intros ds ρ st HI Ht; [exact HI|].
    destruct ds as [|d ds]; [exact HI|]. cbn [upd_list]. apply IH.
    - apply Inv_upd_temp; [exact HI|]. apply Ht. left. reflexivity.
    - intros y Hy. apply Ht. right. exact Hy.
  Qed.

  Lemma execs_tbs : forall acts ρ, ρ n_tb = Some DTb ->
    execs (map (fun b => SLet (PIdent (n_j b)) (RCall (RVar n_tb) [RUsize b])) acts) ρ =
    let! bs := mapM (fun b => thread_builder (Z.of_nat b)) acts in Ret (upd_list ρ (map n_j acts) bs).
  Proof.
    induction acts as [|b r IH]; intros ρ Htb; cbn [map execs mapM]; [reflexivity|].
    rewrite exec_SLet_ident, den_RCall_var, den_RVar, Htb. nb.
    rewrite dens_cons, den_RUsize, dens_nil. nb. cbn [apply]. nb.
    apply bind_ext. intros d. nb. rewrite IH.
    - nb. apply bind_ext. intros ds. nb. reflexivity.
    - rewrite upd_other; [exact Htb|]. apply (gname_neq GTb (GJ b)). discriminate.
  Qed.

  Lemma upd_list_Forall2 : forall xs ds ρ, NoDup xs -> List.length ds = List.length xs ->
    Forall2 (fun x d => upd_list ρ xs ds x = Some d) xs ds.
  Proof.
    induction xs as [|x xs IH]; intros ds ρ Hnd Hl; destruct ds as [|d ds]; try discriminate; [constructor|].
    inversion Hnd; subst. cbn [upd_list]. constructor.
    - rewrite upd_list_other by assumption. apply upd_same.
    - apply IH; auto.
  Qed.

  Lemma mapM_to_val {A B} (f : A -> comp dval) (K : list val -> comp B) : forall l,
    (forall x, leaves is_DV (f x)) ->
    bind (mapM f l) (fun ds => match all_vals ds with Some vs => K vs | None => Panic P_ILLTYPED end)
    = bind (mapM (fun x => bind (f x) to_val) l) K.
  Proof.
    intros l Hf. revert K. induction l as [|x r IH]; intros K; cbn [mapM]; [reflexivity|]. nb.
    eapply bind_ext_leaves; [apply Hf|]. intros d Hd. destruct d as [v| | | | | |]; try contradiction.
    cbn [to_val]. nb.
    transitivity (bind (mapM (fun x => bind (f x) to_val) r) (fun vs => K (v :: vs))).
    - rewrite <- (IH (fun vs => K (v :: vs))). apply bind_ext. intros ds. nb. cbn [all_vals].
      destruct (all_vals ds); reflexivity.
    - apply bind_ext. intros ys. reflexivity.
  Qed.

  Lemma mapM_to_val' {A B C} (f : A -> comp dval) (R : list val -> comp C) (K2 : C -> comp B) l :
    (forall x, leaves is_DV (f x)) ->
    bind (mapM f l) (fun ds => bind (match all_vals ds with Some vs => R vs | None => Panic P_ILLTYPED end) K2)
    = bind (mapM (fun x => bind (f x) to_val) l) (fun vs => bind (R vs) K2).
  Proof.
    intros Hf. rewrite <- (mapM_to_val f (fun vs => bind (R vs) K2) l Hf).
    apply bind_ext. intros ds. destruct (all_vals ds); reflexivity.
  Qed.

  Lemma spawn_builders k sr : is_async cfg = false -> is_spawn cfg && Nat.ltb 1 (active_count j k) = true ->
    thread_builders j k sr =
    (map (fun b => SLet (PIdent (n_j b)) (RCall (RVar n_tb) [RUsize b])) (actives sp k),
     [SLet (PIdent sr)
           (RTuple (map (fun ib : nat * nat => RGlue (RGlue (RField (RVar sr) (fst ib)) "join" []) "unwrap" [])
                        (enum_from 0 (actives sp k))))]).
  Proof.
    intros Ha Hs. apply andb_prop in Hs. destruct Hs as [Hs Hm].
    unfold thread_builders, indexed_sr. rewrite (r_cfg_j _ _ _ HR), Ha, Hs, Hm, active_branches_eq. cbn [orb negb].
    destruct (active_count j k) as [|[|c]]; try discriminate. reflexivity.
  Qed.

  Definition join_unwrap (v : val) : comp dval :=
    let! r := (match v with VHandle h => std_join h | _ => Panic P_ILLTYPED end) in std_unwrap r.

  Lemma join_unwrap_DV v : leaves is_DV (join_unwrap v).
  Proof.
    unfold join_unwrap. destruct v; try apply L_Panic. cbn [std_join bind]. apply L_Vis || apply L_Join. intros r.
    destruct r; cbn [std_unwrap bind]; constructor. exact I.
  Qed.

  Lemma all_vals_DV : forall ds, Forall is_DV ds -> exists vs, all_vals ds = Some vs.
  Proof.
    induction 1 as [|d ds Hd Hr [vs IH]]; [exists []; reflexivity|].
    destruct d; try contradiction. cbn [all_vals]. rewrite IH. eauto.
  Qed.

  Lemma rewrap_DV acts w : leaves (Forall is_DV) (rewrap acts w).
  Proof.
    unfold rewrap. destruct acts as [|b1 [|b2 r]].
    - destruct w; try apply L_Panic. apply (leaves_mapM is_DV). intros i _. destruct (nth_error vs i); constructor. exact I.
    - constructor. constructor; [exact I|constructor].
    - destruct w; try apply L_Panic. apply (leaves_mapM is_DV). intros i _. destruct (nth_error vs i); constructor. exact I.
  Qed.

  Definition rewrapped (rew : list dval) : dval :=
    match rew with [d] => d | _ => DV (VTuple (match all_vals rew with Some l => l | None => [] end)) end.

  (* the re-wrapping tuple `(Ok(__srK.0), ..)` of the async try kinds reads the payload by index, as `rewrap`
     does; both are a `mapM` over `seq 0 (number of active branches)`, and every component is a plain value, so
     the tuple is built *)
  Lemma rewrap_sem k ρ w : ρ (n_sr k) = Some (DV w) -> actives sp k <> [] ->
    D (RTuple (map (fun ib : nat * nat => ROk (indexed_sr j (n_sr k) k (fst ib))) (enum_from 0 (actives sp k)))) ρ
    = let! rew := rewrap (actives sp k) w in Ret (rewrapped rew).
  Proof.
    intros Hsr Hne. unfold indexed_sr. rewrite (rel_active_count _ _ _ HR).
    destruct (actives sp k) as [|b1 [|b2 r]] eqn:Eacts; [congruence| |].
    - cbn [List.length Nat.ltb Nat.leb enum_from map fst]. rewrite den_RTuple, den_ROk, den_RVar, Hsr. reflexivity.
    - remember (b1 :: b2 :: r) as acts.
      assert (Hl : 2 <= List.length acts) by (subst acts; cbn; lia).
      assert (Hm : Nat.ltb 1 (List.length acts) = true) by (apply Nat.ltb_lt; lia).
      rewrite Hm.
      rewrite den_RTuple, two_shape by (rewrite map_length, enum_from_length; exact Hl).
      assert (Hre : rewrap acts w = match w with
                                    | VTuple ws => mapM (fun i => match nth_error ws i with
                                                                   | Some x => Ret (DV (VOk x))
                                                                   | None => Panic P_ILLTYPED end) (seq 0 (List.length acts))
                                    | _ => Panic P_ILLTYPED end) by (subst acts; reflexivity).
      rewrite Hre.
      assert (Hel : forall ib : nat * nat,
                 D (ROk (RField (RVar (n_sr k)) (fst ib))) ρ =
                 match w with
                 | VTuple ws => match nth_error ws (fst ib) with Some x => Ret (DV (VOk x)) | None => Panic P_ILLTYPED end
                 | _ => Panic P_ILLTYPED end).
      { intros ib. rewrite den_ROk, den_RField, den_RVar, Hsr. nb.
        destruct w; try reflexivity. destruct (nth_error vs (fst ib)); reflexivity. }
      rewrite dens_mapM, mapM_map, (mapM_ext_in _ _ _ (fun ib _ => Hel ib)).
      destruct w as [| | | | | | | | |ws| |]; try (subst acts; reflexivity).
      rewrite <- (mapM_map (fun i => match nth_error ws i with Some x => Ret (DV (VOk x)) | None => Panic P_ILLTYPED end) fst).
      rewrite enum_from_fst.
      eapply bind_ext_leaves.
      { apply leaves_and; [apply leaves_mapM_length|apply (leaves_mapM is_DV)].
        intros i _. destruct (nth_error ws i); constructor. exact I. }
      intros rew [Hrl Hrd]. rewrite seq_length in Hrl.
      destruct (all_vals_DV rew Hrd) as (vs & Ev). unfold rewrapped. rewrite Ev.
      destruct rew as [|d1 [|d2 rr]]; cbn in Hrl; try lia. reflexivity.
  Qed.

  Lemma inactive_eq k : filter (fun b => negb (active sp k b)) (seq 0 (List.length (sp_trees sp)))
                        = filter (fun b => negb (is_active j k b)) (seq 0 n).
  Proof.
    rewrite (rel_n_trees _ _ _ HR). apply filter_ext. intros b. rewrite (rel_active _ _ _ HR). reflexivity.
  Qed.

  Notation so := (opts_of j).
  Notation step_result_opts := (step_result_opts msem dotsem callsem awaitsem so sp).
  Notation steps_opts := (steps_opts msem dotsem callsem awaitsem so sp).
  Notation branch_arg := (branch_arg msem dotsem callsem so sp).

  (* the statements of a step: the thread builders (thread kinds with several active branches), the hoisted
     definitions, `let __srK = <the chains combined>;`, the joins of the threads *)
  Lemma gen_step_inv k sr step : gen_step j k vars sr = Ok step ->
    exists pre cs post, Forall2 (chain_of k) cs (actives sp k) /\
      step = pre ++ flat_map (fun b => nodes_defs b (tree sp b k)) (actives sp k)
             ++ [SLet (PIdent sr) (GenPropsE.step_rhs j k cs)] ++ post /\
      (pre, post) = (if is_async cfg then ([], []) else thread_builders j k sr).
  Proof.
    intros Hg. destruct (GenPropsE.gen_step_shape _ _ _ _ _ Hg) as (pre & defs & cs & post & -> & Hpp & Eb).
    rewrite (r_cfg_j _ _ _ HR) in Hpp.
    destruct (gen_branches_spec k _ _ _ _ _ (r_chains _ _ _ HR) Eb) as [Hd Hc].
    rewrite (rel_spec_branches sp k) in Hd, Hc. rewrite flat_map_concat_map, map_map, <- flat_map_concat_map in Hd. cbn [fst snd] in Hd.
    rewrite Forall2_map_r in Hc.
    exists pre, cs, post. split; [|split; [rewrite Hd; reflexivity|exact Hpp]].
    eapply Forall2_impl; [|exact Hc]. cbn beta. intros c b (c0 & E & Hr). cbn [fst snd] in *.
    exists c0, (nodes_defs b (tree sp b k)). split; assumption.
  Qed.

  Definition lazy_wrap (c : rexpr) : rexpr := if j_lazy j then RMoveThunk c else c.

  Lemma wrap_single k b c : Nat.ltb 1 (active_count j k) = false -> wrap_branch j k b c = c.
  Proof. intros Hm. unfold wrap_branch. rewrite Hm. reflexivity. Qed.

  Lemma wrap_multi k b c : Nat.ltb 1 (active_count j k) = true ->
    wrap_branch j k b c =
    if is_spawn cfg then
      if is_async cfg then RBlock [] (RCall (RVar n_spawn_tokio) [RBoxPin (lazy_wrap c)])
      else RBlock [] (RGlue (RGlue (RVar (n_j b)) "spawn" [lazy_wrap c]) "unwrap" [])
    else lazy_wrap c.
  Proof. intros Hm. unfold wrap_branch, lazy_wrap. rewrite Hm, (r_cfg_j _ _ _ HR). reflexivity. Qed.

  Lemma single_chain k ρ st cp cs :
    Nat.ltb 1 (active_count j k) = false -> k < j_max j -> Inv ρ st ->
    Forall2 (chain_of k) cs (actives sp k) -> map fst cp = step_keys k (actives sp k) ->
    exists b c, actives sp k = [b] /\ cs = [c] /\
                D c (ext_env ρ cp) = chain msem dotsem callsem sp (snap_of sp st) cp k st b.
  Proof.
    intros Hm Hk HI Hcs Hkeys.
    pose proof (rel_actives_nonempty _ _ _ HR k Hk) as Hne.
    assert (Hl1 : List.length (actives sp k) <= 1).
    { rewrite <- (rel_active_count _ _ _ HR). apply Nat.ltb_ge in Hm. lia. }
    destruct (actives sp k) as [|b [|b2 r]] eqn:Eacts; [congruence| |cbn in Hl1; lia].
    inversion Hcs as [|c ? cs' ? (c0 & ds & Ec & Hr) Hrest]; subst. inversion Hrest; subst.
    exists b, (wrap_branch j k b c0). repeat split. rewrite (wrap_single k b c0 Hm).
    apply (chain_in_step k ρ st cp b ds c0 HI); [rewrite Eacts; left; reflexivity|rewrite Eacts; exact Hkeys|exact Hr].
  Qed.

  Lemma branch_arg_sem k ρ st cp b ds c0 :
    Inv ρ st -> In b (actives sp k) -> map fst cp = step_keys k (actives sp k) ->
    render_nodes (j_cfg j) b (tree sp b k) ([], wrap_into_block j (RVar (nth b vars ""))) = Ok (ds, c0) ->
    D (lazy_wrap c0) (ext_env ρ cp) = branch_arg (snap_of sp st) cp k st b.
  Proof.
    intros HI Hb Hk Hr. unfold lazy_wrap, SpecOpts.branch_arg. cbn [so_lazy opts_of].
    pose proof (chain_in_step k ρ st cp b ds c0 HI Hb Hk Hr) as Hc.
    destruct (j_lazy j).
    - rewrite den_RMoveThunk, Hc. reflexivity.
    - exact Hc.
  Qed.

  (* the joiner expression sees the same snapshot as everything else in the step *)
  Lemma eval_joiner_sem ρ st cp jt : Inv ρ st -> j_joiner j = Some jt ->
    forall A (K : dval -> comp A) (K2 : option dval -> comp A),
      (forall v, K (DV v) = K2 (Some (DV v))) ->
      bind (D (RUser jt) (ext_env ρ cp)) K = bind (eval_joiner so (snap_of sp st)) K2.
  Proof.
    intros HI Hj A K K2 HK. unfold eval_joiner. cbn [so_joiner opts_of]. rewrite Hj.
    rewrite den_RUser, (snap_ext_env unames unames_user), (snap_inv ρ st HI).
    cbn [bind]. apply Vis_ext. intros v. apply HK.
  Qed.

  Lemma eval_joiner_none st : j_joiner j = None ->
    forall A (K2 : option dval -> comp A), bind (eval_joiner so (snap_of sp st)) K2 = K2 None.
  Proof. intros Hj A K2. unfold eval_joiner. cbn [so_joiner opts_of]. rewrite Hj. reflexivity. Qed.

  (* the interface of one step: whatever the kind and the options, the statements of step k run the reference
     step and leave its result in __sr<k>, in an environment that still satisfies the invariant for the same state *)
  Definition step_hyp_opts : Prop :=
    forall k ρ st step, Inv ρ st -> k < j_max j -> gen_step j k vars (n_sr k) = Ok step ->
    forall A (K : env -> comp A) (K' : dval -> comp A),
      (forall ρ' srv, Inv ρ' st -> ρ' (n_sr k) = Some srv -> K ρ' = K' srv) ->
      bind (execs step ρ) K = bind (step_result_opts k st) K'.

  Lemma step_opts_plain k ρ st step :
    is_async cfg = false -> is_spawn cfg && Nat.ltb 1 (active_count j k) = false ->
    Inv ρ st -> k < j_max j -> gen_step j k vars (n_sr k) = Ok step ->
    forall A (K : env -> comp A) (K' : dval -> comp A),
      (forall ρ' srv, Inv ρ' st -> ρ' (n_sr k) = Some srv -> K ρ' = K' srv) ->
      bind (execs step ρ) K = bind (step_result_opts k st) K'.
  Proof.
    intros Ha Hs HI Hk Hg A K K' HK.
    destruct (gen_step_inv k (n_sr k) step Hg) as (pre & cs & post & Hcs & -> & Hpp).
    rewrite Ha, (plain_builders k _ Ha Hs) in Hpp. injection Hpp as -> ->. cbn [app].
    unfold SpecOpts.step_result_opts. rewrite (r_cfg_sp _ _ _ HR), Ha.
    rewrite <- (rel_active_count _ _ _ HR), Hs. nb.
    apply (step_defs_sem k ρ st _ [] _ K _ HI). intros cp Hkeys HI'. cbn [execs]. nb.
    rewrite <- (snap_inv ρ st HI).
    assert (HKsr : forall d, K (upd (ext_env ρ cp) (n_sr k) d) = K' d).
    { intros d. apply HK; [apply Inv_upd_sr; exact HI'|apply upd_same]. }
    pose proof (Forall2_length _ _ _ Hcs) as Hlen.
    unfold GenPropsE.step_rhs. rewrite (r_cfg_j _ _ _ HR), Ha.
    destruct (Nat.ltb 1 (active_count j k)) eqn:Hm.
    - (* several active branches (so: not a thread kind) *)
      rewrite andb_true_r in Hs.
      assert (Hchain : Forall2 (fun c b => D c (ext_env ρ cp) = branch_arg (snapρ ρ) cp k st b) cs (actives sp k)).
      { eapply Forall2_impl_in2; [exact Hcs|]. intros c b _ Hb (c0 & ds & Ec & Hr).
        rewrite Ec, (wrap_multi k b c0 Hm), Hs.
        rewrite (snap_inv ρ st HI).
        eapply branch_arg_sem; eauto. }
      assert (H2 : 2 <= List.length cs).
      { rewrite Hlen, <- (rel_active_count _ _ _ HR). apply Nat.ltb_lt in Hm. lia. }
      destruct (j_joiner j) as [jt|] eqn:Ej.
      + rewrite den_RCall_user. nb. rewrite (snap_inv ρ st HI).
        apply (eval_joiner_sem ρ st cp jt HI Ej). intros v. nb.
        rewrite dens_mapM, (mapM_Forall2 _ _ _ _ Hchain), (snap_inv ρ st HI).
        apply bind_ext. intros ds. apply bind_ext. intros d. apply HKsr.
      + rewrite (snap_inv ρ st HI), (eval_joiner_none st Ej), <- (snap_inv ρ st HI). nb.
        rewrite den_RTuple, (two_shape cs _ _ H2). nb.
        rewrite dens_mapM, (mapM_Forall2 _ _ _ _ Hchain).
        apply bind_ext. intros ds. unfold vals_tuple. destruct (all_vals ds) as [vs|]; nb; [|reflexivity].
        apply HKsr.
    - (* one active branch: the options play no role *)
      destruct (single_chain k ρ st cp cs Hm Hk HI Hcs Hkeys) as (b & c & -> & -> & Hc).
      rewrite den_RTuple, Hc, (snap_inv ρ st HI).
      apply bind_ext. intros d. apply HKsr.
  Qed.

  (* `let __srK = (__srK.0.join().unwrap(), ..);` - whatever __srK holds (the tuple of handles the macro
     built, or the joiner's output).  The i-th component depends on i only (`G i`), so the tuple is a `mapM`
     over `seq 0 (number of active branches)`: that is `join_handles`. *)
  Lemma join_handles_sem k ρ st hs : Inv ρ st -> 2 <= List.length (actives sp k) ->
    forall A (K : env -> comp A) (K' : dval -> comp A),
      (forall ρ' srv, Inv ρ' st -> ρ' (n_sr k) = Some srv -> K ρ' = K' srv) ->
      bind (execs [SLet (PIdent (n_sr k))
                        (RTuple (map (fun ib : nat * nat => RGlue (RGlue (RField (RVar (n_sr k)) (fst ib)) "join" []) "unwrap" [])
                                     (enum_from 0 (actives sp k))))] (upd ρ (n_sr k) hs)) K
      = bind (join_handles (List.length (actives sp k)) hs) K'.
  Proof.
    intros HI H2 A K K' HK. set (acts := actives sp k) in *.
    cbn [execs]. rewrite exec_SLet_ident, den_RTuple. nb.
    rewrite two_shape by (rewrite map_length, enum_from_length; exact H2).
    rewrite dens_mapM, mapM_map. nb.
    set (ρ3 := upd ρ (n_sr k) hs).
    set (G := fun i : nat => match hs with
                             | DV (VTuple l) => match nth_error l i with Some v => join_unwrap v | None => Panic P_ILLTYPED end
                             | _ => Panic P_ILLTYPED end).
    assert (Hju : forall ib : nat * nat,
               D (RGlue (RGlue (RField (RVar (n_sr k)) (fst ib)) "join" []) "unwrap" []) ρ3 = G (fst ib)).
    { intros ib. rewrite !den_RGlue0, den_RField, den_RVar. unfold ρ3. rewrite upd_same. nb. unfold G.
      destruct hs as [[]| | | | | |]; try reflexivity. nb.
      destruct (nth_error vs (fst ib)) as [v|]; nb; [|reflexivity].
      unfold join_unwrap. destruct v; reflexivity. }
    rewrite (mapM_ext_in _ _ _ (fun ib _ => Hju ib)).
    rewrite <- (mapM_map G fst), enum_from_fst.
    assert (HG : forall i, leaves is_DV (G i)).
    { intros i. unfold G. destruct hs as [[]| | | | | |]; try apply L_Panic.
      destruct (nth_error vs i); [apply join_unwrap_DV|apply L_Panic]. }
    rewrite (mapM_to_val' G (fun vs => Ret (DV (VTuple vs))) _ (seq 0 (List.length acts)) HG).
    unfold join_handles. nb.
    assert (HGv : forall i, bind (G i) to_val =
              match hs with
              | DV (VTuple l) =>
                  match nth_error l i with
                  | Some (VHandle h) => let! r := std_join h in let! u := std_unwrap r in to_val u
                  | _ => Panic P_ILLTYPED
                  end
              | _ => Panic P_ILLTYPED
              end).
    { intros i. unfold G. destruct hs as [[]| | | | | |]; try reflexivity. nb.
      destruct (nth_error vs i) as [v|]; nb; [|reflexivity]. unfold join_unwrap. destruct v; nb; reflexivity. }
    rewrite (mapM_ext_in _ _ _ (fun i _ => HGv i)).
    apply bind_ext. intros vs. nb.
    apply HK; [|apply upd_same]. apply Inv_upd_sr, Inv_upd_sr, HI.
  Qed.

  (* a step of a thread kind with several active branches, statement by statement: builders, captures, one
     spawn per chain, the joiner (if any) applied to the handles, joins.  The one fact that is not local is `Hspawn`: the builders were
     bound to the distinct names `__jB`, so the i-th chain spawns on the i-th builder. *)
  Lemma step_opts_spawn k ρ st step :
    is_async cfg = false -> is_spawn cfg && Nat.ltb 1 (active_count j k) = true ->
    Inv ρ st -> k < j_max j -> gen_step j k vars (n_sr k) = Ok step ->
    forall A (K : env -> comp A) (K' : dval -> comp A),
      (forall ρ' srv, Inv ρ' st -> ρ' (n_sr k) = Some srv -> K ρ' = K' srv) ->
      bind (execs step ρ) K = bind (step_result_opts k st) K'.
  Proof.
    intros Ha Hs HI Hk Hg A K K' HK.
    destruct (gen_step_inv k (n_sr k) step Hg) as (pre & cs & post & Hcs & -> & Hpp).
    rewrite Ha, (spawn_builders k _ Ha Hs) in Hpp. injection Hpp as -> ->.
    apply andb_prop in Hs as Hs'. destruct Hs' as [Hsp Hmulti].
    unfold SpecOpts.step_result_opts. rewrite (r_cfg_sp _ _ _ HR), Ha.
    rewrite <- (rel_active_count _ _ _ HR), Hs. rewrite (rel_active_count _ _ _ HR).
    assert (Hacts2 : 2 <= List.length (actives sp k)).
    { rewrite <- (rel_active_count _ _ _ HR). apply Nat.ltb_lt in Hmulti. lia. }
    set (acts := actives sp k) in *.
    rewrite execs_app, (execs_tbs acts ρ (inv_tb _ _ HI Hsp Ha)). nb.
    eapply bind_ext_leaves.
    { apply leaves_and; [apply leaves_mapM_length|apply (leaves_mapM is_builder)].
      intros b _. apply thread_builder_leaves. }
    intros bs [Hbl Hbb]. nb.
    set (ρ1 := upd_list ρ (map n_j acts) bs).
    assert (HI1 : Inv ρ1 st).
    { apply Inv_upd_list_temp; [exact HI|]. intros x Hx. apply in_map_iff in Hx. destruct Hx as (b & <- & _). apply temp_j. }
    apply (step_defs_sem k ρ1 st _ _ _ K _ HI1). intros cp Hkeys HI2.
    set (ρ2 := ext_env ρ1 cp) in *.
    unfold GenPropsE.step_rhs. rewrite (r_cfg_j _ _ _ HR), Ha, Hmulti.
    set (F := fun nb : dval * nat =>
                let! a := branch_arg (snap_of sp st) cp k st (snd nb) in spawn_thread (fst nb) a).
    assert (Hnd : NoDup (map n_j acts)).
    { apply FinFun.Injective_map_NoDup; [intros a b; apply n_j_inj|apply actives_NoDup]. }
    assert (Hspawn : Forall2 (fun c nb => D c ρ2 = F nb) cs (combine bs acts)).
    { pose proof (upd_list_Forall2 (map n_j acts) bs ρ Hnd) as Hb.
      rewrite map_length in Hb. specialize (Hb Hbl). rewrite Forall2_map_l in Hb.
      pose proof (Forall2_combine _ _ _ _ _ Hcs Hb) as Hc.
      eapply Forall2_impl_in2; [exact Hc|]. cbn beta. intros c [bd b] _ Hin [(c0 & ds & Ec & Hr) Hbd]. cbn [fst snd] in *.
      assert (Hb_in : In b acts) by (apply in_combine_r in Hin; exact Hin).
      assert (Hbd_b : is_builder bd).
      { apply in_combine_l in Hin. rewrite Forall_forall in Hbb. apply Hbb. exact Hin. }
      destruct bd as [| | | |name| |]; try contradiction.
      rewrite Ec, (wrap_multi k b c0 Hmulti), Hsp, Ha.
      rewrite den_RBlock_nil, den_RGlue0, den_RGlue1, den_RVar.
      unfold ρ2. rewrite ext_env_not_ew by (intros b' e i; apply (gname_neq (GJ b) (GEW b' e i)); discriminate).
      fold ρ1. unfold ρ1 at 1. rewrite Hbd. nb.
      rewrite (branch_arg_sem k ρ1 st cp b ds c0 HI1 Hb_in Hkeys Hr). nb.
      unfold F. cbn [fst snd]. apply bind_ext. intros a. nb. unfold spawn_thread.
      destruct a; reflexivity. }
    assert (Hlen_cs : List.length cs = List.length acts) by (apply (Forall2_length _ _ _ Hcs)).
    assert (Hcs2 : 2 <= List.length cs) by lia.
    destruct (j_joiner j) as [jt|] eqn:Ej.
    - rewrite den_RCall_user. nb.
      apply (eval_joiner_sem ρ1 st cp jt HI1 Ej). intros v. nb.
      fold ρ2. rewrite dens_mapM, (mapM_Forall2 _ _ _ _ Hspawn).
      apply bind_ext. intros handles. nb. apply bind_ext. intros hs. nb.
      apply (join_handles_sem k ρ2 st hs HI2 Hacts2). exact HK.
    - rewrite (eval_joiner_none st Ej).
      rewrite den_RTuple, (two_shape cs _ _ Hcs2). nb.
      rewrite dens_mapM, (mapM_Forall2 _ _ _ _ Hspawn).
      apply bind_ext. intros handles. unfold vals_tuple. destruct (all_vals handles) as [hs|]; nb; [|reflexivity].
      apply (join_handles_sem k ρ2 st (DV (VTuple hs)) HI2 Hacts2). exact HK.
  Qed.

  Theorem step_opts_sync : is_async cfg = false -> step_hyp_opts.
  Proof.
    intros Ha k ρ st step HI Hk Hg A K K' HK.
    destruct (is_spawn cfg && Nat.ltb 1 (active_count j k)) eqn:Hs.
    - eapply step_opts_spawn; eauto.
    - eapply step_opts_plain; eauto.
  Qed.

  Theorem step_opts_async : is_async cfg = true -> step_hyp_opts.
  Proof.
    intros Ha k ρ st step HI Hk Hg A K K' HK.
    destruct (gen_step_inv k (n_sr k) step Hg) as (pre & cs & post & Hcs & -> & Hpp).
    rewrite Ha in Hpp. injection Hpp as -> ->. cbn [app].
    unfold SpecOpts.step_result_opts. rewrite (r_cfg_sp _ _ _ HR), Ha.
    rewrite <- (rel_active_count _ _ _ HR). nb.
    apply (step_defs_sem k ρ st _ [] _ K _ HI). intros cp Hkeys HI'. cbn [execs]. nb.
    rewrite <- (snap_inv ρ st HI).
    assert (HKsr : forall d, K (upd (ext_env ρ cp) (n_sr k) d) = K' d).
    { intros d. apply HK; [apply Inv_upd_sr; exact HI'|apply upd_same]. }
    unfold GenPropsE.step_rhs. rewrite (r_cfg_j _ _ _ HR), Ha.
    destruct (Nat.ltb 1 (active_count j k)) eqn:Hm.
    - (* several active branches: the joiner, or join! / try_join! *)
      set (G := fun b => let! d := branch_arg (snapρ ρ) cp k st b in
                         if is_spawn cfg then spawn_task d else Ret d).
      assert (Hchain : Forall2 (fun c b => D c (ext_env ρ cp) = G b) cs (actives sp k)).
      { eapply Forall2_impl_in2; [exact Hcs|]. intros c b _ Hb (c0 & ds & Ec & Hr).
        rewrite Ec, (wrap_multi k b c0 Hm), Ha. unfold G.
        pose proof (branch_arg_sem k ρ st cp b ds c0 HI Hb Hkeys Hr) as Hc. rewrite <- (snap_inv ρ st HI) in Hc.
        destruct (is_spawn cfg) eqn:Hsp.
        - rewrite den_RBlock_nil. rewrite den_RCall_var, den_RVar.
          rewrite (inv_tokio _ _ HI' Hsp Ha). nb. rewrite dens_cons, den_RBoxPin, Hc, dens_nil. nb.
          apply bind_ext. intros d. nb. destruct d; reflexivity.
        - rewrite Hc. symmetry. apply bind_ret_r. }
      destruct (j_joiner j) as [jt|] eqn:Ej.
      + rewrite den_RCall_user. nb. rewrite (snap_inv ρ st HI).
        apply (eval_joiner_sem ρ st cp jt HI Ej). intros v. nb.
        rewrite dens_mapM, (mapM_Forall2 _ _ _ _ Hchain). unfold G. rewrite (snap_inv ρ st HI).
        apply bind_ext. intros futs. apply bind_ext. intros d. apply HKsr.
      + rewrite (snap_inv ρ st HI), (eval_joiner_none st Ej).
        rewrite den_RCall_mac, dens_mapM, (mapM_Forall2 _ _ _ _ Hchain). nb.
        apply bind_ext. intros futs. nb. apply bind_ext. intros v. nb. apply HKsr.
    - (* one active branch: awaited in place; the options play no role *)
      destruct (single_chain k ρ st cp cs Hm Hk HI Hcs Hkeys) as (b & c & -> & -> & Hc).
      rewrite den_RAwait, Hc, (snap_inv ρ st HI). nb. apply bind_ext. intros d. nb. apply bind_ext. intros v. nb. apply HKsr.
  Qed.

  Theorem step_opts_all : step_hyp_opts.
  Proof.
    assert (H : {is_async cfg = true} + {is_async cfg = false}) by (destruct (is_async cfg); auto).
    destruct H as [Ha|Ha]; [apply step_opts_async|apply step_opts_sync]; exact Ha.
  Qed.

  (* under the default options the step of SpecOpts.v is the step of Spec.v *)
  Section DefaultSteps.
    Hypothesis Hopt_joiner : j_joiner j = None.
    Hypothesis Hopt_lazy : j_lazy j = is_spawn cfg && negb (is_async cfg).

  Theorem step_all : step_hyp.
  Proof.
    intros k ρ st step HI Hk Hg A K K' HK.
    rewrite <- (step_result_opts_default msem dotsem callsem awaitsem sp so).
    - apply (step_opts_all k ρ st step HI Hk Hg A K K' HK).
    - exact Hopt_joiner.
    - rewrite (r_cfg_sp _ _ _ HR). exact Hopt_lazy.
  Qed.
  End DefaultSteps.

  Lemma active_vars k :
    filter (fun iv : nat * string => is_active j k (fst iv)) (enum_from 0 vars) = map (fun b => (b, bname b)) (actives sp k).
  Proof. unfold vars. rewrite enum_filter_pairs, (rel_actives _ _ _ HR). reflexivity. Qed.

  Lemma inactive_vars k :
    map snd (filter (fun iv : nat * string => negb (is_active j k (fst iv))) (enum_from 0 vars))
    = map bname (filter (fun b => negb (is_active j k b)) (seq 0 n)).
  Proof. apply (enum_filter_map bname (fun b => negb (is_active j k b)) n 0). Qed.

  Lemma extract_block_sem k ρ st srv ss e (K' : list dval -> comp dval) :
    Inv ρ st -> ρ (n_sr k) = Some srv -> k < j_max j ->
    (forall ρ' ds, Inv ρ' (set_all st (actives sp k) ds) -> List.length ds = List.length (actives sp k) ->
                   D (RBlock ss e) ρ' = K' ds) ->
    D (RBlock (extract_step j (n_sr k) pats k :: ss) e) ρ = let! ds := extract (actives sp k) srv in K' ds.
  Proof.
    intros HI Hsr Hk HK. rewrite den_RBlock, execs_cons. nb.
    apply (extract_refines k ρ st srv HI Hsr Hk). intros ρ' ds HI' Hl. rewrite <- den_RBlock. apply HK; assumption.
  Qed.

  Lemma step_extract_sem k ρ st step ss e (K' : list dval -> comp dval) :
    Inv ρ st -> k < j_max j -> gen_step j k vars (n_sr k) = Ok step ->
    (forall ρ' ds, Inv ρ' (set_all st (actives sp k) ds) -> List.length ds = List.length (actives sp k) ->
                   D (RBlock ss e) ρ' = K' ds) ->
    D (RBlock (step ++ extract_step j (n_sr k) pats k :: ss) e) ρ =
    let! sr := step_result_opts k st in let! ds := extract (actives sp k) sr in K' ds.
  Proof.
    intros HI Hk Hg HK. rewrite den_RBlock, execs_app. nb.
    apply (step_opts_all k ρ st step HI Hk Hg). intros ρ1 srv HI1 Hsr.
    rewrite <- den_RBlock. apply (extract_block_sem k ρ1 st srv ss e K' HI1 Hsr Hk HK).
  Qed.

  (* try kinds when the macro does not transpose: the statements of the step, then
     `match __srK { Ok(x) => arm, Err(err) => Err(err) }` *)
  Lemma step_matchok_sem k ρ st step x arm (K' : val -> comp dval) :
    Inv ρ st -> k < j_max j -> gen_step j k vars (n_sr k) = Ok step ->
    (forall ρ' w, Inv ρ' st -> D arm (upd ρ' x (DV w)) = K' w) ->
    D (RBlock step (RMatchOk (RVar (n_sr k)) x arm)) ρ =
    let! sr := step_result_opts k st in
    match sr with DV (VOk w) => K' w | DV (VErr err) => Ret (DV (VErr err)) | _ => Panic P_ILLTYPED end.
  Proof.
    intros HI Hk Hg HK. rewrite den_RBlock.
    apply (step_opts_all k ρ st step HI Hk Hg). intros ρ1 srv HI1 Hsr.
    rewrite den_RMatchOk, den_RVar, Hsr. nb.
    destruct srv as [[]| | | | | |]; try reflexivity. apply HK. exact HI1.
  Qed.

  (* every kind, every option setting: by induction on the number of steps left; the cases are those of
     `join_steps` (try or not, who transposes, last step or not) *)
  Theorem steps_opts_all : forall fuel k ss e,
    gen_steps j pats vars k fuel = Ok (Some (ss, e)) -> k + fuel = j_max j ->
    forall ρ st, Inv ρ st -> D (RBlock ss e) ρ = steps_opts fuel k st.
  Proof.
    induction fuel as [|f IH]; intros k ss e Hg Hk ρ st HI; [discriminate|].
    destruct (gen_steps_S_inv _ _ _ _ _ _ Hg) as (next & step & body & En & Es & Ej & [= <-]).
    assert (Hkm : k < j_max j) by lia.
    assert (Hsr : forall ρ' w, Inv ρ' st -> Inv (upd ρ' (n_sr k) (DV w)) st /\ upd ρ' (n_sr k) (DV w) (n_sr k) = Some (DV w)).
    { intros ρ' w HI'. split; [apply Inv_upd_sr; exact HI'|apply upd_same]. }
    assert (Hlast : Nat.ltb k (j_max j - 1) = negb (Nat.eqb f 0)).
    { destruct f; [apply Nat.ltb_ge|apply Nat.ltb_lt]; lia. }
    unfold join_steps in Ej. rewrite (r_cfg_j _ _ _ HR), Hlast, active_vars, inactive_vars, active_branches_eq in Ej.
    cbn [SpecOpts.steps_opts so_transpose opts_of]. rewrite (r_cfg_sp _ _ _ HR).
    destruct (is_try cfg) eqn:Ht; cbn [andb negb] in Ej |- *; [destruct (j_transpose j) eqn:HT; cbn [andb] in Ej|].
    - (* try kinds, the macro transposes *)
      destruct f as [|f']; cbn [negb Nat.eqb] in Ej |- *.
      + destruct (transposer vars (tuple_of vars)) as [t|] eqn:Etr; [|discriminate]. injection Ej as <- <-.
        apply (step_extract_sem k ρ st step [] t _ HI Hkm Es). intros ρ2 ds HI2 _.
        rewrite den_RBlock_nil, (rel_n_trees _ _ _ HR).
        apply (transposer_sem (tuple_of vars) final_tuple_sem (seq 0 n) t Etr); [|exact HI2].
        intros b Hb. apply in_seq in Hb. lia.
      + destruct next as [[nss ne]|]; [|discriminate]. injection Ej as <- <-.
        apply (step_extract_sem k ρ st step [] _ _ HI Hkm Es). intros ρ2 ds HI2 Hlen.
        rewrite den_RBlock_nil, fail_check_sem with (ds := ds).
        * apply bind_ext. intros oks. destruct (first_false oks ds); [reflexivity|].
          apply (IH (S k) nss ne En); [lia|exact HI2].
        * pose proof (set_all_nth (actives sp k) ds st (actives_NoDup sp k) Hlen) as HF.
          eapply Forall2_impl_in2; [apply HF|].
          -- intros b Hb. rewrite (inv_len _ _ HI). apply (rel_actives_lt _ _ _ HR k b Hb).
          -- cbn beta. intros b d Hb _ Hn. rewrite <- Hn. apply (inv_names _ _ HI2).
             apply (rel_actives_lt _ _ _ HR k b Hb).
    - (* try kinds, the step result is one Result *)
      destruct f as [|f']; cbn [negb Nat.eqb] in Ej |- *.
      + rewrite inactive_eq, (rel_n_trees _ _ _ HR). destruct (Nat.ltb 1 n).
        * destruct (filter (fun b => negb (is_active j k b)) (seq 0 n)) as [|i0 ir] eqn:Ef; cbn [map] in Ej.
          -- injection Ej as <- <-.
             apply (step_matchok_sem k ρ st step _ _ _ HI Hkm Es). intros ρ1 w HI1.
             destruct (Hsr ρ1 w HI1) as [HIw Hw].
             apply (extract_block_sem k _ st (DV w) [] _ _ HIw Hw Hkm). intros ρ2 ds HI2 _.
             rewrite den_RBlock_nil, den_ROk, (final_tuple_sem ρ2 _ HI2). reflexivity.
          -- destruct (transposer _ (tuple_of vars)) as [t|] eqn:Etr; [|discriminate]. injection Ej as <- <-.
             apply (step_matchok_sem k ρ st step _ _ _ HI Hkm Es). intros ρ1 w HI1.
             destruct (Hsr ρ1 w HI1) as [HIw Hw].
             apply (extract_block_sem k _ st (DV w) [] _ _ HIw Hw Hkm). intros ρ2 ds HI2 _.
             rewrite den_RBlock_nil.
             apply (transposer_sem (tuple_of vars) final_tuple_sem (i0 :: ir) t Etr); [|exact HI2].
             intros b Hb. rewrite <- Ef in Hb. apply filter_In in Hb. destruct Hb as [Hb _].
             apply in_seq in Hb. lia.
        * injection Ej as <- <-.
          apply (step_matchok_sem k ρ st step _ _ _ HI Hkm Es). intros ρ1 w HI1.
          rewrite den_ROk, den_RTuple, den_RVar, upd_same. reflexivity.
      + destruct next as [[nss ne]|]; [|discriminate]. injection Ej as <- <-.
        apply (step_matchok_sem k ρ st step _ _ _ HI Hkm Es). intros ρ1 w HI1.
        destruct (Hsr ρ1 w HI1) as [HIw Hw].
        assert (Hnext : forall ρ' ds, Inv ρ' (set_all st (actives sp k) ds) -> List.length ds = List.length (actives sp k) ->
                  D (RBlock nss ne) ρ' = steps_opts (S f') (S k) (set_all st (actives sp k) ds)).
        { intros ρ' ds HI' _. apply (IH (S k) nss ne En); [lia|exact HI']. }
        destruct (is_async cfg); cbn [app].
        * (* async: the payloads are re-wrapped in Ok *)
          rewrite den_RBlock, execs_cons, exec_SLet_ident.
          rewrite (rewrap_sem k _ w Hw (rel_actives_nonempty _ _ _ HR k Hkm)). nb.
          eapply bind_ext_leaves; [apply rewrap_DV|]. intros rew _. nb. fold (rewrapped rew). rewrite <- den_RBlock.
          apply (extract_block_sem k _ st (rewrapped rew) nss ne _
                   (Inv_upd_sr k _ st (rewrapped rew) HIw) (upd_same _ _ _) Hkm Hnext).
        * (* sync: the payload is destructured as it is *)
          nb. apply (extract_block_sem k _ st (DV w) nss ne _ HIw Hw Hkm Hnext).
    - (* non-try kinds *)
      rewrite andb_false_r in Ej. destruct f as [|f'].
      + injection En as <-. injection Ej as <- <-.
        apply (step_extract_sem k ρ st step [] _ _ HI Hkm Es). intros ρ2 ds HI2 _.
        rewrite den_RBlock_nil. apply final_tuple_sem. exact HI2.
      + destruct next as [[nss ne]|]; [|apply gen_steps_none in En; discriminate]. injection Ej as <- <-.
        apply (step_extract_sem k ρ st step nss ne _ HI Hkm Es). intros ρ2 ds HI2 _.
        apply (IH (S k) nss ne En); [lia|exact HI2].
  Qed.

  (* the handler part of the expansion, by cases on the handler kind and on async: the closure
     `|__rs| { let (__r0, ..) = __rs; handler(__r0, ..) }` is `call_handler` (Hclo); `.map` / `.and_then` /
     `.await` around it are the Std functions `handle_results` is written with *)
  Lemma gen_handle_sem ρ rs hd : ρ n_rs = Some rs -> (j_handler j <> None -> ρ n_h = Some hd) ->
    D (gen_handle j) ρ =
    handle_results callsem awaitsem sp
      (match j_handler j with Some (k, _) => Some (k, hd) | None => None end) rs.
  Proof.
    intros Hrs Hh. unfold gen_handle, handle_results, wrap_into_block.
    rewrite (r_cfg_sp _ _ _ HR), (r_cfg_j _ _ _ HR). fold rvars. fold call_handler_block.
    destruct (j_handler j) as [[hk o]|]; [|rewrite den_RVar, Hrs; reflexivity].
    assert (Hh' : ρ n_h = Some hd) by (apply Hh; discriminate).
    assert (Hclo : forall ρ' v, ρ' n_h = Some hd ->
              D call_handler_block (upd ρ' n_rs (DV v)) = call_handler callsem sp hd (DV v)).
    { intros ρ' v Hρ'. apply call_handler_sem; [apply upd_same|].
      rewrite upd_other; [exact Hρ'|]. apply (gname_neq GH GRS). discriminate. }
    assert (Hnh : n_h <> n_rs) by (apply (gname_neq GH GRS); discriminate).
    destruct hk, (is_async cfg).
    - (* map, async *)
      rewrite den_RAwait, den_RGlue1, den_RAsyncMove, den_RClosure. cbn [execs]. nb. rewrite den_RVar, Hrs. nb.
      rewrite glue_map. cbn [std_map]. nb. cbn [await_d].
      nb. apply bind_ext. intros v. cbn [await_d]. nb.
      rewrite den_RBlock_nil, den_RGlue1, den_RVar, upd_same, den_RClosure. nb. rewrite glue_map.
      assert (E : (fun vs : list val => match vs with
                                        | [v0] => let! d := D call_handler_block (upd (upd ρ n_rs (DV v)) n_rs (DV v0)) in to_val d
                                        | _ => Panic P_ILLTYPED end)
                  = (fun vs : list val => match vs with
                                          | [v0] => let! d := call_handler callsem sp hd (DV v0) in to_val d
                                          | _ => Panic P_ILLTYPED end)).
      { extensionality vs. destruct vs as [|v0 [|]]; try reflexivity.
        rewrite Hclo; [reflexivity|]. rewrite upd_other by exact Hnh. exact Hh'. }
      rewrite E. cbn [await_d]. nb. reflexivity.
    - (* map, sync *)
      rewrite den_RGlue1, den_RBlock_nil, den_RVar, Hrs, den_RClosure. nb. rewrite glue_map. f_equal.
      extensionality vs. destruct vs as [|v [|]]; try reflexivity.
      rewrite den_RBlock_nil, (Hclo ρ v Hh'). reflexivity.
    - (* then, async *)
      rewrite den_RAwait, (call_handler_sem ρ rs hd Hrs Hh'). reflexivity.
    - (* then, sync *)
      rewrite (call_handler_sem ρ rs hd Hrs Hh'). symmetry. apply bind_ret_r.
    - (* and_then, async *)
      rewrite den_RAwait, den_RGlue1, den_RAsyncMove, den_RClosure. cbn [execs]. nb. rewrite den_RVar, Hrs. nb.
      rewrite glue_and_then. cbn [std_and_then]. nb. cbn [await_d].
      nb. apply bind_ext. intros v. cbn [await_d]. nb.
      destruct v; try reflexivity.
      rewrite den_RBlock_nil, (Hclo ρ v Hh'). cbn [await_d]. nb. apply bind_ext. intros x. nb. reflexivity.
    - (* and_then, sync *)
      rewrite den_RGlue1, den_RBlock_nil, den_RVar, Hrs, den_RClosure. nb. rewrite glue_and_then. f_equal.
      extensionality vs. destruct vs as [|v [|]]; try reflexivity.
      rewrite den_RBlock_nil, (Hclo ρ v Hh'). reflexivity.
  Qed.

  Definition st0 : state := map (fun _ => None) (sp_trees sp).

  Lemma st0_nth b : nth b st0 None = None.
  Proof. exact (map_nth (fun _ : list (list node) => @None dval) (sp_trees sp) [] b). Qed.

  Lemma temp_h : temp_name n_h.
  Proof. exists GH. repeat split; try discriminate. Qed.
  Lemma temp_rs : temp_name n_rs.
  Proof. exists GRS. repeat split; try discriminate. Qed.

  (* the environment after the items at the head of the generated block *)
  Definition ρ_init : env :=
    if is_async cfg then (if is_spawn cfg then upd empty_env n_spawn_tokio DSpawnTokio else empty_env)
    else let ρ0 := upd empty_env n_inspect (DFn inspect_clo) in if is_spawn cfg then upd ρ0 n_tb DTb else ρ0.

  Lemma Inv_init : Inv ρ_init st0.
  Proof.
    assert (Hb : forall b g, (forall i, g <> GR i) -> bname b <> gname_str g)
      by (intros b g Hg; apply bname_not_gname; exact Hg).
    unfold ρ_init. split.
    - unfold st0. rewrite map_length. apply (rel_n_trees _ _ _ HR).
    - intros b _. rewrite st0_nth.
      destruct (is_async cfg), (is_spawn cfg); cbv zeta; rewrite ?upd_other; try reflexivity;
        (apply (Hb b GInspect) || apply (Hb b GTb) || apply (Hb b GSpawnTokio)); discriminate.
    - intros ->. cbv zeta. destruct (is_spawn cfg); [rewrite upd_other|]; try apply upd_same.
      apply (gname_neq GInspect GTb). discriminate.
    - intros -> ->. apply upd_same.
    - intros -> ->. apply upd_same.
  Qed.

  (* the whole macro around an ARBITRARY meaning S of the steps (SpecOpts.run_body_opts / spec_opts with the
     steps abstracted: the options only change the steps) *)
  Definition run_with (S : state -> comp dval) : comp dval :=
    let! h := (match sp_handler sp with
               | Some (k, o) => Vis (EEval o (snap_of sp st0)) (fun v => Ret (Some (k, DV v)))
               | None => Ret None end) in
    let! rs := S st0 in
    handle_results callsem awaitsem sp h rs.
  Definition spec_with (S : state -> comp dval) : comp dval :=
    if is_async (sp_cfg sp) then Ret (DFut (let! d := run_with S in to_val d)) else run_with S.

  Lemma tail_sem (S : state -> comp dval) ss se ρ :
    Inv ρ st0 -> (forall ρ' st, Inv ρ' st -> D (RBlock ss se) ρ' = S st) ->
    (let! ρ' := execs ((match j_handler j with Some (_, h) => [SLet (PIdent n_h) (RUser h)] | None => [] end)
                       ++ [SLet (PIdent n_rs) (RBlock ss se)]) ρ in D (gen_handle j) ρ') = run_with S.
  Proof.
    intros HI Hsteps. unfold run_with. rewrite (r_handler _ _ _ HR).
    assert (Hfin : forall ρ2 hd, Inv ρ2 st0 -> (j_handler j <> None -> ρ2 n_h = Some hd) ->
              (let! ρ' := execs [SLet (PIdent n_rs) (RBlock ss se)] ρ2 in D (gen_handle j) ρ') =
              (let! rs := S st0 in
               handle_results callsem awaitsem sp
                 (match j_handler j with Some (k, _) => Some (k, hd) | None => None end) rs)).
    { intros ρ2 hd HI2 Hh. cbn [execs]. rewrite exec_SLet_ident, (Hsteps ρ2 st0 HI2). nb. apply bind_ext. intros rs. nb.
      apply gen_handle_sem; [apply upd_same|].
      intros Hn. rewrite upd_other; [apply Hh; exact Hn|]. apply (gname_neq GH GRS). discriminate. }
    destruct (j_handler j) as [[hk ho]|] eqn:Eh; cbn [app].
    - rewrite execs_cons, exec_SLet_ident, den_RUser. nb.
      rewrite (snap_inv ρ st0 HI). apply Vis_ext. intros v. nb.
      apply (Hfin (upd ρ n_h (DV v)) (DV v)).
      + apply Inv_upd_temp; [exact HI|apply temp_h].
      + intros _. apply upd_same.
    - nb. apply (Hfin ρ (DV VUnit) HI). congruence.
  Qed.

  Theorem gen_output_gen (S : state -> comp dval) e :
    (forall ss se, gen_steps j pats vars 0 (j_max j) = Ok (Some (ss, se)) ->
                   forall ρ st, Inv ρ st -> D (RBlock ss se) ρ = S st) ->
    gen_output j = Ok e ->
    D e empty_env = spec_with S.
  Proof.
    intros Hsteps Hg. unfold gen_output in Hg. cbv zeta in Hg.
    change (map (branch_pat j) (seq 0 n)) with pats in Hg.
    change (map (branch_name j) (seq 0 n)) with vars in Hg.
    destruct (gen_steps j pats vars 0 (j_max j)) as [[[ss se]|]| |] eqn:Egs; cbn [rbind] in Hg; try discriminate.
    specialize (Hsteps ss se eq_refl).
    pose proof (tail_sem S ss se ρ_init Inv_init Hsteps) as Htail.
    unfold spec_with, ρ_init in *. rewrite (r_cfg_j _ _ _ HR) in Hg. rewrite (r_cfg_sp _ _ _ HR).
    destruct (is_async cfg); injection Hg as <-.
    - rewrite den_RBoxPin, den_RAsyncMove. f_equal. f_equal. rewrite <- bind_assoc. f_equal.
      cbn [app]. rewrite execs_cons, exec_SUseFutures. nb. rewrite execs_app. nb.
      destruct (is_spawn cfg); cbn [execs]; [rewrite exec_SSpawnTokioFn|]; nb; exact Htail.
    - rewrite den_RBlock, execs_cons, exec_inspect_fn. nb. rewrite execs_app. nb.
      destruct (is_spawn cfg); cbn [execs]; [rewrite exec_STbFn|]; nb; exact Htail.
  Qed.

  Theorem gen_output_opts e : gen_output j = Ok e ->
    D e empty_env = spec_opts msem dotsem callsem awaitsem so sp.
  Proof.
    intros Hg.
    change (spec_opts msem dotsem callsem awaitsem so sp) with (spec_with (steps_opts (max_depth sp) 0)).
    rewrite (rel_max _ _ _ HR). apply gen_output_gen; [|exact Hg].
    intros ss se Hgs ρ st HI. apply (steps_opts_all (j_max j) 0); auto.
  Qed.
End Steps.
