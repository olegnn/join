(* C07, the async pairs at value level: `join_async_spawn!` / `try_join_async_spawn!` denote the SAME computation as
   `join_async!` / `try_join_async!` whenever every branch chain of a multi-branch step yields something `tokio::spawn`
   accepts (a future or a value; the other `dval`s are macro-generated closures, items and thread builders).
   In Spec.v `tokio::spawn(Box::pin(fut))` is erased to its future (Denote.v does the same: the task IS its future at value
   level); the only trace of `is_spawn` in an async kind is the shape test of the spawned thing.  Poll-level differences
   (tasks make progress without being polled by the root, wake-ups through the JoinHandle) are the subject of Async.v /
   AsyncProps.v, not of this file.
   (The sync pairs are SpecSpawn.spawn_macro_agrees_with_plain: there threads are real and the statement is about every
   schedule of the thread machine.) *)
From Coq Require Import FunctionalExtensionality.
From Join Require Import Tok Ast Comp Std Denote Spec CompLaws DocTable Leaves SpecProps SpecCode.

(* what `tokio::spawn` / `join!` can be handed *)
Definition fut_or_val (d : dval) : Prop := match d with DFut _ | DV _ => True | _ => False end.

Lemma bind_ext_on_leaves {A B} (c : comp A) (Q : A -> Prop) (f g : A -> comp B) :
  leaves c Q -> (forall x, Q x -> f x = g x) -> bind c f = bind c g.
Proof.
  revert B f g Q.
  induction c as [A a|A n|A e k IH|A name t IHt k IH|A h k IH]; cbn [bind leaves]; intros B f g Q HQ Hfg.
  - apply Hfg, HQ.
  - reflexivity.
  - apply Vis_ext. intros x. apply (IH x B f g Q); [apply HQ|exact Hfg].
  - apply Spawn_ext. intros x. apply (IH x B f g Q); [apply HQ|exact Hfg].
  - apply Join_ext. intros x. apply (IH x B f g Q); [apply HQ|exact Hfg].
Qed.

Section AsyncSpawn.
  Variable msem : string -> option (list operand) -> dval -> list dval -> comp dval.
  Variable dotsem : operand -> list (string * option val) -> dval -> comp dval.
  Variable callsem : val -> list dval -> comp dval.
  Variable awaitsem : val -> comp val.
  Variable p : sprog.
  Hypothesis Hasync : is_async (sp_cfg p) = true.
  (* every chain of the program ends in a future or a value (what a well-typed async branch is) *)
  Hypothesis Hfut : forall sn cp k st b, leaves (chain msem dotsem callsem (with_spawn false p) sn cp k st b) fut_or_val.

  Notation SP := (with_spawn true p).
  Notation PL := (with_spawn false p).

  Lemma async_step_result_spawn_eq k st :
    step_result msem dotsem callsem awaitsem SP k st = step_result msem dotsem callsem awaitsem PL k st.
  Proof.
    rewrite !step_result_async by exact Hasync. change (actives SP k) with (actives PL k).
    apply bind_ext; intros cp.
    destruct (Nat.ltb 1 (List.length (actives PL k))); [|reflexivity].
    (* the shape test of `tokio::spawn` passes on every chain *)
    f_equal. apply mapM_ext_in. intros b _. apply (bind_ext_on_leaves _ fut_or_val); [apply Hfut|].
    intros d Hd. destruct d; cbn in Hd; try contradiction; reflexivity.
  Qed.

  Lemma async_steps_spawn_eq fuel : forall k st,
    steps msem dotsem callsem awaitsem SP fuel k st = steps msem dotsem callsem awaitsem PL fuel k st.
  Proof.
    induction fuel as [|fuel IH]; intros k st; [reflexivity|].
    assert (IHf : steps msem dotsem callsem awaitsem SP fuel = steps msem dotsem callsem awaitsem PL fuel).
    { extensionality k'. extensionality st'. apply IH. }
    cbn [steps]. rewrite async_step_result_spawn_eq. apply bind_ext; intros sr.
    rewrite IHf. reflexivity.
  Qed.

  Theorem async_spawn_macro_is_its_plain_counterpart :
    spec msem dotsem callsem awaitsem SP = spec msem dotsem callsem awaitsem PL.
  Proof.
    unfold spec, run_body. cbn [sp_cfg with_spawn is_async is_spawn is_try sp_handler sp_trees]. rewrite Hasync.
    change (max_depth SP) with (max_depth PL).
    rewrite async_steps_spawn_eq. reflexivity.
  Qed.
End AsyncSpawn.
Print Assumptions async_spawn_macro_is_its_plain_counterpart.

(* The hypothesis is satisfiable, and natural: it holds whenever user code (methods, member access, calls) never
   hands back a macro-generated closure / builder - for EVERY program. *)
Section Sufficient.
  Variable msem : string -> option (list operand) -> dval -> list dval -> comp dval.
  Variable dotsem : operand -> list (string * option val) -> dval -> comp dval.
  Variable callsem : val -> list dval -> comp dval.
  Hypothesis Hm : forall m t r ds, leaves (msem m t r ds) fut_or_val.
  Hypothesis Hd : forall o sn r, leaves (dotsem o sn r) fut_or_val.
  Hypothesis Hc : forall f ds, leaves (callsem f ds) fut_or_val.

  (* the callee of `->` is an evaluated user expression: a value *)
  Lemma leaves_apply_val fv ds : leaves (apply callsem (DV fv) ds) fut_or_val.
  Proof.
    cbn [apply]. destruct (all_vals ds); [cbn; intros; exact I|apply Hc].
  Qed.

  Lemma leaves_eval_args sn cp b e c ops : forall i,
    leaves (eval_args sn cp b e i c ops) (Forall is_dv).
  Proof.
    induction ops as [|o r IH]; intros i; cbn [eval_args]; [constructor|].
    apply leaves_bind.
    assert (H1 : leaves (if hoistable c o
                         then match lookup_cap cp (b, e, i) with Some v => Ret (DV v) | None => Panic P_UNBOUND end
                         else Vis (EEval o sn) (fun v => Ret (DV v))) is_dv).
    { destruct (hoistable c o); [destruct (lookup_cap cp (b, e, i)); exact I|cbn; intros; exact I]. }
    eapply leaves_weaken; [|exact H1]. intros d Hd'. apply leaves_bind.
    eapply leaves_weaken; [|apply IH]. intros ds Hds. cbn. constructor; assumption.
  Qed.

  Lemma leaves_sem_node_async sn cp b n recv : leaves (sem_node msem dotsem callsem true sn cp b n recv) fut_or_val.
  Proof.
    destruct n as [e a|e a inner].
    - apply (sem_act_cases msem dotsem callsem (fun c => leaves c fut_or_val)); intros _.
      + apply leaves_bind_any; intros r. apply leaves_bind_any; intros ds. apply Hm.
      + destruct (a_ops a) as [|o [|? ?]]; try exact I. apply leaves_bind_any; intros r. apply Hd.
      + cbv iota. apply leaves_bind_any; intros r. apply leaves_bind_any; intros ds.
        destruct ds as [|f [|? ?]]; try exact I. apply Hm.
      + apply leaves_bind. eapply leaves_weaken; [|apply leaves_eval_args].
        intros ds Hds. destruct ds as [|f [|? ?]]; try exact I.
        apply leaves_bind_any; intros r. inversion Hds as [|? ? Hf _]; subst.
        destruct f; cbn in Hf; try contradiction. apply leaves_apply_val.
      + apply leaves_bind. eapply leaves_weaken; [|apply leaves_eval_args].
        intros ds Hds. destruct ds as [|x [|? ?]]; try exact I. inversion Hds as [|? ? Hx _]; subst.
        destruct x; cbn in Hx; try contradiction. exact I.
      + exact I.
    - apply (DocTable.sem_wrap_cases msem dotsem callsem (fun c => leaves c fut_or_val)); intros _;
        apply leaves_bind_any; intros r; apply Hm.
  Qed.

  Lemma leaves_sem_nodes_async sn cp b ns : forall recv,
    leaves recv fut_or_val -> leaves (sem_nodes msem dotsem callsem true sn cp b ns recv) fut_or_val.
  Proof.
    induction ns as [|x t IH]; intros recv Hr; cbn [sem_nodes]; [exact Hr|].
    apply IH. apply leaves_sem_node_async.
  Qed.

  (* user code that never returns a generated closure: the hypothesis of the theorem holds for every async program *)
  Theorem chains_end_in_futures (p : sprog) :
    is_async (sp_cfg p) = true ->
    forall sn cp k st b, leaves (chain msem dotsem callsem p sn cp k st b) fut_or_val.
  Proof.
    intros Ha sn cp k st b. unfold chain. rewrite Ha. apply leaves_sem_nodes_async.
    unfold start. rewrite Ha. exact I.
  Qed.

  Corollary async_spawn_macro_is_its_plain_counterpart_for_ordinary_user_code awaitsem (p : sprog) :
    is_async (sp_cfg p) = true ->
    spec msem dotsem callsem awaitsem (with_spawn true p) = spec msem dotsem callsem awaitsem (with_spawn false p).
  Proof.
    intros Ha. apply async_spawn_macro_is_its_plain_counterpart; [exact Ha|].
    intros. apply chains_end_in_futures. exact Ha.
  Qed.
End Sufficient.
Print Assumptions async_spawn_macro_is_its_plain_counterpart_for_ordinary_user_code.

(* Non-vacuity: the concrete world of the correspondence runs (Concrete.v) is such user code. *)
From Join Require Import Concrete.

Lemma leaves_if {A} (b : bool) (c1 c2 : comp A) (Q : A -> Prop) :
  leaves c1 Q -> leaves c2 Q -> leaves (if b then c1 else c2) Q.
Proof. intros H1 H2. destruct b; assumption. Qed.

(* method by method: on a future every method returns a future; on a value every leaf is `Ret (DV _)`, after at
   most one call of the argument *)
Lemma c_msem_fut_or_val m t r ds : leaves (c_msem m t r ds) fut_or_val.
Proof.
  unfold c_msem. destruct (as_fut r) as [c|].
  - (* map, and_then, inspect, or_else, map_err: a future for one argument, stuck otherwise *)
    destruct ds as [|f [|? ?]]; do 5 (apply leaves_if; [exact I|]); exact I.
  - destruct r as [v| | | | | |]; try exact I.
    assert (Hcall : forall f args (k : val -> val), leaves (let! w := call1 f args in Ret (DV (k w))) fut_or_val).
    { intros f args k. apply leaves_bind_any. intros w. exact I. }
    apply leaves_if. (* map *)
    { destruct v; try exact I; destruct ds as [|f [|? ?]]; try exact I; apply Hcall. }
    apply leaves_if. (* and_then *)
    { destruct v; try exact I; destruct ds as [|f [|? ?]]; try exact I; apply (Hcall _ _ (fun w => w)). }
    apply leaves_if. (* filter *)
    { destruct v; try exact I; destruct ds as [|f [|? ?]]; try exact I.
      apply leaves_bind_any. intros b. destruct b as [|[|]| | | | | | | | | |]; exact I. }
    apply leaves_if. (* or *)
    { destruct v; try exact I; destruct ds as [|f [|? ?]]; try exact I; destruct f; exact I. }
    apply leaves_if. (* or_else *)
    { destruct v; try exact I; destruct ds as [|f [|? ?]]; try exact I; apply (Hcall _ _ (fun w => w)). }
    apply leaves_if; [|exact I]. (* map_err *)
    destruct v; try exact I; destruct ds as [|f [|? ?]]; try exact I; apply Hcall.
Qed.

Lemma c_dotsem_fut_or_val o sn r : leaves (c_dotsem o sn r) fut_or_val.
Proof. exact I. Qed.

Lemma c_callsem_fut_or_val f ds : leaves (c_callsem f ds) fut_or_val.
Proof. unfold c_callsem. apply leaves_bind_any. intros vs. cbn. intros; exact I. Qed.

Example concrete_world_async_pairs_agree (p : sprog) :
  is_async (sp_cfg p) = true ->
  spec c_msem c_dotsem c_callsem c_await (with_spawn true p) = spec c_msem c_dotsem c_callsem c_await (with_spawn false p).
Proof.
  apply async_spawn_macro_is_its_plain_counterpart_for_ordinary_user_code.
  - apply c_msem_fut_or_val. - apply c_dotsem_fut_or_val. - apply c_callsem_fut_or_val.
Qed.
