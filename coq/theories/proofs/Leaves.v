(* A predicate transformer on computation trees: `leaves c Q` says that every way the computation c
   can end normally (every `Ret a` leaf, whatever the world / scheduler answers) satisfies Q.
   Panic leaves are not constrained.  This is how properties are stated for EVERY world at once.
   (`RefineBase.leaves P c` is the same predicate as an inductive type, with the arguments in the other order; its
   `leaves_bind_inv` and `leaves_mapM` are other statements than the lemmas of those names here.)
   At the end `no_event P c`: no event satisfying P occurs anywhere in c. *)
From Join Require Import Tok Comp.

Fixpoint leaves {A} (c : comp A) (Q : A -> Prop) : Prop :=
  match c with
  | Ret a => Q a
  | Panic _ => True
  | Vis _ k => forall v, leaves (k v) Q
  | Spawn _ _ k => forall h, leaves (k h) Q
  | Join _ k => forall r, leaves (k r) Q
  end.

Lemma leaves_bind {A B} (c : comp A) (f : A -> comp B) (Q : B -> Prop) :
  leaves c (fun a => leaves (f a) Q) -> leaves (bind c f) Q.
Proof.
  revert B f Q. induction c as [A a|A n|A e k IH|A name t IHt k IH|A h k IH]; cbn [bind leaves]; intros B f Q H; auto.
Qed.

Lemma leaves_bind_inv {A B} (c : comp A) (f : A -> comp B) (Q : B -> Prop) :
  leaves (bind c f) Q -> leaves c (fun a => leaves (f a) Q).
Proof.
  revert B f Q. induction c as [A a|A n|A e k IH|A name t IHt k IH|A h k IH]; cbn [bind leaves]; intros B f Q H; auto.
Qed.

Lemma leaves_weaken {A} (c : comp A) (Q Q' : A -> Prop) :
  (forall a, Q a -> Q' a) -> leaves c Q -> leaves c Q'.
Proof.
  revert Q Q'. induction c as [A a|A n|A e k IH|A name t IHt k IH|A h k IH]; cbn [leaves]; intros Q Q' HQ H; eauto.
Qed.

Lemma leaves_conj {A} (c : comp A) (Q Q' : A -> Prop) :
  leaves c Q -> leaves c Q' -> leaves c (fun a => Q a /\ Q' a).
Proof.
  revert Q Q'. induction c as [A a|A n|A e k IH|A name t IHt k IH|A h k IH]; cbn [leaves]; intros Q Q' H H'; auto.
Qed.

Lemma leaves_ret {A} (a : A) (Q : A -> Prop) : Q a -> leaves (Ret a) Q.
Proof. exact (fun H => H). Qed.

Lemma leaves_true {A} (c : comp A) : leaves c (fun _ => True).
Proof. induction c; cbn [leaves]; auto. Qed.

Lemma leaves_bind_any {A B} (c : comp A) (f : A -> comp B) (Q : B -> Prop) :
  (forall a, leaves (f a) Q) -> leaves (bind c f) Q.
Proof.
  intros H. apply leaves_bind. eapply leaves_weaken; [|apply leaves_true]. intros a _. apply H.
Qed.

(* mapM over the results of an earlier mapM: the j-th result still belongs to the j-th element *)
Lemma leaves_mapM_F2 {A B C} (f : B -> comp C) (R : A -> B -> Prop) (R' : A -> C -> Prop) l ys :
  Forall2 R l ys -> (forall a y, In a l -> R a y -> leaves (f y) (R' a)) ->
  leaves (mapM f ys) (fun zs => Forall2 R' l zs).
Proof.
  induction 1 as [|a y l ys Hay H2 IH]; intros Hf; cbn [mapM]; [cbn; constructor|].
  apply leaves_bind. eapply leaves_weaken; [|apply (Hf a y); [left; reflexivity|assumption]].
  intros z Hz. apply leaves_bind. eapply leaves_weaken; [|apply IH; intros; apply Hf; [right|]; assumption].
  intros zs Hzs. cbn. constructor; assumption.
Qed.

Lemma leaves_mapM {A B} (f : A -> comp B) (R : A -> B -> Prop) (l : list A) :
  (forall x, In x l -> leaves (f x) (R x)) ->
  leaves (mapM f l) (fun ys => Forall2 R l ys).
Proof.
  intros H. assert (E : Forall2 eq l l) by (clear H; induction l; constructor; auto).
  apply (leaves_mapM_F2 f eq R l l E). intros x y Hx <-. apply H, Hx.
Qed.

(* events: `no_event P c` - no event satisfying P occurs anywhere in c (on the calling thread's tree
   and in the threads it spawns) *)
Fixpoint no_event {A} (P : ev -> Prop) (c : comp A) : Prop :=
  match c with
  | Ret _ | Panic _ => True
  | Vis e k => ~ P e /\ forall v, no_event P (k v)
  | Spawn _ t k => no_event P t /\ forall h, no_event P (k h)
  | Join _ k => forall r, no_event P (k r)
  end.

Lemma no_event_bind {A B} P (c : comp A) (f : A -> comp B) :
  no_event P c -> (forall a, no_event P (f a)) -> no_event P (bind c f).
Proof.
  revert B f. induction c as [A a|A n|A e k IH|A name t IHt k IH|A h k IH]; cbn [bind no_event]; intros B f H Hf; auto.
  - destruct H; split; auto.
  - destruct H; split; auto.
Qed.
