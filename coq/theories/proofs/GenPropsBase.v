(* GenPropsBase - shared lemmas for the theorems about the generator model `Gen.v`
   (GenPropsA .. GenPropsE): the result monad, what `replace_inner` returns, "never ConfigError after
   JoinOutput::new", induction over a successful `gen_branches`, the unrolling of `gen_steps`, the shape of
   `split_steps`; list facts about `last_error` and `list_max`. *)
From Coq Require Import Lia.
From Join Require Import Tok Names Ast Ir Gen.

(** * The result monad *)

Lemma rbind_ok {A B} (r : res A) (f : A -> res B) b :
  rbind r f = Ok b -> exists a, r = Ok a /\ f a = Ok b.
Proof. destruct r; cbn [rbind]; intros H; try discriminate. eauto. Qed.

Lemma rbind_cfg {A B} (r : res A) (f : A -> res B) n :
  rbind r f = ConfigError n -> r = ConfigError n \/ exists a, r = Ok a /\ f a = ConfigError n.
Proof. destruct r; cbn [rbind]; intros H; try discriminate; [right; eauto|left; congruence]. Qed.

(* invert a hypothesis `rbind r f = Ok b` *)
Ltac inv_bind H :=
  let a := fresh "x" in let E := fresh "E" in
  apply rbind_ok in H; destruct H as (a & E & H).

Definition no_cfg {A} (r : res A) : Prop := forall n, r <> ConfigError n.

Lemma no_cfg_ok {A} (a : A) : no_cfg (Ok a).
Proof. intros n; discriminate. Qed.
Lemma no_cfg_bug {A} n : no_cfg (@InternalBug A n).
Proof. intros m; discriminate. Qed.
Lemma no_cfg_bind {A B} (r : res A) (f : A -> res B) :
  no_cfg r -> (forall a, no_cfg (f a)) -> no_cfg (rbind r f).
Proof.
  intros Hr Hf n H. apply rbind_cfg in H as [H|(a & _ & H)]; [exact (Hr n H)|exact (Hf a n H)].
Qed.
(* `auto with nocfg` closes `no_cfg r` when r is an `Ok _`, an `InternalBug _` or (below) a `meth1 ..` as it stands *)
#[export] Hint Resolve no_cfg_ok no_cfg_bug : nocfg.

Lemma no_cfg_cases {A} (r : res A) : no_cfg r -> (exists a, r = Ok a) \/ (exists n, r = InternalBug n).
Proof. destruct r; intros H; eauto. exfalso; exact (H n eq_refl). Qed.

(** * What `replace_inner` returns *)

(* the number of expression operands of a combinator whose operands can be replaced *)
Definition inner_arity (c : comb) : option nat :=
  match c with
  | Fold | TryFold => Some 2
  | Or | OrElse | MapErr | Initial | Map | Filter | AndThen | Then | Inspect | Chain
  | FilterMap | FindMap | Find | Partition | Zip => Some 1
  | _ => None
  end.

Lemma replace_inner_id {A} c (l : list A) : inner_arity c = Some (List.length l) -> replace_inner c l = Some l.
Proof. destruct c; try discriminate; destruct l as [|x [|y [|z r]]]; try discriminate; reflexivity. Qed.

Lemma can_be_wrapper_arity c : can_be_wrapper c = true -> inner_arity c = Some 1.
Proof. destruct c; try discriminate; reflexivity. Qed.

Lemma last_error_In {A} (l : list A) x : last_error l = Some x -> In x l.
Proof.
  unfold last_error. intros H. apply in_rev. destruct (rev l); [discriminate|]. injection H as ->. now left.
Qed.

(* with any number of operands, what comes back are the first and the last of them *)
Lemma replace_inner_incl {A} c (l args : list A) : replace_inner c l = Some args -> incl args l.
Proof.
  unfold replace_inner. destruct (last_error l) as [lst|] eqn:El; [|discriminate].
  apply last_error_In in El. intros H.
  assert (Hargs : args = [lst] \/ exists x r, l = x :: r /\ args = [x; lst]).
  { destruct c; try discriminate; destruct l as [|x [|y r]]; try discriminate; injection H as <-; eauto. }
  destruct Hargs as [->|(x & r & -> & ->)].
  - intros y [<-|[]]. exact El.
  - intros y [<-|[<-|[]]]; [now left|exact El].
Qed.

(** * After JoinOutput::new nothing returns ConfigError *)

Lemma no_cfg_meth1 prev m args : no_cfg (meth1 prev m args).
Proof. unfold meth1. destruct args as [|f [|g r]]; auto with nocfg. Qed.
#[export] Hint Resolve no_cfg_meth1 : nocfg.

Lemma no_cfg_expand cfg prev c args ops : no_cfg (expand cfg prev c args ops).
Proof.
  unfold expand. destruct c; auto with nocfg;
    try (destruct args as [|f [|g [|h r]]]; cbn; auto with nocfg);
    try (destruct ops as [|o1 [|o2 ops']]; cbn; auto with nocfg).
Qed.

Lemma no_cfg_gen_def_and_step cfg ds prev p : no_cfg (gen_def_and_step cfg ds prev p).
Proof.
  unfold gen_def_and_step. destruct (separate_block_expr p) as [d a].
  apply no_cfg_bind; [apply no_cfg_expand|auto with nocfg].
Qed.

Lemma no_cfg_wrap_last cfg a : no_cfg (wrap_last cfg a).
Proof.
  unfold wrap_last. destruct (a_stk a) as [|[prev w0] [|[cur [w|]] rest]]; auto with nocfg.
  destruct (replace_inner _ _); auto with nocfg.
  apply no_cfg_bind; [apply no_cfg_gen_def_and_step|auto with nocfg].
Qed.

Lemma no_cfg_process_action cfg p m a : no_cfg (process_action cfg p m a).
Proof.
  unfold process_action. destruct m.
  - destruct (a_stk a) as [|[s w] rest]; auto with nocfg.
  - apply no_cfg_wrap_last.
  - destruct (a_stk a) as [|[s w] rest]; auto with nocfg.
    apply no_cfg_bind; [apply no_cfg_gen_def_and_step|auto with nocfg].
Qed.

Lemma no_cfg_process_actions cfg b acts : forall e a, no_cfg (process_actions cfg b e acts a).
Proof.
  induction acts as [|x r IH]; intros e a; cbn [process_actions]; auto with nocfg.
  apply no_cfg_bind; [apply no_cfg_process_action|auto].
Qed.

Lemma no_cfg_close_all cfg : forall fuel a, no_cfg (close_all fuel cfg a).
Proof.
  induction fuel as [|fuel IH]; intros a; cbn [close_all];
    destruct (a_stk a) as [|[s w] [|y r]]; auto with nocfg.
  apply no_cfg_bind; [apply no_cfg_wrap_last|auto].
Qed.

Lemma no_cfg_gen_branch_step j b prev acts : no_cfg (gen_branch_step j b prev acts).
Proof.
  unfold gen_branch_step. apply no_cfg_bind; [apply no_cfg_process_actions|intros; apply no_cfg_close_all].
Qed.

Lemma no_cfg_gen_branches j k vars chains : forall b, no_cfg (gen_branches j k vars b chains).
Proof.
  induction chains as [|ch rest IH]; intros b; cbn [gen_branches]; auto with nocfg.
  apply no_cfg_bind; [apply IH|]. intros tl.
  destruct (nth_error ch k) as [[|x acts]|]; auto with nocfg.
  apply no_cfg_bind; [apply no_cfg_gen_branch_step|auto with nocfg].
Qed.

Lemma no_cfg_gen_step j k vars sr : no_cfg (gen_step j k vars sr).
Proof.
  unfold gen_step. apply no_cfg_bind; [apply no_cfg_gen_branches|].
  intros [defs chains]. destruct (is_async (j_cfg j)); auto with nocfg.
  destruct (thread_builders j k sr); auto with nocfg.
Qed.

Lemma no_cfg_join_steps j k step next pats vars sr : no_cfg (join_steps j k step next pats vars sr).
Proof.
  unfold join_steps.
  destruct (is_try (j_cfg j) && (Nat.ltb k (j_max j - 1))).
  - destruct (j_transpose j); destruct next as [[nss ne]|]; auto with nocfg.
  - destruct (j_transpose j && is_try (j_cfg j)).
    + destruct (transposer _ _); auto with nocfg.
    + destruct (is_try (j_cfg j)).
      * destruct (Nat.ltb 1 (j_branch_count j)); auto with nocfg.
        destruct (map snd _); auto with nocfg.
        destruct (transposer _ _); auto with nocfg.
      * destruct next as [[nss ne]|]; auto with nocfg.
Qed.

Lemma no_cfg_gen_steps j pats vars : forall n k, no_cfg (gen_steps j pats vars k n).
Proof.
  induction n as [|n IH]; intros k; cbn [gen_steps]; auto with nocfg.
  apply no_cfg_bind; [apply IH|]. intros next.
  apply no_cfg_bind; [apply no_cfg_gen_step|]. intros step.
  apply no_cfg_bind; [apply no_cfg_join_steps|auto with nocfg].
Qed.

Lemma no_cfg_gen_output j : no_cfg (gen_output j).
Proof.
  unfold gen_output. apply no_cfg_bind; [apply no_cfg_gen_steps|].
  intros [[sss se]|]; auto with nocfg. destruct (is_async (j_cfg j)); auto with nocfg.
Qed.

(** * The chains of one step *)

(* Induction over a successful `gen_branches`: a branch that has no step k adds nothing; a branch that has one puts
   the definitions of its step before those of the later branches, and its wrapped chain before theirs. *)
Lemma gen_branches_run j k vars (P : nat -> list (list (list action)) -> list rstmt -> list rexpr -> Prop) :
  (forall b, P b [] [] []) ->
  (forall b ch rest defs cs, nth_error ch k = None \/ nth_error ch k = Some [] ->
     P (S b) rest defs cs -> P b (ch :: rest) defs cs) ->
  (forall b ch rest defs cs acts ds s, nth_error ch k = Some acts -> acts <> [] ->
     gen_branch_step j b (nth b vars "") acts = Ok (ds, s) ->
     P (S b) rest defs cs -> P b (ch :: rest) (ds ++ defs) (wrap_branch j k b s :: cs)) ->
  forall chs b defs cs, gen_branches j k vars b chs = Ok (defs, cs) -> P b chs defs cs.
Proof.
  intros Hnil Hskip Hstep. induction chs as [|ch rest IH]; intros b defs cs H; cbn [gen_branches] in H.
  - injection H as <- <-. apply Hnil.
  - inv_bind H. destruct x as [d0 c0]. specialize (IH _ _ _ E).
    destruct (nth_error ch k) as [[|a acts]|] eqn:En; try (injection H as <- <-; apply Hskip; auto).
    inv_bind H. destruct x as [ds s]. injection H as <- <-. now apply (Hstep _ _ _ _ _ (a :: acts)).
Qed.

(** * One more step *)

Lemma gen_steps_S_inv j pats vars k n r :
  gen_steps j pats vars k (S n) = Ok r ->
  exists next step bd, gen_steps j pats vars (S k) n = Ok next /\ gen_step j k vars (n_sr k) = Ok step /\
    join_steps j k step next pats vars (n_sr k) = Ok bd /\ r = Some bd.
Proof. cbn [gen_steps]. intros H. inv_bind H. inv_bind H. inv_bind H. injection H as <-. eauto 7. Qed.

Lemma gen_steps_none j pats vars k n : gen_steps j pats vars k n = Ok None -> n = 0.
Proof. destruct n; [reflexivity|]. intros H. apply gen_steps_S_inv in H as (? & ? & ? & _ & _ & _ & [=]). Qed.

(** * The shape of `split_steps`; `list_max` *)

Lemma split_steps_nonempty ms : split_steps ms <> [].
Proof.
  induction ms as [|m r IH]; cbn [split_steps]; [discriminate|].
  destruct (split_steps r) as [|g gs]; [discriminate|]. destruct (a_deferred m); discriminate.
Qed.

Lemma split_steps_concat ms : List.concat (split_steps ms) = ms.
Proof.
  induction ms as [|m r IH]; cbn [split_steps]; [reflexivity|].
  destruct (split_steps r) as [|g gs] eqn:E.
  - exfalso; exact (split_steps_nonempty r E).
  - cbn [List.concat] in IH. destruct (a_deferred m); cbn [List.concat app]; now rewrite IH.
Qed.

(* every segment but the first is non-empty and starts with a Deferred member; the first is empty only if
   the chain is empty or starts with a Deferred member *)
Lemma split_steps_shape ms :
  exists g gs, split_steps ms = g :: gs /\
    Forall (fun s => exists m s', s = m :: s' /\ a_deferred m = true) gs /\
    (g = [] -> match ms with [] => True | m :: _ => a_deferred m = true end).
Proof.
  induction ms as [|m r (g & gs & E & Hgs & Hg)]; cbn [split_steps].
  - exists [], []. repeat split; auto.
  - rewrite E. destruct (a_deferred m) eqn:Ed.
    + exists [], ((m :: g) :: gs). repeat split; auto. constructor; eauto.
    + exists (m :: g), gs. repeat split; auto. discriminate.
Qed.

Lemma split_steps_members ms s x : In s (split_steps ms) -> In x s -> In x ms.
Proof.
  intros Hs Hx. rewrite <- (split_steps_concat ms). apply in_concat. eauto.
Qed.

Lemma list_max_ge l x : In x l -> x <= list_max l.
Proof. intros H. exact (proj1 (Forall_forall _ _) (proj1 (list_max_le l _) (le_n _)) x H). Qed.

Lemma list_max_In l : l <> [] -> In (list_max l) l.
Proof.
  unfold list_max. induction l as [|y l IH]; [congruence|]. intros _. cbn [fold_right].
  destruct l as [|z l'].
  - cbn. left. lia.
  - destruct (Nat.max_spec y (fold_right Nat.max 0 (z :: l'))) as [[_ ->]|[_ ->]].
    + right. apply IH. discriminate.
    + left. reflexivity.
Qed.
