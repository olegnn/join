(* C18 on the thread machine: a panic of user code ends the thread it happens on, for good:
   the thread delivers `None` to whoever joins it and never makes another event, under every schedule. *)
From Join Require Import Tok Comp Threads ThreadsProps.

Section Panic.
  Variable wstate : Type.
  Variable handle : option string -> ev -> wstate -> option val * wstate.
  Notation fin := (fin wstate).
  Notation thr_of := (thr_of wstate).
  Notation step_rel := (step_rel wstate handle).

  (* the world answers `None` to an event of thread i (= the user expression panics): the thread is finished, panicked *)
  Theorem user_panic_ends_thread s i th e k :
    thr_of s i = Some th -> th_code th = Vis e k ->
    fst (answer handle (th_name th) e (world s)) = None ->
    fin (step_or_skip handle i s) i None.
  Proof.
    intros Hth Hc Hans. unfold step_or_skip, step_thr. unfold ThreadsProps.thr_of in Hth. rewrite Hth, Hc, Hans.
    cbn [vis_next]. unfold ThreadsProps.fin, ThreadsProps.thr_of. cbn [pool].
    exists (set_code th (Panic P_USER)). split; [|reflexivity].
    apply nth_error_upd_eq. eapply nth_error_Some_lt; eauto.
  Qed.

  Theorem finished_thread_is_silent s i r :
    fin s i r ->
    forall sched, fin (run_thr handle sched s) i r /\
                  exists tnew, trace (run_thr handle sched s) = tnew ++ trace s /\ forall x, In x tnew -> fst x <> i.
  Proof.
    intros Hfin sched. apply (run_thr_trace_invariant wstate handle (fun s' => fin s' i r) (fun x => x <> i)); [|exact Hfin].
    intros j s1 s2 Hf Hst. split; [eapply step_fin_stable; eauto|]. right. intros ->. eapply step_not_fin; eauto.
  Qed.

  (* together: after the panic, thread i delivers None and is silent under EVERY continuation of the schedule *)
  Corollary user_panic_is_final s i th e k :
    thr_of s i = Some th -> th_code th = Vis e k ->
    fst (answer handle (th_name th) e (world s)) = None ->
    forall sched,
      let s1 := step_or_skip handle i s in
      fin (run_thr handle sched s1) i None /\
      exists tnew, trace (run_thr handle sched s1) = tnew ++ trace s1 /\ forall x, In x tnew -> fst x <> i.
  Proof.
    intros Hth Hc Hans sched s1. apply finished_thread_is_silent.
    eapply user_panic_ends_thread; eauto.
  Qed.
End Panic.

Print Assumptions user_panic_is_final.
