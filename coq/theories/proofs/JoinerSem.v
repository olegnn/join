(* C16: the run-time meaning of the three constructs the generator emits for the macro options, each for
   arbitrary subexpressions: the step-result binding `let __srK = j(chains);` of a custom joiner (that this IS
   the binding: GenPropsE.joiner_once_per_multi_step), the `move ||` closure of lazy_branches, and the `match`
   on the step result when the macro does not transpose. *)
From Join Require Import Tok Ir Comp Denote CompLaws RefineBase.

Section Joiner.
  Variable unames : list string.
  Variable msem : string -> option (list operand) -> dval -> list dval -> comp dval.
  Variable dotsem : operand -> list (string * option val) -> dval -> comp dval.
  Variable callsem : val -> list dval -> comp dval.
  Variable awaitsem : val -> comp val.
  Notation D := (den unames msem dotsem callsem awaitsem).
  Notation X := (exec unames msem dotsem callsem awaitsem).

  (* the joiner expression is evaluated once, then the arguments in order, then the joiner is invoked ONCE on
     their values, and what it returns is bound to `sr`.  That the arguments are the chains of exactly the active
     branches in branch order and `sr` is __srK is GenPropsE.joiner_once_per_multi_step. *)
  Theorem custom_joiner_step_meaning jt chains sr ρ :
    X (SLet (PIdent sr) (RCall (RUser jt) chains)) ρ =
    (let! j := D (RUser jt) ρ in
     let! ds := mapM (fun c => D c ρ) chains in
     let! r := apply callsem j ds in
     Ret (upd ρ sr r)).
  Proof.
    rewrite exec_SLet_ident, den_RCall_user, dens_mapM. nb. apply bind_ext; intros j.
    nb. apply bind_ext; intros ds. nb. reflexivity.
  Qed.

  (* `move || body`, the form in which lazy_branches(true) hands over each chain (GenPropsE.chain_thunk_iff_lazy):
     a zero-argument closure that runs the body when called *)
  Theorem lazy_branch_is_a_thunk body ρ :
    D (RMoveThunk body) ρ =
    Ret (DF (fun vs => match vs with
                       | [] => let! d := D body ρ in to_val d
                       | _ => Panic P_ILLTYPED end)).
  Proof. apply den_RMoveThunk. Qed.

  (* `match sr { Ok(x) => arm, Err(e) => Err(e) }`, what follows a step of a try kind when the macro does not
     transpose (transpose_results(false)): the step result is treated as ONE Result, already transposed *)
  Theorem no_transpose_step_meaning sr x arm ρ :
    D (RMatchOk (RVar sr) x arm) ρ =
    (let! d := D (RVar sr) ρ in
     match d with
     | DV (VOk v) => D arm (upd ρ x (DV v))
     | DV (VErr e) => Ret (DV (VErr e))
     | _ => Panic P_ILLTYPED
     end).
  Proof. apply den_RMatchOk. Qed.
End Joiner.
Print Assumptions custom_joiner_step_meaning.
