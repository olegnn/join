(* Refinement proof, common infrastructure:
   - `execs` / `dens` / `match_arms` (statement lists, argument lists, the arms of a `match` on an index) and
     unfolding equations for `den` / `exec`, one per constructor (proved once, nearly all by reflexivity; the
     rest of the development rewrites with them and never simplifies `den` directly),
   - `leaves P c`: every value the computation tree `c` can return satisfies `P`; an inductive
     predicate, equivalent to the fixpoint `Leaves.leaves c P` (`leaves_iff`),
   - environments and generated names,
   - small laws of `bind`. *)
From Coq Require Import ZArith.
From Join Require Import Tok Names Ast Ir Gen Comp Std Denote NamesInj CompLaws.
From Join Require Leaves.

Lemma bind_Vis {A B} e (k : val -> comp A) (f : A -> comp B) :
  bind (Vis e k) f = Vis e (fun v => bind (k v) f).
Proof. reflexivity. Qed.

Inductive leaves {A} (P : A -> Prop) : comp A -> Prop :=
| L_Ret a : P a -> leaves P (Ret a)
| L_Panic n : leaves P (Panic n)
| L_Vis e k : (forall v, leaves P (k v)) -> leaves P (Vis e k)
| L_Spawn name t k : (forall h, leaves P (k h)) -> leaves P (Spawn name t k)
| L_Join h k : (forall r, leaves P (k r)) -> leaves P (Join h k).

Lemma leaves_bind {A B} (P : A -> Prop) (Q : B -> Prop) (c : comp A) (f : A -> comp B) :
  leaves P c -> (forall a, P a -> leaves Q (f a)) -> leaves Q (bind c f).
Proof.
  intros Hc Hf. induction Hc; cbn [bind]; try (constructor; auto; fail).
  apply Hf; assumption.
Qed.

Lemma leaves_iff {A} (P : A -> Prop) (c : comp A) : leaves P c <-> Leaves.leaves c P.
Proof.
  split.
  - induction 1; cbn [Leaves.leaves]; auto.
  - revert P. induction c as [A a|A n|A e k IH|A name t IHt k IH|A h k IH]; cbn [Leaves.leaves]; intros P H;
      constructor; auto.
Qed.

Lemma leaves_weaken {A} (P Q : A -> Prop) (c : comp A) :
  leaves P c -> (forall a, P a -> Q a) -> leaves Q c.
Proof. intros Hc HPQ. apply leaves_iff. apply leaves_iff in Hc. exact (Leaves.leaves_weaken c P Q HPQ Hc). Qed.

Lemma leaves_True {A} (c : comp A) : leaves (fun _ => True) c.
Proof. apply leaves_iff, Leaves.leaves_true. Qed.

Lemma leaves_and {A} (P Q : A -> Prop) (c : comp A) :
  leaves P c -> leaves Q c -> leaves (fun a => P a /\ Q a) c.
Proof. intros HP HQ. apply leaves_iff, Leaves.leaves_conj; apply leaves_iff; assumption. Qed.

Lemma bind_ext_leaves {A B} (P : A -> Prop) (c : comp A) (f g : A -> comp B) :
  leaves P c -> (forall a, P a -> f a = g a) -> bind c f = bind c g.
Proof.
  intros Hc Hfg. induction Hc; cbn [bind]; auto.
  - apply Vis_ext; auto.
  - apply Spawn_ext; auto.
  - apply Join_ext; auto.
Qed.

Lemma leaves_bind_inv {A B} (Q : B -> Prop) (c : comp A) (f : A -> comp B) :
  leaves (fun a => leaves Q (f a)) c -> leaves Q (bind c f).
Proof. intros H. eapply leaves_bind; eauto. Qed.

Lemma leaves_mapM {A B} (P : B -> Prop) (f : A -> comp B) (l : list A) :
  (forall a, In a l -> leaves P (f a)) -> leaves (Forall P) (mapM f l).
Proof.
  induction l as [|x r IH]; intros H; cbn [mapM].
  - constructor. constructor.
  - eapply leaves_bind. { apply H. left. reflexivity. }
    intros y Hy. eapply leaves_bind. { apply IH. intros a Ha. apply H. right. exact Ha. }
    intros ys Hys. constructor. constructor; assumption.
Qed.

Lemma leaves_mapM_length {A B} (f : A -> comp B) (l : list A) :
  leaves (fun r => List.length r = List.length l) (mapM f l).
Proof.
  induction l as [|x r IH]; cbn [mapM].
  - constructor. reflexivity.
  - eapply leaves_bind. { apply leaves_True. }
    intros y _. eapply leaves_bind. { apply IH. }
    intros ys Hys. constructor. cbn. congruence.
Qed.

Lemma upd_same ρ x d : upd ρ x d x = Some d.
Proof. unfold upd. rewrite String.eqb_refl. reflexivity. Qed.

Lemma upd_other ρ x d y : y <> x -> upd ρ x d y = ρ y.
Proof. intros H. unfold upd. apply String.eqb_neq in H. rewrite H. reflexivity. Qed.

(* user identifiers: anything that does not start with two underscores *)
Definition user_ident (x : string) : Prop := String.prefix "__" x = false.

Lemma user_ident_neq_gname x g : user_ident x -> x <> gname_str g.
Proof. apply user_name_not_gen. Qed.

(* every generated name is `gname_str` of its tag by computation (`n_sr_g` below, for __sr<i>), so two of
   them differ by this lemma and `discriminate` on the tags *)
Lemma gname_neq g g' : g <> g' -> gname_str g <> gname_str g'.
Proof. intros N E. apply N. apply gen_names_distinct. exact E. Qed.

Lemma n_sr_g i : n_sr i = gname_str (GSR i). Proof. reflexivity. Qed.

Section DenEq.
  Variable unames : list string.
  Variable msem : string -> option (list operand) -> dval -> list dval -> comp dval.
  Variable dotsem : operand -> list (string * option val) -> dval -> comp dval.
  Variable callsem : val -> list dval -> comp dval.
  Variable awaitsem : val -> comp val.

  Notation D := (den unames msem dotsem callsem awaitsem).
  Notation X := (exec unames msem dotsem callsem awaitsem).
  Notation snapρ := (snap unames).
  Notation app_d := (apply callsem).
  Notation glue_d := (glue awaitsem).

  Fixpoint execs (ss : list rstmt) (ρ : env) {struct ss} : comp env :=
    match ss with
    | [] => Ret ρ
    | s :: r => let! ρ' := X s ρ in execs r ρ'
    end.

  Definition dens (ρ : env) (l : list rexpr) : comp (list dval) := dens_with (fun x => D x ρ) l.

  Definition match_arms (ρ : env) (i : Z) : list (nat * rexpr) -> comp dval :=
    fix go (l : list (nat * rexpr)) : comp dval :=
      match l with
      | [] => Panic P_UNREACHABLE
      | (n, x) :: r => if Z.eqb (Z.of_nat n) i then D x ρ else go r
      end.
  Lemma match_arms_nil ρ i : match_arms ρ i [] = Panic P_UNREACHABLE.
  Proof. reflexivity. Qed.
  Lemma match_arms_cons ρ i n x r :
    match_arms ρ i ((n, x) :: r) = if Z.eqb (Z.of_nat n) i then D x ρ else match_arms ρ i r.
  Proof. reflexivity. Qed.

  Lemma execs_nil ρ : execs [] ρ = Ret ρ.
  Proof. reflexivity. Qed.
  Lemma execs_cons s r ρ : execs (s :: r) ρ = let! ρ' := X s ρ in execs r ρ'.
  Proof. reflexivity. Qed.
  Lemma execs_app l1 l2 ρ : execs (l1 ++ l2) ρ = let! ρ' := execs l1 ρ in execs l2 ρ'.
  Proof.
    revert ρ. induction l1 as [|s r IH]; intros ρ; cbn [app execs].
    - reflexivity.
    - rewrite bind_assoc. apply bind_ext. intros ρ'. apply IH.
  Qed.

  Lemma dens_nil ρ : dens ρ [] = Ret [].
  Proof. reflexivity. Qed.
  Lemma dens_cons ρ x r : dens ρ (x :: r) = let! d := D x ρ in let! ds := dens ρ r in Ret (d :: ds).
  Proof. reflexivity. Qed.
  Lemma dens_mapM ρ l : dens ρ l = mapM (fun x => D x ρ) l.
  Proof. induction l as [|x r IH]; [reflexivity|]. rewrite dens_cons. cbn [mapM]. rewrite IH. reflexivity. Qed.

  Lemma den_RUser o ρ : D (RUser o) ρ = Vis (EEval o (snapρ ρ)) (fun v => Ret (DV v)).
  Proof. reflexivity. Qed.
  Lemma den_RVar x ρ : D (RVar x) ρ = match ρ x with Some d => Ret d | None => Panic P_UNBOUND end.
  Proof. reflexivity. Qed.
  Lemma den_RUsize n ρ : D (RUsize n) ρ = Ret (DV (VInt (Z.of_nat n))).
  Proof. reflexivity. Qed.
  Lemma den_RBool b ρ : D (RBool b) ρ = Ret (DV (VBool b)).
  Proof. reflexivity. Qed.
  Lemma den_RBlock ss e ρ : D (RBlock ss e) ρ = let! ρ' := execs ss ρ in D e ρ'.
  Proof. reflexivity. Qed.
  Lemma den_RBlock_nil e ρ : D (RBlock [] e) ρ = D e ρ.
  Proof. reflexivity. Qed.
  Lemma den_RAsyncMove ss e ρ :
    D (RAsyncMove ss e) ρ = Ret (DFut (let! ρ' := execs ss ρ in let! d := D e ρ' in to_val d)).
  Proof. reflexivity. Qed.
  Lemma den_RAwait e ρ : D (RAwait e) ρ = let! d := D e ρ in let! v := await_d awaitsem d in Ret (DV v).
  Proof. reflexivity. Qed.
  Lemma den_RBoxPin e ρ : D (RBoxPin e) ρ = D e ρ.
  Proof. reflexivity. Qed.
  Lemma den_RTuple es ρ :
    D (RTuple es) ρ =
    match es with
    | [x] => D x ρ
    | _ => let! ds := dens ρ es in
           match all_vals ds with Some vs => Ret (DV (VTuple vs)) | None => Panic P_ILLTYPED end
    end.
  Proof. destruct es as [|x [|y r]]; reflexivity. Qed.
  Lemma den_RArray es ρ :
    D (RArray es) ρ = let! ds := dens ρ es in
                      match all_vals ds with Some vs => Ret (DV (VList vs)) | None => Panic P_ILLTYPED end.
  Proof. reflexivity. Qed.
  Lemma den_RField e i ρ :
    D (RField e i) ρ = let! d := D e ρ in
                       match d with
                       | DV (VTuple vs) => match nth_error vs i with Some v => Ret (DV v) | None => Panic P_ILLTYPED end
                       | _ => Panic P_ILLTYPED
                       end.
  Proof. reflexivity. Qed.
  Lemma den_RMeth recv m tf args ρ :
    D (RMeth recv m tf args) ρ = let! r := D recv ρ in let! ds := dens ρ args in msem m tf r ds.
  Proof. reflexivity. Qed.
  Lemma den_RGlue recv m args ρ :
    D (RGlue recv m args) ρ = let! r := D recv ρ in let! ds := dens ρ args in glue_d m r ds.
  Proof. reflexivity. Qed.
  Lemma den_RDot recv o ρ : D (RDot recv o) ρ = let! r := D recv ρ in dotsem o (snapρ ρ) r.
  Proof. reflexivity. Qed.
  Lemma den_RCall_mac path try args ρ :
    D (RCall (RJoinMac path try) args) ρ =
    let! ds := dens ρ args in
    let! v := (if try then try_join_seq awaitsem ds [] else join_seq awaitsem ds) in Ret (DV v).
  Proof. reflexivity. Qed.
  Lemma den_RCall_var x args ρ :
    D (RCall (RVar x) args) ρ = let! df := D (RVar x) ρ in let! ds := dens ρ args in app_d df ds.
  Proof. reflexivity. Qed.
  Lemma den_RCall_user o args ρ :
    D (RCall (RUser o) args) ρ = let! df := D (RUser o) ρ in let! ds := dens ρ args in app_d df ds.
  Proof. reflexivity. Qed.
  Lemma den_RThenCall o arg ρ :
    D (RThenCall o arg) ρ = let! df := D o ρ in let! da := D arg ρ in app_d df [da].
  Proof. reflexivity. Qed.
  Lemma den_RClosure x body ρ :
    D (RClosure x body) ρ =
    Ret (DF (fun vs => match vs with
                       | [v] => let! d := D body (upd ρ x (DV v)) in to_val d
                       | _ => Panic P_ILLTYPED end)).
  Proof. reflexivity. Qed.
  Lemma den_RClosureMove x body ρ :
    D (RClosureMove x body) ρ =
    Ret (DF (fun vs => match vs with
                       | [v] => let! d := D body (upd ρ x (DV v)) in to_val d
                       | _ => Panic P_ILLTYPED end)).
  Proof. reflexivity. Qed.
  Lemma den_RClosureMove_RClosure x body ρ : D (RClosureMove x body) ρ = D (RClosure x body) ρ.
  Proof. reflexivity. Qed.
  Lemma den_wrapper_closure cfg inner ρ : D (wrapper_closure cfg inner) ρ = D (RClosure n_v inner) ρ.
  Proof. unfold wrapper_closure. destruct (is_async cfg && is_spawn cfg); reflexivity. Qed.
  Lemma den_RClosureIgn body ρ :
    D (RClosureIgn body) ρ =
    Ret (DF (fun vs => match vs with
                       | [_] => let! d := D body ρ in to_val d
                       | _ => Panic P_ILLTYPED end)).
  Proof. reflexivity. Qed.
  Lemma den_RMoveThunk body ρ :
    D (RMoveThunk body) ρ =
    Ret (DF (fun vs => match vs with
                       | [] => let! d := D body ρ in to_val d
                       | _ => Panic P_ILLTYPED end)).
  Proof. reflexivity. Qed.
  Lemma den_RNot e ρ :
    D (RNot e) ρ = let! d := D e ρ in
                   match d with DV (VBool b) => Ret (DV (VBool (negb b))) | _ => Panic P_ILLTYPED end.
  Proof. reflexivity. Qed.
  Lemma den_RRef e ρ : D (RRef e) ρ = D e ρ.
  Proof. reflexivity. Qed.
  Lemma den_RUnreachable ρ : D RUnreachable ρ = Panic P_UNREACHABLE.
  Proof. reflexivity. Qed.
  Lemma den_RIfLetSome x scrut thn els ρ :
    D (RIfLetSome x scrut thn els) ρ =
    let! d := D scrut ρ in
    match d with
    | DV (VSome v) => D thn (upd ρ x (DV v))
    | DV VNone => D els ρ
    | _ => Panic P_ILLTYPED
    end.
  Proof. reflexivity. Qed.
  Lemma den_RMatchIdx scrut arms ρ :
    D (RMatchIdx scrut arms) ρ =
    let! d := D scrut ρ in
    match d with
    | DV (VInt i) => match_arms ρ i arms
    | _ => Panic P_ILLTYPED
    end.
  Proof. reflexivity. Qed.
  Lemma den_RMatchOk scrut x arm ρ :
    D (RMatchOk scrut x arm) ρ =
    let! d := D scrut ρ in
    match d with
    | DV (VOk v) => D arm (upd ρ x (DV v))
    | DV (VErr e) => Ret (DV (VErr e))
    | _ => Panic P_ILLTYPED
    end.
  Proof. reflexivity. Qed.
  Lemma den_ROk e ρ : D (ROk e) ρ = let! d := D e ρ in let! v := to_val d in Ret (DV (VOk v)).
  Proof. reflexivity. Qed.

  Lemma exec_SLet p e ρ :
    X (SLet p e) ρ = let! d := D e ρ in
                     match bind_pat p d ρ with Some ρ' => Ret ρ' | None => Panic P_ILLTYPED end.
  Proof. reflexivity. Qed.
  Lemma exec_SExpr e ρ : X (SExpr e) ρ = let! _ := D e ρ in Ret ρ.
  Proof. reflexivity. Qed.
  Lemma exec_SFn name sig params body ρ :
    X (SFn name sig params body) ρ =
    Ret (upd ρ name (DFn (fun vs => match bind_params params vs with
                                    | Some ρf => let! d := D body ρf in to_val d
                                    | None => Panic P_ILLTYPED end))).
  Proof. reflexivity. Qed.
  Lemma exec_STbFn ρ : X STbFn ρ = Ret (upd ρ n_tb DTb).
  Proof. reflexivity. Qed.
  Lemma exec_SSpawnTokioFn p ρ : X (SSpawnTokioFn p) ρ = Ret (upd ρ n_spawn_tokio DSpawnTokio).
  Proof. reflexivity. Qed.
  Lemma exec_SUseFutures p ρ : X (SUseFutures p) ρ = Ret ρ.
  Proof. reflexivity. Qed.

  Lemma exec_SLet_ident x e ρ : X (SLet (PIdent x) e) ρ = let! d := D e ρ in Ret (upd ρ x d).
  Proof. reflexivity. Qed.

  Lemma snap_upd_other ρ x d : ~ In x unames -> snapρ (upd ρ x d) = snapρ ρ.
  Proof.
    intros H. unfold snap. apply map_ext_in. intros y Hy.
    rewrite upd_other; [reflexivity|]. intro E. subst. contradiction.
  Qed.
End DenEq.
