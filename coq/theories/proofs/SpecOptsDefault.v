(* The reference semantics with options (SpecOpts.v) EXTENDS the reference semantics of the default
   options (Spec.v): under `default_opts cfg` every level - step result, steps, whole macro - is
   Spec.v's, for every program (no well-formedness needed), every kind, every user-code semantics. *)
From Coq Require Import Lia.
From Join Require Import Tok Ast Comp Std Spec SpecOpts CompLaws SpecProps RefineBase.

(* the tuple of handles built by the macro itself has one handle per active branch: joining "by index"
   is joining them all, in order *)
Lemma join_handles_tuple (handles : list dval) :
  (let! hs := vals_tuple handles in join_handles (List.length handles) hs) =
  (let! hs := vals_tuple handles in
   let! vs := mapM (fun h => match h with
                             | VHandle i => let! r := std_join i in let! u := std_unwrap r in to_val u
                             | _ => Panic P_ILLTYPED end)
                   (match hs with DV (VTuple l) => l | _ => [] end) in
   Ret (DV (VTuple vs))).
Proof.
  unfold vals_tuple. destruct (all_vals handles) as [l|] eqn:E; [|reflexivity].
  rewrite !bind_ret_l. unfold join_handles. rewrite <- (all_vals_length _ _ E).
  exact (f_equal (fun c => let! vs := c in Ret (DV (VTuple vs)))
           (mapM_seq_nth (fun o : option val => match o with
                                                | Some (VHandle h) => let! r := std_join h in let! u := std_unwrap r in to_val u
                                                | _ => Panic P_ILLTYPED end) l [])).
Qed.

Section Default.
  Variable msem : string -> option (list operand) -> dval -> list dval -> comp dval.
  Variable dotsem : operand -> list (string * option val) -> dval -> comp dval.
  Variable callsem : val -> list dval -> comp dval.
  Variable awaitsem : val -> comp val.
  Variable p : sprog.

  Notation so := (default_opts (sp_cfg p)).

  (* the step reads only two of the options *)
  Theorem step_result_opts_default o k st :
    so_joiner o = None -> so_lazy o = is_spawn (sp_cfg p) && negb (is_async (sp_cfg p)) ->
    step_result_opts msem dotsem callsem awaitsem o p k st = step_result msem dotsem callsem awaitsem p k st.
  Proof.
    intros Hj Hl. unfold step_result_opts, step_result, branch_arg, eval_joiner. rewrite Hj, Hl.
    destruct (is_async (sp_cfg p)) eqn:Ha; cbn [negb].
    - rewrite andb_false_r. apply bind_ext. intros cp.
      destruct (Nat.ltb 1 (List.length (actives p k))); reflexivity.
    - rewrite andb_true_r. destruct (is_spawn (sp_cfg p)) eqn:Hs; cbn [andb].
      + destruct (Nat.ltb 1 (List.length (actives p k))) eqn:Hm.
        * eapply bind_ext_leaves; [apply leaves_mapM_length|]. intros builders Hbl.
          apply bind_ext. intros cp. rewrite bind_ret_l.
          rewrite (mapM_ext_in
                     (fun nb : dval * nat =>
                        let! a := Ret (thunk_of (chain msem dotsem callsem p (snap_of p st) cp k st (snd nb))) in
                        spawn_thread (fst nb) a)
                     (fun nb : dval * nat =>
                        match fst nb with
                        | DBuilder name =>
                            let! h := std_spawn name (fun _ => let! d := chain msem dotsem callsem p (snap_of p st) cp k st (snd nb) in to_val d) in
                            std_unwrap h
                        | _ => Panic P_ILLTYPED
                        end)).
          2:{ intros [bd b] _. cbn [fst snd]. rewrite bind_ret_l. unfold spawn_thread, thunk_of.
              destruct bd; reflexivity. }
          eapply bind_ext_leaves; [apply leaves_mapM_length|]. intros handles Hhl.
          rewrite combine_length, Hbl, Nat.min_id in Hhl. rewrite <- Hhl.
          apply join_handles_tuple.
        * reflexivity.
      + apply bind_ext. intros cp.
        destruct (Nat.ltb 1 (List.length (actives p k))); reflexivity.
  Qed.

  Theorem steps_opts_default : forall fuel k st,
    steps_opts msem dotsem callsem awaitsem so p fuel k st = steps msem dotsem callsem awaitsem p fuel k st.
  Proof.
    induction fuel as [|f IH]; intros k st; [reflexivity|].
    cbn [steps_opts steps]. rewrite (step_result_opts_default so k st eq_refl eq_refl). apply bind_ext. intros sr.
    assert (Eo : so_transpose so = is_try (sp_cfg p) && negb (is_async (sp_cfg p))) by reflexivity.
    revert IH Eo. generalize so. intros o IH Eo. rewrite Eo. clear Eo.
    destruct (is_try (sp_cfg p)) eqn:Ht; cbn [negb andb].
    - destruct (is_async (sp_cfg p)) eqn:Ha; cbn [negb].
      + destruct sr as [[]| | | | | |]; try reflexivity.
        destruct (Nat.eqb f 0); [reflexivity|].
        rewrite bind_assoc. apply bind_ext. intros rew. rewrite bind_ret_l.
        apply bind_ext. intros ds. apply IH.
      + apply bind_ext. intros ds. destruct (Nat.eqb f 0); [reflexivity|].
        apply bind_ext. intros oks. destruct (first_false oks ds); [reflexivity|apply IH].
    - apply bind_ext. intros ds. destruct (Nat.eqb f 0); [reflexivity|apply IH].
  Qed.

  Theorem spec_opts_default :
    spec_opts msem dotsem callsem awaitsem so p = spec msem dotsem callsem awaitsem p.
  Proof.
    unfold spec_opts, spec, run_body_opts, run_body. rewrite steps_opts_default. reflexivity.
  Qed.
End Default.

Print Assumptions spec_opts_default.
