(* C10, the DYNAMIC half, and C11 (captures before chains), on the reference semantics itself:
   "every user-written expression that control flow reaches is evaluated exactly once per macro
    evaluation, and callbacks are invoked exactly as often as the underlying method invokes them".

   Setting.  User expressions are evaluated by the events `Vis (EEval o sn) k` of Spec.v
   (`capture_ops`: block operands, ahead of their step; `eval_args`: every other expression operand,
   when the chain reaches its operator; `run_body`: the handler expression, first).  A RUN of a
   computation is a path through its tree that ends in `Ret`: `run ans c a tr` - the world answers
   every event e with some v such that `ans e v`, the result is a, tr is the list of events met.
     ans := fun e v => h e = Some v   the deterministic stateless world h (`runT h`, `runT_run`);
     ans := fun _ _ => True           EVERY path, hence every world whatsoever (stateful, nondeterministic).
   All theorems are for an arbitrary `ans`.

   Identity of operand positions: `IOperand b k e i` (branch, step, position of the action in its
   step, operand index) and `IHandler`; `once_positions sp` lists the positions that are evaluated once
   per macro evaluation with their operands.  Two positions that hold the same tokens give
   indistinguishable events, so "exactly once" is stated as a MULTISET equation: the list of operands of the `EEval` events of the trace is a
   `Permutation` of the list of operands of all positions (`all_operand_occurrences sp` =
   `map snd (once_positions sp)`, with multiplicity): the two lists have the same length and every
   token list occurs in the trace as often as there are positions holding it.  When the positions hold
   pairwise different tokens this reads "each occurs once, nothing else occurs" (`exactly_once_of_perm`,
   a fact about lists that no theorem below assumes).  The identities themselves are pairwise different
   (`once_positions_NoDup`, `prepared_once_positions_NoDup`): the labelling is injective.  Events carry
   no identity, so the two facts stand side by side and are not one statement.

   Wrappers.  The closure of a wrapper `X >>> inner <<<` is called by the user's method as often as
   the method likes; each call evaluates the non-hoisted operands of `inner` once.  So the operands
   of the trace are those of the once-positions PLUS whole "groups": a group is the list of the
   non-hoisted operands directly inside one wrapper (`wrap_group`); one group = one call.
   `acc Q L c`: every run of c ends in a result satisfying Q and its `EEval` operands are, as a
   multiset, L plus whole groups of the set W.

   The hypothesis on user code (`msem`, `dotsem`, `callsem`, `awaitsem`) is `SpecCode.user_codeC` at
   the class `gcls` = "the `EEval` events are whole groups only" (`user_code_once ans W`): user code
   makes no `EEval` event of its own, RELATIVE to the closures and futures it is given - if those
   evaluate whole groups only, so does the method that calls them.  (Unconditionally "no `EEval`
   event" would be unsatisfiable for every method that calls its closure, e.g. `map`.)
   Instance: `ExOnce.user_code_ex` (for every world and every W).
   The structural hypothesis `wf_prog sp` (`Initial` only at the head of a chain: anywhere else Spec.v
   lets it DROP its receiver) holds for every parsed program (`parsed_wf_prog`).

   The thread kinds (join_spawn!, try_join_spawn!) are not treated here (see `run`);
   `SpecSpawn.spawn_macro_agrees_with_plain` relates them to the plain kinds. *)
From Coq Require Import ZArith Lia Permutation.
From Join Require Import Tok Ast Comp Std Denote Spec SpecProps SpecCode.
From Join Require RefineCorollaries GenPropsC.
Local Open Scope nat_scope.

Local Notation top := (fun _ => True).

Definition is_eeval (e : ev) : Prop := match e with EEval _ _ => True | _ => False end.
Definition eeval_of (e : ev) : list operand := match e with EEval o _ => [o] | _ => [] end.
Definition eevals (tr : list ev) : list operand := flat_map eeval_of tr.

Lemma eevals_app t1 t2 : eevals (t1 ++ t2) = eevals t1 ++ eevals t2.
Proof. apply flat_map_app. Qed.

Lemma eevals_all_eeval tr : Forall is_eeval tr -> List.length (eevals tr) = List.length tr.
Proof.
  induction 1 as [|e tr He _ IH]; [reflexivity|].
  destruct e; try contradiction. cbn. f_equal. exact IH.
Qed.

Section Runs.
  Variable ans : ev -> val -> Prop.

  (* sequential runs.  There is no rule for `Spawn` / `Join`: a computation that reaches one has no run,
     so every statement about `run` holds of join_spawn! / try_join_spawn! for an empty reason and says
     something of the kinds without OS threads only. *)
  Inductive run {A : Type} : comp A -> A -> list ev -> Prop :=
  | run_ret a : run (Ret a) a []
  | run_vis e k v a tr : ans e v -> run (k v) a tr -> run (Vis e k) a (e :: tr).

  Lemma run_ret_inv {A} (a a' : A) tr : run (Ret a) a' tr -> a' = a /\ tr = [].
  Proof. intros H. inversion H; subst. auto. Qed.

  Lemma run_panic_inv {A} n (a : A) tr : run (Panic n) a tr -> False.
  Proof. intros H. inversion H. Qed.

  Lemma run_vis_inv {A} e (k : val -> comp A) a tr :
    run (Vis e k) a tr -> exists v tr', ans e v /\ run (k v) a tr' /\ tr = e :: tr'.
  Proof. intros H. inversion H; subst. eauto. Qed.

  Lemma run_bind_inv {A B} (c : comp A) (f : A -> comp B) b tr :
    run (bind c f) b tr -> exists a t1 t2, run c a t1 /\ run (f a) b t2 /\ tr = t1 ++ t2.
  Proof.
    revert tr. induction c as [A a|A n|A e k IH|A name t IHt k IH|A h k IH]; cbn [bind]; intros tr H.
    - exists a, [], tr. repeat split; [constructor|exact H].
    - destruct (run_panic_inv _ _ _ H).
    - apply run_vis_inv in H. destruct H as (v & tr' & Hv & H & ->).
      destruct (IH v f tr' H) as (a & t1 & t2 & H1 & H2 & ->).
      exists a, (e :: t1), t2. repeat split; [econstructor; eauto|exact H2].
    - inversion H.
    - inversion H.
  Qed.

  Lemma run_bind {A B} (c : comp A) (f : A -> comp B) a t1 b t2 :
    run c a t1 -> run (f a) b t2 -> run (bind c f) b (t1 ++ t2).
  Proof.
    intros H1 H2. induction H1 as [a|e k v a tr Hv H1 IH]; cbn [bind app]; [exact H2|].
    econstructor; eauto.
  Qed.
End Runs.

Fixpoint runT (h : ev -> option val) {A} (c : comp A) : option (A * list ev) :=
  match c with
  | Ret a => Some (a, [])
  | Vis e k => match h e with
               | Some v => match runT h (k v) with Some (a, tr) => Some (a, e :: tr) | None => None end
               | None => None
               end
  | _ => None
  end.

Lemma runT_run h {A} (c : comp A) a tr :
  runT h c = Some (a, tr) <-> run (fun e v => h e = Some v) c a tr.
Proof.
  split.
  - revert a tr. induction c as [A a0|A n|A e k IH|A name t IHt k IH|A i k IH]; cbn [runT]; intros a tr H; try discriminate.
    + injection H as <- <-. constructor.
    + destruct (h e) as [v|] eqn:E; [|discriminate].
      destruct (runT h (k v)) as [[a' tr']|] eqn:E'; [|discriminate].
      injection H as <- <-. econstructor; eauto.
  - intros H. induction H as [a|e k v a tr Hv H IH]; cbn [runT]; [reflexivity|].
    rewrite Hv, IH. reflexivity.
Qed.

(* The expression operands of an action `a` at position e of step k of branch b are
   `exprs_of a` = o_0, o_1, ..; operand i has the identity (b, k, e, i).  Where it is evaluated:
     - `hoistable (a_comb a) o_i = true` (a `{..}` block of an operator that takes expressions):
       in phase 1 of the step (`capture_ops`), at any wrapper depth;
     - otherwise by `eval_args`, when the chain reaches the operator - except for `Dot`, whose
       operand is not an expression but the member tokens `recv.<tokens>` (`dotsem`), and
       `UNWRAP` (no meaning in Spec.v). *)
Definition direct_of (c : comb) (xs : list operand) : list operand :=
  match c with
  | Dot | UNWRAP => []
  | _ => filter (fun o => negb (hoistable c o)) xs
  end.

Fixpoint node_captured (n : node) : list operand :=
  match n with
  | NAct _ a => filter (hoistable (a_comb a)) (exprs_of a)
  | NWrap _ _ inner => flat_map node_captured inner
  end.
Definition node_direct (n : node) : list operand :=
  match n with
  | NAct _ a => direct_of (a_comb a) (exprs_of a)
  | NWrap _ _ _ => []
  end.
(* the group of a wrapper `X >>> inner <<<`: what ONE call of its closure evaluates by itself *)
Definition wrap_group (inner : list node) : list operand := flat_map node_direct inner.
Fixpoint node_groups (n : node) : list (list operand) :=
  match n with
  | NAct _ _ => []
  | NWrap _ _ inner => wrap_group inner :: flat_map node_groups inner
  end.

(* `Initial` (the first expression of a branch) ignores its receiver: Spec.v gives it a meaning at
   any place of a chain, but a parsed branch has it at the head of its first step only.  Elsewhere it
   would DROP the chain before it (those operands would be evaluated zero times), so: *)
Definition is_initial (n : node) : bool :=
  match n with NAct _ a => comb_eqb (a_comb a) Initial | NWrap _ _ _ => false end.
Definition ninit (n : node) : bool := negb (is_initial n).
Fixpoint wf_node (n : node) : bool :=
  match n with
  | NAct _ _ => true
  | NWrap _ _ inner => forallb wf_node inner && forallb ninit (tl inner)
  end.
Definition wf_nodes (l : list node) : bool := forallb wf_node l && forallb ninit (tl l).

Section ProgOps.
  Variable p : sprog.

  Definition step_captured (k : nat) : list operand :=
    flat_map (fun b => flat_map node_captured (tree p b k)) (actives p k).
  Definition step_direct (k : nat) : list operand :=
    flat_map (fun b => flat_map node_direct (tree p b k)) (actives p k).
  Definition step_ops (k : nat) : list operand := step_captured k ++ step_direct k.
  Definition steps_ops (k m : nat) : list operand := flat_map step_ops (seq k m).
  Definition handler_operand : list operand :=
    match sp_handler p with Some (_, o) => [o] | None => [] end.

  (* the operands of all positions that are evaluated once per macro evaluation: the handler expression,
     and for every step k and every branch that has a step k (`SpecProps.actives_spec`) the hoisted blocks
     (at any wrapper depth) and the operands outside wrappers; enumerated step by step, in a step the
     hoisted blocks and then the chains in branch order (not the order of evaluation inside a chain:
     `act_order`) - branch by branch it is `all_operand_occurrences_by_branch` *)
  Definition all_operand_occurrences : list operand := handler_operand ++ steps_ops 0 (max_depth p).

  Definition program_groups : list (list operand) :=
    flat_map (fun t => flat_map (fun s => flat_map node_groups s) t) (sp_trees p).
  Definition wf_prog : bool := forallb (forallb wf_nodes) (sp_trees p).

  Lemma tree_cases b k : tree p b k = [] \/ exists t, In t (sp_trees p) /\ In (tree p b k) t.
  Proof.
    unfold tree. destruct (nth_in_or_default b (sp_trees p) []) as [Hb|Hb].
    - destruct (nth_in_or_default k (nth b (sp_trees p) []) []) as [Hk|Hk]; [|left; exact Hk].
      right. eexists. split; [exact Hb|exact Hk].
    - left. rewrite Hb. destruct k; reflexivity.
  Qed.

  Lemma tree_groups b k : incl (flat_map node_groups (tree p b k)) program_groups.
  Proof.
    destruct (tree_cases b k) as [E|(t & Ht & Hs)]; [rewrite E; intros g []|].
    intros g Hg. unfold program_groups. apply in_flat_map. exists t. split; [exact Ht|].
    apply in_flat_map. exists (tree p b k). split; assumption.
  Qed.

  Lemma tree_wf b k : wf_prog = true -> wf_nodes (tree p b k) = true.
  Proof.
    intros Hwf. destruct (tree_cases b k) as [E|(t & Ht & Hs)]; [rewrite E; reflexivity|].
    unfold wf_prog in Hwf. rewrite forallb_forall in Hwf. specialize (Hwf t Ht).
    rewrite forallb_forall in Hwf. apply Hwf, Hs.
  Qed.

  Lemma steps_ops_S k m : steps_ops k (S m) = step_ops k ++ steps_ops (S k) m.
  Proof. reflexivity. Qed.
  Lemma steps_ops_snoc k m : steps_ops k (S m) = steps_ops k m ++ step_ops (k + m).
  Proof.
    unfold steps_ops. rewrite seq_S, flat_map_app. cbn [flat_map]. rewrite app_nil_r. reflexivity.
  Qed.
End ProgOps.

Inductive ident := IOperand (b k e i : nat) | IHandler.

Definition ops_pos (b k e : nat) (keep : operand -> bool) (xs : list operand) : list (ident * operand) :=
  map (fun io => (IOperand b k e (fst io), snd io)) (filter (fun io => keep (snd io)) (enum_from 0 xs)).
Definition direct_pos (b k e : nat) (c : comb) (xs : list operand) : list (ident * operand) :=
  match c with
  | Dot | UNWRAP => []
  | _ => ops_pos b k e (fun o => negb (hoistable c o)) xs
  end.
Fixpoint node_captured_pos (b k : nat) (n : node) : list (ident * operand) :=
  match n with
  | NAct e a => ops_pos b k e (hoistable (a_comb a)) (exprs_of a)
  | NWrap _ _ inner => flat_map (node_captured_pos b k) inner
  end.
Definition node_direct_pos (b k : nat) (n : node) : list (ident * operand) :=
  match n with
  | NAct e a => direct_pos b k e (a_comb a) (exprs_of a)
  | NWrap _ _ _ => []
  end.
Definition wrap_group_pos (b k : nat) (inner : list node) : list (ident * operand) :=
  flat_map (node_direct_pos b k) inner.

Lemma map_flat_map {X Y Z} (h : Y -> Z) (f : X -> list Y) (l : list X) :
  map h (flat_map f l) = flat_map (fun x => map h (f x)) l.
Proof. induction l as [|x l IH]; cbn [flat_map map]; [reflexivity|]. rewrite map_app, IH. reflexivity. Qed.

Lemma map_snd_flat_map {X Y Z} (f : X -> list (Y * Z)) (g : X -> list Z) (l : list X) :
  (forall x, map snd (f x) = g x) -> map snd (flat_map f l) = flat_map g l.
Proof. intros H. rewrite map_flat_map. apply flat_map_ext, H. Qed.

Lemma ops_pos_operands b k e keep xs : map snd (ops_pos b k e keep xs) = filter keep xs.
Proof.
  unfold ops_pos. rewrite map_map. cbn [snd]. generalize 0.
  induction xs as [|o r IH]; intros i; cbn [enum_from filter map snd]; [reflexivity|].
  destruct (keep o); cbn [map snd]; rewrite IH; reflexivity.
Qed.

Lemma direct_pos_operands b k e c xs : map snd (direct_pos b k e c xs) = direct_of c xs.
Proof. destruct c; try reflexivity; apply ops_pos_operands. Qed.

Lemma node_captured_pos_operands b k n : map snd (node_captured_pos b k n) = node_captured n.
Proof.
  induction n as [e a|e a inner IHinner| |x t IHx IHt] using node_ind2
    with (Q := fun l => map snd (flat_map (node_captured_pos b k) l) = flat_map node_captured l).
  - apply ops_pos_operands.
  - exact IHinner.
  - reflexivity.
  - cbn [flat_map]. rewrite map_app, IHx, IHt. reflexivity.
Qed.

Lemma node_direct_pos_operands b k n : map snd (node_direct_pos b k n) = node_direct n.
Proof. destruct n; [apply direct_pos_operands|reflexivity]. Qed.

Lemma wrap_group_pos_operands b k inner : map snd (wrap_group_pos b k inner) = wrap_group inner.
Proof. apply map_snd_flat_map, node_direct_pos_operands. Qed.

Lemma filter_partition_perm {X} (f : X -> bool) (l : list X) :
  Permutation (filter f l ++ filter (fun x => negb (f x)) l) l.
Proof.
  induction l as [|x l IH]; cbn [filter]; [constructor|].
  destruct (f x); cbn [negb app]; [constructor; exact IH|].
  etransitivity; [symmetry; apply Permutation_middle|]. constructor. exact IH.
Qed.

(* no position of an evaluated action is lost or counted twice: every expression operand is either
   hoisted (phase 1) or evaluated by the chain (phase 2) *)
Lemma action_positions_partition b k e c xs :
  c <> Dot -> c <> UNWRAP ->
  Permutation (ops_pos b k e (hoistable c) xs ++ direct_pos b k e c xs) (ops_pos b k e (fun _ => true) xs).
Proof.
  intros Hd Hu.
  assert (E : direct_pos b k e c xs = ops_pos b k e (fun o => negb (hoistable c o)) xs)
    by (destruct c; try reflexivity; congruence).
  rewrite E. unfold ops_pos. rewrite <- map_app. apply Permutation_map.
  replace (filter (fun io : nat * operand => true) (enum_from 0 xs)) with (enum_from 0 xs)
    by (induction (enum_from 0 xs) as [|y l IH]; cbn [filter]; congruence).
  apply (filter_partition_perm (fun io : nat * operand => hoistable c (snd io))).
Qed.

Lemma direct_of_not_hoistable c xs o : In o (direct_of c xs) -> In o xs /\ hoistable c o = false.
Proof.
  intros H.
  assert (H' : In o (filter (fun o => negb (hoistable c o)) xs)) by (destruct c; try exact H; destruct H).
  apply filter_In in H'. destruct H' as [H1 H2]. split; [exact H1|apply negb_true_iff, H2].
Qed.

Lemma captured_hoistable c xs o : In o (filter (hoistable c) xs) -> In o xs /\ hoistable c o = true.
Proof. apply filter_In. Qed.

Section ProgPos.
  Variable p : sprog.
  Definition step_positions (k : nat) : list (ident * operand) :=
    flat_map (fun b => flat_map (node_captured_pos b k) (tree p b k)) (actives p k) ++
    flat_map (fun b => flat_map (node_direct_pos b k) (tree p b k)) (actives p k).
  Definition handler_position : list (ident * operand) :=
    match sp_handler p with Some (_, o) => [(IHandler, o)] | None => [] end.
  Definition once_positions : list (ident * operand) :=
    handler_position ++ flat_map step_positions (seq 0 (max_depth p)).

  Lemma step_positions_operands k : map snd (step_positions k) = step_ops p k.
  Proof.
    unfold step_positions, step_ops, step_captured, step_direct. rewrite map_app. f_equal.
    - apply map_snd_flat_map. intros b. apply map_snd_flat_map, node_captured_pos_operands.
    - apply map_snd_flat_map. intros b. apply map_snd_flat_map, node_direct_pos_operands.
  Qed.

  Lemma once_positions_operands : map snd once_positions = all_operand_occurrences p.
  Proof.
    unfold once_positions, all_operand_occurrences, steps_ops. rewrite map_app. f_equal.
    - unfold handler_position, handler_operand. destruct (sp_handler p) as [[hk o]|]; reflexivity.
    - apply map_snd_flat_map, step_positions_operands.
  Qed.
End ProgPos.

Lemma perm_4 {X} (a b c d : list X) : Permutation ((a ++ b) ++ (c ++ d)) ((a ++ c) ++ (b ++ d)).
Proof.
  rewrite <- !app_assoc. apply Permutation_app_head.
  rewrite !app_assoc. apply Permutation_app_tail. apply Permutation_app_comm.
Qed.

(* `-> f` (`Then`) and the sync `?? f` (`Inspect`) evaluate their callee expression BEFORE their
   receiver, i.e. before everything to their left (Spec.v: "e(v): the callee expression is evaluated
   first"); every other operator evaluates its operands after its receiver.  L = what the receiver
   evaluates. *)
Definition args_first (async : bool) (c : comb) : bool :=
  match c with Then => true | Inspect => negb async | _ => false end.
Definition act_order (async : bool) (c : comb) (xs L : list operand) : list operand :=
  if args_first async c then direct_of c xs ++ L else L ++ direct_of c xs.

Lemma act_order_perm async c xs L : Permutation (act_order async c xs L) (L ++ direct_of c xs).
Proof. unfold act_order. destruct (args_first async c); [apply Permutation_app_comm|reflexivity]. Qed.

Lemma act_order_method async c xs L :
  DocTable.is_method_op c = true -> act_order async c xs L = L ++ filter (fun o => negb (hoistable c o)) xs.
Proof. destruct c; try discriminate; reflexivity. Qed.

(* a wrapper evaluates nothing by itself *)
Definition node_order (async : bool) (L : list operand) (n : node) : list operand :=
  match n with NAct _ a => act_order async (a_comb a) (exprs_of a) L | NWrap _ _ _ => L end.
(* the order in which `sem_nodes l recv` evaluates: L = what the receiver evaluates *)
Definition chain_order (async : bool) (l : list node) (L : list operand) : list operand :=
  fold_left (node_order async) l L.

Lemma chain_order_perm async l : forall L, Permutation (chain_order async l L) (L ++ flat_map node_direct l).
Proof.
  induction l as [|x t IH]; intros L; cbn [chain_order fold_left flat_map]; [rewrite app_nil_r; reflexivity|].
  etransitivity; [apply IH|]. rewrite app_assoc. apply Permutation_app_tail.
  destruct x as [e a|e a inner]; cbn [node_order node_direct]; [apply act_order_perm|rewrite app_nil_r; reflexivity].
Qed.

(* where `Initial` may stand: the head of a chain (x :: t) may be one if nothing was evaluated before it *)
Lemma ini_cons x t (L : list operand) :
  forallb ninit (x :: t) = true \/ (L = [] /\ forallb ninit t = true) ->
  forallb ninit t = true /\ (is_initial x = false \/ L = []).
Proof.
  intros [H|[HL Ht]]; [|split; [exact Ht|right; exact HL]].
  cbn [forallb] in H. apply andb_true_iff in H. destruct H as [Hx Ht].
  split; [exact Ht|left; apply negb_true_iff, Hx].
Qed.

(* `M L tr`: the operands L account for the `EEval` events of the trace tr - as a multiset up to whole
   groups (`up_to_groups`), in order (`in_order`), in order with no other event (`only_eevals`), or
   there is no event (`quiet`).  The rules for `Ret`, `bind` and `mapM` need only `M [] []` and that
   M is closed under `++`; the walk through phase 1, `eval_args`, a single action and a chain
   needs `M_eeval` besides.
   `acct M Q L c`: every run of c ends in a result satisfying Q, with a trace that L accounts for. *)
Record accounting (M : list operand -> list ev -> Prop) : Prop := {
  M_nil : M [] [];
  M_app : forall L1 t1 L2 t2, M L1 t1 -> M L2 t2 -> M (L1 ++ L2) (t1 ++ t2) }.
Arguments M_nil {M}.
Arguments M_app {M}.

Section Accounting.
  Variable ans : ev -> val -> Prop.
  Variable M : list operand -> list ev -> Prop.
  Hypothesis HM : accounting M.

  Definition acct {A} (Q : A -> Prop) (L : list operand) (c : comp A) : Prop :=
    forall a tr, run ans c a tr -> Q a /\ M L tr.

  Lemma acct_ret {A} (Q : A -> Prop) a : Q a -> acct Q [] (Ret a).
  Proof. intros HQ a' tr H. apply run_ret_inv in H. destruct H as [-> ->]. split; [exact HQ|exact (M_nil HM)]. Qed.

  Lemma acct_panic {A} (Q : A -> Prop) L n : acct Q L (Panic n).
  Proof. intros a tr H. destruct (run_panic_inv _ _ _ _ H). Qed.

  Lemma acct_bind {A B} (Q : A -> Prop) (R : B -> Prop) L1 L2 (c : comp A) (f : A -> comp B) :
    acct Q L1 c -> (forall a, Q a -> acct R L2 (f a)) -> acct R (L1 ++ L2) (bind c f).
  Proof.
    intros Hc Hf b tr H. apply run_bind_inv in H. destruct H as (a & t1 & t2 & H1 & H2 & ->).
    destruct (Hc a t1 H1) as (HQ & M1). destruct (Hf a HQ b t2 H2) as (HR & M2).
    split; [exact HR|apply (M_app HM); assumption].
  Qed.

  Lemma acct_bind0 {A B} (Q : A -> Prop) (R : B -> Prop) L (c : comp A) (f : A -> comp B) :
    acct Q L c -> (forall a, Q a -> acct R [] (f a)) -> acct R L (bind c f).
  Proof. intros Hc Hf. rewrite <- (app_nil_r L). eapply acct_bind; eauto. Qed.

  Lemma acct_vis {A} (Q : A -> Prop) L0 L e (k : val -> comp A) :
    M L0 [e] -> (forall v, acct Q L (k v)) -> acct Q (L0 ++ L) (Vis e k).
  Proof.
    intros He Hk a tr H. apply run_vis_inv in H. destruct H as (v & tr' & _ & H & ->).
    destruct (Hk v a tr' H) as (HQ & HM'). split; [exact HQ|exact (M_app HM _ [e] _ _ He HM')].
  Qed.

  Lemma acct_mapM {X B} (Q : B -> Prop) (Lf : X -> list operand) (f : X -> comp B) (l : list X) :
    (forall x, In x l -> acct Q (Lf x) (f x)) -> acct (Forall Q) (flat_map Lf l) (mapM f l).
  Proof.
    induction l as [|x l IH]; intros H; cbn [mapM flat_map].
    - apply acct_ret. constructor.
    - apply acct_bind with (Q := Q); [apply H; now left|]. intros y Hy.
      apply acct_bind0 with (Q := Forall Q); [apply IH; intros; apply H; now right|]. intros ys Hys.
      apply acct_ret. constructor; assumption.
  Qed.

  Hypothesis M_eeval : forall o sn, M [o] [EEval o sn].

  Lemma acct_eeval {A} (Q : A -> Prop) L o sn (k : val -> comp A) :
    (forall v, acct Q L (k v)) -> acct Q (o :: L) (Vis (EEval o sn) k).
  Proof. apply (acct_vis Q [o]), M_eeval. Qed.

  Notation snapshot := (list (string * option val)).

  Lemma acct_capture_ops (sn : snapshot) b e c ops : forall i,
    acct top (filter (hoistable c) ops) (capture_ops sn b e i c ops).
  Proof.
    induction ops as [|o r IH]; intros i; cbn [capture_ops filter]; [apply acct_ret; exact I|].
    destruct (hoistable c o); [|apply IH].
    apply acct_eeval. intros v. eapply acct_bind0; [apply IH|]. intros rest _. apply acct_ret. exact I.
  Qed.

  Lemma acct_capture_nodes (sn : snapshot) b :
    forall l, acct top (flat_map node_captured l) (capture_nodes sn b l).
  Proof.
    refine (nodes_ind2 (fun n => acct top (node_captured n) (capture_node sn b n)) _ _ _ _ _).
    - intros e a. apply acct_capture_ops.
    - intros e a inner IH. rewrite capture_node_wrap. exact IH.
    - apply acct_ret. exact I.
    - intros x r IHx IHr. cbn [capture_nodes flat_map].
      eapply acct_bind; [exact IHx|]. intros c1 _.
      eapply acct_bind0; [exact IHr|]. intros c2 _. apply acct_ret. exact I.
  Qed.

  Lemma acct_captures p (sn : snapshot) k acts :
    acct top (flat_map (fun b => flat_map node_captured (tree p b k)) acts) (captures p sn k acts).
  Proof.
    induction acts as [|b r IH]; cbn [captures flat_map]; [apply acct_ret; exact I|].
    eapply acct_bind; [apply acct_capture_nodes|]. intros c1 _.
    eapply acct_bind0; [exact IH|]. intros c2 _. apply acct_ret. exact I.
  Qed.

  Variable good : dval -> Prop.
  Hypothesis good_DV : forall v, good (DV v).

  Lemma acct_eval_args (sn : snapshot) cp b e c ops : forall i,
    acct (Forall good) (filter (fun o => negb (hoistable c o)) ops) (eval_args sn cp b e i c ops).
  Proof.
    induction ops as [|o r IH]; intros i; cbn [eval_args filter]; [apply acct_ret; constructor|].
    destruct (hoistable c o); cbn [negb].
    - destruct (lookup_cap cp (b, e, i)); cbn [bind]; [|apply acct_panic].
      eapply acct_bind0; [apply IH|]. intros ds Hds. apply acct_ret. constructor; [apply good_DV|exact Hds].
    - cbn [bind]. apply acct_eeval. intros v.
      eapply acct_bind0; [apply IH|]. intros ds Hds. apply acct_ret. constructor; [apply good_DV|exact Hds].
  Qed.

  Variable msem : string -> option (list operand) -> dval -> list dval -> comp dval.
  Variable dotsem : operand -> list (string * option val) -> dval -> comp dval.
  Variable callsem : val -> list dval -> comp dval.

  Hypothesis Hmsem : forall m ty r ds, good r -> Forall good ds -> acct good [] (msem m ty r ds).
  Hypothesis Hdotsem : forall o sn r, good r -> acct good [] (dotsem o sn r).
  Hypothesis Happly : forall f ds, good f -> Forall good ds -> acct good [] (apply callsem f ds).
  Hypothesis Hinspect : forall f r, good f -> good r -> acct good [] (inspect_sem callsem f r).

  Ltac one_arg ds := destruct ds as [|?d [|]]; try apply acct_panic.

  Lemma acct_sem_act async (sn : snapshot) cp b e a recv L :
    acct good L recv -> (comb_eqb (a_comb a) Initial = false \/ L = []) ->
    acct good (act_order async (a_comb a) (exprs_of a) L)
         (sem_node msem dotsem callsem async sn cp b (NAct e a) recv).
  Proof.
    intros Hrecv Hini.
    pose proof (acct_eval_args sn cp b e (a_comb a) (exprs_of a) 0) as Hargs.
    apply DocTable.sem_act_cases; intros Hc;
      [rewrite act_order_method by exact Hc|rewrite Hc in *; unfold act_order; cbn [args_first direct_of]..].
    - eapply acct_bind; [exact Hrecv|]. intros r Hr. eapply acct_bind0; [exact Hargs|].
      intros ds Hds. apply Hmsem; assumption.
    - rewrite app_nil_r. destruct (a_ops a) as [|o [|]]; try apply acct_panic.
      eapply acct_bind0; [exact Hrecv|]. intros r Hr. apply Hdotsem, Hr.
    - destruct async; cbn [negb].
      + eapply acct_bind; [exact Hrecv|]; intros r Hr; eapply acct_bind0; [exact Hargs|].
        intros ds Hds. one_arg ds. apply Hmsem; assumption.
      + eapply acct_bind; [exact Hargs|]. intros ds Hds. one_arg ds.
        eapply acct_bind0; [exact Hrecv|]; intros r Hr. apply Hinspect; [|assumption]. inversion Hds; assumption.
    - eapply acct_bind; [exact Hargs|]. intros ds Hds. one_arg ds.
      eapply acct_bind0; [exact Hrecv|]; intros r Hr. apply Happly; [inversion Hds; assumption|].
      constructor; [assumption|constructor].
    - (* Initial: the receiver is not run *)
      destruct Hini as [Hini| ->]; [discriminate Hini|]. cbn [app].
      eapply acct_bind0; [exact Hargs|]. intros ds Hds. one_arg ds. apply acct_ret. inversion Hds; assumption.
    - apply acct_panic.
  Qed.

  (* A wrapper adds nothing by itself: what the calls of its closure evaluate is the closure's affair,
     and the closure is assumed good here. *)
  Lemma acct_sem_nodes async (sn : snapshot) cp b l :
    (forall e a inner, In (NWrap e a inner) l -> good (wrap_clo msem dotsem callsem async sn cp b inner)) ->
    forall recv L, acct good L recv ->
    (forallb ninit l = true \/ (L = [] /\ forallb ninit (tl l) = true)) ->
    acct good (chain_order async l L) (sem_nodes msem dotsem callsem async sn cp b l recv).
  Proof.
    induction l as [|x t IH]; intros Hclo recv L Hrecv Hini; [exact Hrecv|].
    apply ini_cons in Hini. destruct Hini as [Hnt Hini].
    change (sem_nodes msem dotsem callsem async sn cp b (x :: t) recv)
      with (sem_nodes msem dotsem callsem async sn cp b t (sem_node msem dotsem callsem async sn cp b x recv)).
    apply IH; [intros e a inner H; apply (Hclo e a inner); now right| |left; exact Hnt].
    destruct x as [e a|e a inner]; [apply acct_sem_act; assumption|]. cbn [node_order].
    pose proof (Hclo e a inner (or_introl eq_refl)) as Hc.
    apply sem_wrap_any_method; [intros m|intros _]; (eapply acct_bind0; [exact Hrecv|]); intros r Hr.
    - apply Hmsem; [exact Hr|constructor; [exact Hc|constructor]].
    - apply Hinspect; assumption.
  Qed.
End Accounting.

Definition only_eevals (L : list operand) (tr : list ev) : Prop := eevals tr = L /\ Forall is_eeval tr.

Lemma only_eevals_accounting : accounting only_eevals.
Proof.
  split; [split; [reflexivity|constructor]|].
  intros L1 t1 L2 t2 [E1 F1] [E2 F2].
  split; [rewrite eevals_app, E1, E2; reflexivity|apply Forall_app; split; assumption].
Qed.

Lemma only_eevals_eeval o sn : only_eevals [o] [EEval o sn].
Proof. split; [reflexivity|constructor; [exact I|constructor]]. Qed.

Definition quiet (_ : list operand) (tr : list ev) : Prop := tr = [].

Lemma quiet_accounting : accounting quiet.
Proof. split; [reflexivity|]. unfold quiet. intros _ t1 _ t2 -> ->. reflexivity. Qed.

Lemma run_extract ans acts sr ds t : run ans (extract acts sr) ds t -> t = [].
Proof.
  enough (H : acct ans quiet top [] (extract acts sr)) by (intros Hr; exact (proj2 (H ds t Hr))).
  assert (Hm : List.length acts <> 1 -> acct ans quiet top [] (extract acts sr)).
  { intros E. rewrite (extract_multi acts sr E). destruct sr as [[]| | | | | |]; try apply acct_panic.
    destruct (Nat.eqb _ _); [apply (acct_ret ans _ quiet_accounting); exact I|apply acct_panic]. }
  destruct acts as [|b [|b' r]]; [apply Hm; discriminate| |apply Hm; discriminate].
  apply (acct_ret ans _ quiet_accounting). exact I.
Qed.

Section Acc.
  Variable ans : ev -> val -> Prop.
  (* the groups: for every wrapper (of the program), the operands one call of its closure evaluates *)
  Variable W : list (list operand).
  Notation run := (run ans).

  Definition groups (ws : list (list operand)) : Prop := Forall (fun g => In g W) ws.

  (* every run of c ends in a result satisfying Q, and the operands it evaluates are, as a multiset,
     L and whole groups: `acct ans up_to_groups Q L c` written out (`acct` is over any accounting) *)
  Definition acc {A} (Q : A -> Prop) (L : list operand) (c : comp A) : Prop :=
    forall a tr, run c a tr ->
      Q a /\ exists ws, groups ws /\ Permutation (eevals tr) (L ++ List.concat ws).

  Definition up_to_groups (L : list operand) (tr : list ev) : Prop :=
    exists ws, groups ws /\ Permutation (eevals tr) (L ++ List.concat ws).

  Lemma up_to_groups_app L1 t1 L2 t2 :
    up_to_groups L1 t1 -> up_to_groups L2 t2 -> up_to_groups (L1 ++ L2) (t1 ++ t2).
  Proof.
    intros (ws1 & G1 & P1) (ws2 & G2 & P2). exists (ws1 ++ ws2). split; [apply Forall_app; split; assumption|].
    rewrite eevals_app, concat_app. etransitivity; [apply Permutation_app; eassumption|]. apply perm_4.
  Qed.

  Lemma up_to_groups_event e : up_to_groups (eeval_of e) [e].
  Proof. exists []. split; [constructor|reflexivity]. Qed.

  Lemma up_to_groups_accounting : accounting up_to_groups.
  Proof. split; [|exact up_to_groups_app]. exists []. split; [constructor|reflexivity]. Qed.
  Notation UG := up_to_groups_accounting.
  Notation UGe := (fun o sn => up_to_groups_event (EEval o sn)).

  Lemma acc_ret {A} (Q : A -> Prop) a : Q a -> acc Q [] (Ret a).
  Proof. apply (acct_ret ans _ UG). Qed.

  Lemma acc_panic {A} (Q : A -> Prop) L n : acc Q L (Panic n).
  Proof. apply (acct_panic ans up_to_groups). Qed.

  Lemma acc_vis {A} (Q : A -> Prop) L e (k : val -> comp A) :
    ~ is_eeval e -> (forall v, acc Q L (k v)) -> acc Q L (Vis e k).
  Proof.
    intros He. apply (acct_vis ans _ UG Q [] L).
    destruct e; [destruct (He I)|..]; apply up_to_groups_event.
  Qed.

  Lemma acc_bind {A B} (Q : A -> Prop) (R : B -> Prop) L1 L2 (c : comp A) (f : A -> comp B) :
    acc Q L1 c -> (forall a, Q a -> acc R L2 (f a)) -> acc R (L1 ++ L2) (bind c f).
  Proof. apply (acct_bind ans _ UG). Qed.

  Lemma acc_bind0 {A B} (Q : A -> Prop) (R : B -> Prop) L (c : comp A) (f : A -> comp B) :
    acc Q L c -> (forall a, Q a -> acc R [] (f a)) -> acc R L (bind c f).
  Proof. apply (acct_bind0 ans _ UG). Qed.

  Lemma acc_perm {A} (Q : A -> Prop) L L' (c : comp A) : Permutation L L' -> acc Q L c -> acc Q L' c.
  Proof.
    intros HL Hc a tr H. destruct (Hc a tr H) as (HQ & ws & Hws & HP). split; [exact HQ|].
    exists ws. split; [exact Hws|]. etransitivity; [exact HP|]. apply Permutation_app_tail, HL.
  Qed.

  Lemma acc_weaken {A} (Q Q' : A -> Prop) L (c : comp A) : (forall a, Q a -> Q' a) -> acc Q L c -> acc Q' L c.
  Proof. intros HQ Hc a tr H. destruct (Hc a tr H) as (Ha & Hr). split; auto. Qed.

  (* one more call of a wrapper closure: one more group *)
  Lemma acc_group {A} (Q : A -> Prop) g L (c : comp A) : In g W -> acc Q (L ++ g) c -> acc Q L c.
  Proof.
    intros Hg Hc a tr H. destruct (Hc a tr H) as (HQ & ws & Hws & HP). split; [exact HQ|].
    exists (g :: ws). split; [constructor; assumption|]. cbn [List.concat]. rewrite <- app_assoc in HP. exact HP.
  Qed.

  (* code whose `EEval` events are whole groups only (none at all when there is no wrapper) *)
  Definition gcls : forall A : Type, (A -> Prop) -> comp A -> Prop := fun A Q c => acc Q [] c.

  Lemma gcls_call_class : call_class gcls.
  Proof.
    split; unfold gcls.
    - intros A Q a. apply acc_ret.
    - intros A Q n. apply acc_panic.
    - intros A Q f args k. apply acc_vis. exact (fun H => H).
    - intros A B Q R c f. apply acc_bind0.
  Qed.
  Notation KC := gcls_call_class.
  Notation good := (dval_okC gcls).
  Notation st_good := (st_okC gcls).

  Variable msem : string -> option (list operand) -> dval -> list dval -> comp dval.
  Variable dotsem : operand -> list (string * option val) -> dval -> comp dval.
  Variable callsem : val -> list dval -> comp dval.
  Variable awaitsem : val -> comp val.
  (* THE HYPOTHESIS ON USER CODE (`SpecCode.user_codeC` at the class `gcls`):
       uc_msem     : good recv -> Forall good args -> acc good [] (msem m tys recv args)
       uc_dotsem   : good recv -> acc good [] (dotsem o sn recv)
       uc_callsem  : Forall good args -> acc good [] (callsem f args)
       uc_awaitsem : acc top [] (awaitsem v)
     where  good (DF f) = forall vs, acc top [] (f vs),  good (DFut c) = acc top [] c,  good (DV _) = True, ..:
     a method / member access / call / await evaluates no user expression of the macro input by itself;
     whatever `EEval` events its runs contain are those of the closures and futures it was handed, and
     those come in whole groups (= whole calls of wrapper closures). *)
  Hypothesis HU : user_codeC gcls msem dotsem callsem awaitsem.

  Ltac fin := first [ exact I | apply acc_panic | apply acc_ret; first [exact I | assumption] ].

  Notation snapshot := (list (string * option val)).

  (* The glue of a program evaluates no user expression: the lemmas `cls_*` of `SpecCode.Glue`, at the
     class `gcls`. *)
  Lemma acc_to_val d : acc top [] (to_val d).
  Proof. apply (cls_to_val _ KC). Qed.

  Lemma acc_flat_chain async (sn : snapshot) cp b l recv :
    (forall e a inner, In (NWrap e a inner) l -> good (wrap_clo msem dotsem callsem async sn cp b inner)) ->
    forallb ninit (tl l) = true -> acc good [] recv ->
    acc good (flat_map node_direct l) (sem_nodes msem dotsem callsem async sn cp b l recv).
  Proof.
    intros Hclo Htl Hrecv. eapply acc_perm; [apply (chain_order_perm async l [])|].
    apply (acct_sem_nodes ans _ UG UGe good (fun _ => I) msem dotsem callsem (uc_msem _ _ _ _ _ HU) (uc_dotsem _ _ _ _ _ HU)
             (cls_apply _ KC _ _ _ _ HU) (cls_inspect_sem _ KC _ _ _ _ HU));
      [exact Hclo|exact Hrecv|right; split; [reflexivity|exact Htl]].
  Qed.

  (* The closure of a wrapper, at any depth: a call evaluates the wrapper's own group - one more whole
     group - and what the closures of the wrappers nested in it evaluate. *)
  Lemma wrap_clo_good async (sn : snapshot) cp b : forall l,
    forallb wf_node l = true -> incl (flat_map node_groups l) W ->
    forall e a inner, In (NWrap e a inner) l -> good (wrap_clo msem dotsem callsem async sn cp b inner).
  Proof.
    refine (nodes_ind2 (fun n => wf_node n = true -> incl (node_groups n) W ->
                                 match n with
                                 | NWrap _ _ inner => good (wrap_clo msem dotsem callsem async sn cp b inner)
                                 | NAct _ _ => True
                                 end) _ _ _ _ _).
    - intros e a _ _. exact I.
    - intros e a inner IH Hwf HW. cbn [wf_node] in Hwf. apply andb_true_iff in Hwf. destruct Hwf as [Hwf Htl].
      cbn [node_groups] in HW. intros [|v [|]]; try fin. unfold gcls.
      eapply acc_bind0; [|intros d _; apply acc_to_val].
      apply acc_group with (g := wrap_group inner); [apply HW; now left|].
      apply acc_flat_chain; [apply IH; [exact Hwf|intros g Hg; apply HW; now right]|exact Htl|apply acc_ret; exact I].
    - intros _ _ e a inner [].
    - intros x t IHx IHt Hwf HW e a inner Hin. cbn [forallb] in Hwf. apply andb_true_iff in Hwf.
      destruct Hwf as [Hwx Hwt]. cbn [flat_map] in HW. destruct Hin as [->|Hin].
      + apply IHx; [exact Hwx|intros g Hg; apply HW, in_or_app; now left].
      + apply (IHt Hwt) with (e := e) (a := a); [intros g Hg; apply HW, in_or_app; now right|exact Hin].
  Qed.

  Lemma acc_chain_nodes async (sn : snapshot) cp b l recv :
    wf_nodes l = true -> incl (flat_map node_groups l) W -> acc good [] recv ->
    acc good (flat_map node_direct l) (sem_nodes msem dotsem callsem async sn cp b l recv).
  Proof.
    intros Hwf HW Hrecv. unfold wf_nodes in Hwf. apply andb_true_iff in Hwf. destruct Hwf as [Hwf Htl].
    apply acc_flat_chain; [apply wrap_clo_good; assumption|exact Htl|exact Hrecv].
  Qed.

  (* The closure a wrapper `X >>> inner <<<` hands to the user's method: EVERY call
     that returns evaluates each non-hoisted operand directly inside the wrapper exactly once
     (`wrap_group inner`), and otherwise only whole groups of the wrappers NESTED in it (one group
     per call the inner methods make to THOSE closures).  Hoisted blocks are not evaluated by the
     call (they are looked up in cp): `wrap_group` holds non-hoistable operands only
     (`wrap_group_not_hoisted`). *)
  Theorem wrapper_inner_operands_once_per_call async (sn : snapshot) cp b inner v w tr :
    wf_nodes inner = true -> incl (flat_map node_groups inner) W ->
    match wrap_clo msem dotsem callsem async sn cp b inner with
    | DF clo => run (clo [v]) w tr
    | _ => False
    end ->
    exists ws, groups ws /\ Permutation (eevals tr) (wrap_group inner ++ List.concat ws).
  Proof.
    intros Hwf HW H. cbn [wrap_clo] in H.
    assert (Hc : acc top (wrap_group inner)
                     (let! d := sem_nodes msem dotsem callsem async sn cp b inner (Ret (DV v)) in to_val d)).
    { eapply acc_bind0; [|intros d _; apply acc_to_val].
      apply acc_chain_nodes; [exact Hwf|exact HW|apply acc_ret; exact I]. }
    destruct (Hc w tr H) as (_ & ws & Hws & HP). exists ws. split; assumption.
  Qed.

  Lemma acc_extract acts sr : good sr -> acc (Forall good) [] (extract acts sr).
  Proof. apply (cls_extract _ KC). Qed.

  Lemma acc_classify d : acc top [] (classify d).
  Proof. apply (cls_classify _ KC). Qed.

  Section Prog.
    Variable p : sprog.

    Notation Steps := (steps msem dotsem callsem awaitsem p).
    Notation Step_result := (step_result msem dotsem callsem awaitsem p).
    Notation Chain := (chain msem dotsem callsem p).

    Lemma acc_final_tuple st : st_good st -> acc good [] (final_tuple p st).
    Proof. apply (cls_final_tuple _ KC). Qed.

    Lemma acc_transpose bs st : st_good st -> acc good [] (transpose awaitsem p bs st).
    Proof. apply (cls_transpose _ KC _ _ _ _ HU). Qed.

    (* the handler FUNCTION is called as `std_map` / `std_and_then` / the call itself decide; its
       EXPRESSION was evaluated before (`run_body`) *)
    Lemma acc_handle_results ho rs :
      match ho with Some (_, hv) => good hv | None => True end -> good rs ->
      acc good [] (handle_results callsem awaitsem p ho rs).
    Proof. apply (cls_handle_results _ KC _ _ _ _ HU). Qed.

    Hypothesis Hwf : wf_prog p = true.
    Hypothesis HW : incl (program_groups p) W.
    (* no OS threads: the sequential kinds and the async kinds *)
    Hypothesis Hkind : is_async (sp_cfg p) = true \/ is_spawn (sp_cfg p) = false.

    Lemma acc_chain sn cp k st b : st_good st -> acc good (flat_map node_direct (tree p b k)) (Chain sn cp k st b).
    Proof.
      intros Hst. unfold chain. apply acc_chain_nodes.
      - apply tree_wf, Hwf.
      - intros g Hg. apply HW. eapply tree_groups; eauto.
      - unfold start. destruct (is_async (sp_cfg p)); [|apply (cls_get _ KC), Hst].
        apply acc_ret. cbn. unfold gcls. eapply acc_bind0; [apply (cls_get _ KC), Hst|]. intros d _. apply acc_to_val.
    Qed.

    (* phase 2 of step k for the kinds without OS threads: the chains of the active branches, in
       branch order (sync), resp. the futures are built in branch order and then joined (async) *)
    Definition chain_phase (k : nat) (st : state) (cp : caps) : comp dval :=
      let sn := snap_of p st in
      let acts := actives p k in
      let multi := Nat.ltb 1 (List.length acts) in
      if is_async (sp_cfg p) then
        if multi then
          let! futs := mapM (fun b => let! d := Chain sn cp k st b in
                                      if is_spawn (sp_cfg p)
                                      then match d with DFut _ | DV _ => Ret d | _ => Panic P_ILLTYPED end
                                      else Ret d) acts in
          let! v := (if is_try (sp_cfg p) then try_join_seq awaitsem futs [] else join_seq awaitsem futs) in
          Ret (DV v)
        else
          match acts with
          | [b] => let! d := Chain sn cp k st b in let! v := await_d awaitsem d in Ret (DV v)
          | _ => Panic P_STUCK
          end
      else
        if multi then let! ds := mapM (Chain sn cp k st) acts in Spec.vals_tuple ds
        else match acts with
             | [b] => Chain sn cp k st b
             | _ => Panic P_STUCK
             end.

    Lemma step_result_phases k st :
      Step_result k st = (let! cp := captures p (snap_of p st) k (actives p k) in chain_phase k st cp).
    Proof.
      unfold chain_phase. destruct (is_async (sp_cfg p)) eqn:Ha; [apply DocTable.step_result_async, Ha|].
      destruct Hkind as [Hk|Hs]; [discriminate Hk|]. apply DocTable.captures_before_chains_sequential; assumption.
    Qed.

    (* by the number of active branches and the kind: each arm of `chain_phase` is the chains of the active
       branches (`acc_chain`) followed by glue that has no `EEval` event (the `cls_*` lemmas) *)
    Lemma acc_chain_phase k st cp : st_good st -> acc good (step_direct p k) (chain_phase k st cp).
    Proof.
      intros Hst. unfold chain_phase, step_direct. cbv zeta.
      assert (Hch : forall b, acc good (flat_map node_direct (tree p b k)) (Chain (snap_of p st) cp k st b)).
      { intros b. apply acc_chain, Hst. }
      destruct (multiP (actives p k)) as [|b|b b' r].
      - destruct (is_async (sp_cfg p)); fin.
      - cbn [flat_map]. rewrite app_nil_r. destruct (is_async (sp_cfg p)); [|apply Hch].
        eapply acc_bind0; [apply Hch|]. intros d Hd.
        eapply acc_bind0; [apply (cls_await_d _ KC _ _ _ _ HU), Hd|]. intros v _. fin.
      - destruct (is_async (sp_cfg p)).
        + eapply acc_bind0 with (Q := Forall good).
          * apply (acct_mapM ans _ UG). intros c _. eapply acc_bind0; [apply Hch|]. intros d Hd.
            destruct (is_spawn (sp_cfg p)); [destruct d; try fin|]; apply acc_ret, Hd.
          * intros futs Hf. eapply acc_bind0 with (Q := top); [|intros v _; fin].
            destruct (is_try (sp_cfg p));
              [apply (cls_try_join_seq _ KC _ _ _ _ HU), Hf|apply (cls_join_seq _ KC _ _ _ _ HU), Hf].
        + eapply acc_bind0 with (Q := Forall good); [apply (acct_mapM ans _ UG); intros c _; apply Hch|].
          intros ds _. apply (cls_vals_tuple _ KC).
    Qed.

    Lemma acc_step_result k st : st_good st -> acc good (step_ops p k) (Step_result k st).
    Proof.
      intros Hst. rewrite step_result_phases. unfold step_ops.
      apply acc_bind with (Q := top); [|intros cp _; apply acc_chain_phase, Hst].
      apply (acct_captures ans _ UG UGe).
    Qed.

    (* C11: in the trace of a step all capture events precede all chain events.
       The trace is t1 ++ t2: t1 is the trace of phase 1 - nothing but the evaluations of the hoisted
       blocks, each once, in branch-then-position order (an EQUATION of lists, not a permutation) -
       and t2 is the trace of phase 2, which evaluates the operands the chains reach (and whole
       groups, through the wrapper closures). *)
    Theorem step_captures_precede_chains k st sr tr :
      st_good st -> run (Step_result k st) sr tr ->
      exists cp t1 t2,
        tr = t1 ++ t2 /\
        run (captures p (snap_of p st) k (actives p k)) cp t1 /\ run (chain_phase k st cp) sr t2 /\
        eevals t1 = step_captured p k /\ Forall is_eeval t1 /\
        exists ws, groups ws /\ Permutation (eevals t2) (step_direct p k ++ List.concat ws).
    Proof.
      intros Hst H. rewrite step_result_phases in H.
      apply run_bind_inv in H. destruct H as (cp & t1 & t2 & H1 & H2 & ->).
      exists cp, t1, t2. destruct (acct_captures ans _ only_eevals_accounting only_eevals_eeval _ _ _ _ _ _ H1) as (_ & E & F).
      destruct (acc_chain_phase k st cp Hst sr t2 H2) as (_ & ws & Hws & HP).
      repeat split; try assumption. exists ws. split; assumption.
    Qed.

    (* the non-try kinds (join_async_spawn! included, by `Hkind`): every step runs *)
    Lemma acc_steps_nontry : is_try (sp_cfg p) = false ->
      forall fuel k st, st_good st -> acc good (steps_ops p k fuel) (Steps fuel k st).
    Proof.
      intros Ht. induction fuel as [|fuel IH]; intros k st Hst; [fin|].
      rewrite (steps_are_sequential_nontry msem dotsem callsem awaitsem p fuel k st Ht), steps_ops_S.
      apply acc_bind with (Q := good); [apply acc_step_result, Hst|]. intros sr Hsr.
      apply acc_bind with (Q := Forall good) (L1 := []); [apply acc_extract, Hsr|]. intros ds Hds.
      assert (Hst' : st_good (set_all st (actives p k) ds)) by (apply set_all_ok; assumption).
      destruct (Nat.eqb fuel 0) eqn:Hf.
      - apply Nat.eqb_eq in Hf. subst fuel. apply acc_final_tuple, Hst'.
      - apply IH, Hst'.
    Qed.

    Definition st0 : state := map (fun _ => None) (sp_trees p).
    Lemma st0_good : st_good st0.
    Proof. apply Forall_forall. intros o Ho. apply in_map_iff in Ho. destruct Ho as (x & <- & _). exact I. Qed.

    Lemma acc_handler_expr :
      acc (fun ho : option (hkind * dval) => match ho with Some (_, hv) => good hv | None => True end)
          (handler_operand p)
          (match sp_handler p with
           | Some (k, o) => Vis (EEval o (snap_of p st0)) (fun v => Ret (Some (k, DV v)))
           | None => Ret None end).
    Proof.
      unfold handler_operand. destruct (sp_handler p) as [[hk o]|]; [|apply acc_ret; exact I].
      apply (acct_eeval ans _ UG UGe). intros v. apply acc_ret. exact I.
    Qed.

    Lemma acc_run_body_nontry : is_try (sp_cfg p) = false ->
      acc good (all_operand_occurrences p) (run_body msem dotsem callsem awaitsem p).
    Proof.
      intros Ht. unfold run_body, all_operand_occurrences.
      eapply acc_bind; [apply acc_handler_expr|]. intros ho Hho.
      eapply acc_bind0; [apply acc_steps_nontry; [exact Ht|apply st0_good]|].
      intros rs Hrs. apply acc_handle_results; assumption.
    Qed.

    (* try_join!: the steps up to and including the first failing one.
       `try_run fuel k st d tr j`: a run of the steps from k on (fuel steps left, state st) with result d
       and trace tr that executes exactly the steps k .. j:
         - the steps k .. j-1 ran to their end and none of the values they produced is a failure
           (`first_fail_list ds = None`: no `None` / `Err` among the step's results);
         - step j ran to its end and EITHER it is not the last step and one of its values is a failure
           (`try_fail`: the result d is the failing value of the lowest-numbered failing branch and
           NOTHING else happens - no event after the step's own)
           OR it is the last step (`try_last`: the results are transposed, which has no event);
       so j is the first failing step, or the last step when no earlier step fails. *)
    Inductive try_run : nat -> nat -> state -> dval -> list ev -> nat -> Prop :=
    | try_last k st sr ds t1 t2 d :
        run (Step_result k st) sr t1 -> run (extract (actives p k) sr) ds [] ->
        run (transpose awaitsem p (seq 0 (List.length (sp_trees p))) (set_all st (actives p k) ds)) d t2 ->
        try_run 1 k st d (t1 ++ t2) k
    | try_fail fuel k st sr ds t1 d :
        fuel <> 0 -> run (Step_result k st) sr t1 -> run (extract (actives p k) sr) ds [] ->
        all_classified ds = true -> first_fail_list ds = Some d ->
        try_run (S fuel) k st d t1 k
    | try_next fuel k st sr ds t1 t2 d j :
        fuel <> 0 -> run (Step_result k st) sr t1 -> run (extract (actives p k) sr) ds [] ->
        all_classified ds = true -> first_fail_list ds = None ->
        try_run fuel (S k) (set_all st (actives p k) ds) d t2 j ->
        try_run (S fuel) k st d (t1 ++ t2) j.

    Lemma try_run_of_steps : is_try (sp_cfg p) = true -> is_async (sp_cfg p) = false ->
      forall fuel k st d tr, run (Steps fuel k st) d tr -> exists j, try_run fuel k st d tr j.
    Proof.
      intros Ht Ha. induction fuel as [|fuel IH]; intros k st d tr H; [destruct (run_panic_inv _ _ _ _ H)|].
      rewrite (try_steps_sync msem dotsem callsem awaitsem p fuel k st Ht Ha) in H.
      apply run_bind_inv in H. destruct H as (sr & t1 & t' & H1 & H & ->).
      apply run_bind_inv in H. destruct H as (ds & t2 & t3 & H2 & H3 & ->).
      pose proof (run_extract _ _ _ _ _ H2) as ->. cbn [app]. cbv zeta in H3.
      destruct (Nat.eqb fuel 0) eqn:Hf.
      - apply Nat.eqb_eq in Hf. subst fuel. exists k. exact (try_last k st sr ds t1 t3 d H1 H2 H3).
      - apply Nat.eqb_neq in Hf.
        destruct (all_classified ds) eqn:Hc; [|destruct (run_panic_inv _ _ _ _ H3)].
        destruct (first_fail_list ds) as [d'|] eqn:Hff.
        + apply run_ret_inv in H3. destruct H3 as [-> ->]. rewrite app_nil_r.
          exists k. exact (try_fail fuel k st sr ds t1 d' Hf H1 H2 Hc Hff).
        + destruct (IH _ _ _ _ H3) as (j & Hj). exists j. exact (try_next fuel k st sr ds t1 t3 d j Hf H1 H2 Hc Hff Hj).
    Qed.

    Lemma try_run_ops fuel k st d tr j :
      try_run fuel k st d tr j -> st_good st ->
      exists m, j = k + m /\ m < fuel /\ good d /\ up_to_groups (steps_ops p k (S m)) tr.
    Proof.
      induction 1 as [k st sr ds t1 t2 d H1 H2 H3|fuel k st sr ds t1 d Hf H1 H2 Hc Hff
                     |fuel k st sr ds t1 t2 d j Hf H1 H2 Hc Hff Hrest IH]; intros Hst;
        destruct (acc_step_result k st Hst sr t1 H1) as (Hsr & U1);
        destruct (acc_extract (actives p k) sr Hsr ds [] H2) as (Hds & _);
        pose proof (set_all_ok _ _ (actives p k) _ Hst Hds) as Hst'.
      - destruct (acc_transpose _ _ Hst' d t2 H3) as (Hd & U2).
        exists 0. repeat split; [apply plus_n_O|apply Nat.lt_0_1|exact Hd|exact (up_to_groups_app _ _ _ _ U1 U2)].
      - exists 0. repeat split; [apply plus_n_O|apply Nat.lt_0_succ| |].
        + apply first_fail_list_cls in Hff. destruct Hff as [_ Hin]. rewrite Forall_forall in Hds. auto.
        + rewrite <- (app_nil_r t1). exact (up_to_groups_app _ _ _ _ U1 (M_nil UG)).
      - destruct (IH Hst') as (m & -> & Hm & Hd & U2).
        exists (S m). repeat split; [apply Nat.add_succ_comm|apply -> Nat.succ_lt_mono; exact Hm|exact Hd|].
        exact (up_to_groups_app _ _ _ _ U1 U2).
    Qed.

    Lemma try_run_early_is_failure fuel k st d tr j :
      try_run fuel k st d tr j -> S j < k + fuel -> SpecProps.cls d = Some false.
    Proof.
      clear Hwf HW Hkind.
      induction 1 as [k st sr ds t1 t2 d H1 H2 H3|fuel k st sr ds t1 d Hf H1 H2 Hc Hff
                     |fuel k st sr ds t1 t2 d j Hf H1 H2 Hc Hff Hrest IH]; intros Hj.
      - lia.
      - apply first_fail_list_cls in Hff. tauto.
      - apply IH. lia.
    Qed.

    (* try_join_async! / try_join_async_spawn!: `try_join!` of the step's futures yields one Result.
       What the last step does with the payload w of its `Ok` *)
    Definition finish_async (k : nat) (st : state) (w : val) : comp dval :=
      if Nat.ltb 1 (List.length (sp_trees p)) then
        let! ds := extract (actives p k) (DV w) in
        let st' := set_all st (actives p k) ds in
        match filter (fun b => negb (active p k b)) (seq 0 (List.length (sp_trees p))) with
        | [] => let! t := final_tuple p st' in let! tv := to_val t in Ret (DV (VOk tv))
        | inactive => transpose awaitsem p inactive st'
        end
      else Ret (DV (VOk w)).
    (* the value a non-final step hands to the next one: the payloads, re-wrapped in `Ok` *)
    Definition rewrapped (rew : list dval) : dval :=
      match rew with [d] => d | _ => DV (VTuple (match all_vals rew with Some l => l | None => [] end)) end.

    (* `try_run_async fuel k st d tr j`: a run of the steps from k on that executes exactly the steps k .. j:
       the steps k .. j-1 returned `Ok`, and step j returned `Err` (`tra_fail`: the result is that `Err`
       and nothing else happens) or is the last step (`tra_last`). *)
    Inductive try_run_async : nat -> nat -> state -> dval -> list ev -> nat -> Prop :=
    | tra_fail fuel k st e t1 :
        run (Step_result k st) (DV (VErr e)) t1 -> try_run_async (S fuel) k st (DV (VErr e)) t1 k
    | tra_last k st w t1 t2 d :
        run (Step_result k st) (DV (VOk w)) t1 -> run (finish_async k st w) d t2 ->
        try_run_async 1 k st d (t1 ++ t2) k
    | tra_next fuel k st w rew ds t1 t2 d j :
        fuel <> 0 -> run (Step_result k st) (DV (VOk w)) t1 ->
        run (rewrap (actives p k) w) rew [] -> run (extract (actives p k) (rewrapped rew)) ds [] ->
        try_run_async fuel (S k) (set_all st (actives p k) ds) d t2 j ->
        try_run_async (S fuel) k st d (t1 ++ t2) j.

    Lemma run_rewrap acts w rew t : run (rewrap acts w) rew t -> t = [] /\ Forall good rew.
    Proof.
      enough (H : acct ans quiet (Forall good) [] (rewrap acts w)) by (intros Hr; split; apply (H rew t Hr)).
      assert (Hm : List.length acts <> 1 -> acct ans quiet (Forall good) [] (rewrap acts w)).
      { intros E. rewrite (rewrap_multi acts w E). destruct w; try apply acct_panic.
        apply (acct_mapM ans _ quiet_accounting good (fun _ => [])). intros i _.
        destruct (nth_error _ i); [apply (acct_ret ans _ quiet_accounting); exact I|apply acct_panic]. }
      destruct acts as [|b [|b' r]]; [apply Hm; discriminate| |apply Hm; discriminate].
      apply (acct_ret ans _ quiet_accounting). repeat constructor.
    Qed.

    Lemma try_run_async_of_steps : is_try (sp_cfg p) = true -> is_async (sp_cfg p) = true ->
      forall fuel k st d tr, run (Steps fuel k st) d tr -> exists j, try_run_async fuel k st d tr j.
    Proof.
      intros Ht Ha. induction fuel as [|fuel IH]; intros k st d tr H; [destruct (run_panic_inv _ _ _ _ H)|].
      rewrite (steps_try_async msem dotsem callsem awaitsem p fuel k st Ht Ha) in H.
      apply run_bind_inv in H. destruct H as (sr & t1 & t' & H1 & H & ->).
      destruct sr as [[]| | | | | |]; try (destruct (run_panic_inv _ _ _ _ H)).
      - destruct (Nat.eqb fuel 0) eqn:Hf.
        + apply Nat.eqb_eq in Hf. subst fuel. exists k. exact (tra_last k st v t1 t' d H1 H).
        + apply Nat.eqb_neq in Hf.
          apply run_bind_inv in H. destruct H as (rew & t2 & t3 & H2 & H & ->).
          apply run_bind_inv in H. destruct H as (ds & t4 & t5 & H3 & H4 & ->).
          destruct (run_rewrap _ _ _ _ H2) as [-> _]. pose proof (run_extract _ _ _ _ _ H3) as ->. cbn [app].
          destruct (IH _ _ _ _ H4) as (j & Hj). exists j. exact (tra_next fuel k st v rew ds t1 t5 d j Hf H1 H2 H3 Hj).
      - apply run_ret_inv in H. destruct H as [-> ->]. rewrite app_nil_r. exists k. constructor. exact H1.
    Qed.

    Lemma acc_finish_async k st w : st_good st -> acc good [] (finish_async k st w).
    Proof.
      intros Hst. unfold finish_async. destruct (Nat.ltb 1 _); [|fin].
      eapply acc_bind0; [apply acc_extract; exact I|]. intros ds Hds.
      assert (Hst' : st_good (set_all st (actives p k) ds)) by (apply set_all_ok; assumption).
      cbv zeta. destruct (filter _ _) as [|b r].
      - eapply acc_bind0; [apply acc_final_tuple, Hst'|]. intros t _.
        eapply acc_bind0; [apply acc_to_val|]. intros tv _. fin.
      - apply acc_transpose, Hst'.
    Qed.

    Lemma rewrapped_good rew : Forall good rew -> good (rewrapped rew).
    Proof. intros H. destruct rew as [|d [|]]; try exact I. inversion H; assumption. Qed.

    Lemma try_run_async_ops fuel k st d tr j :
      try_run_async fuel k st d tr j -> st_good st ->
      exists m, j = k + m /\ m < fuel /\ good d /\ up_to_groups (steps_ops p k (S m)) tr.
    Proof.
      induction 1 as [fuel k st e t1 H1|k st w t1 t2 d H1 H2
                     |fuel k st w rew ds t1 t2 d j Hf H1 H2 H3 Hrest IH]; intros Hst;
        destruct (acc_step_result k st Hst _ t1 H1) as (_ & U1).
      - exists 0. repeat split; [apply plus_n_O|apply Nat.lt_0_succ|].
        rewrite <- (app_nil_r t1). exact (up_to_groups_app _ _ _ _ U1 (M_nil UG)).
      - destruct (acc_finish_async k st w Hst d t2 H2) as (Hd & U2).
        exists 0. repeat split; [apply plus_n_O|apply Nat.lt_0_1|exact Hd|exact (up_to_groups_app _ _ _ _ U1 U2)].
      - destruct (run_rewrap _ _ _ _ H2) as [_ Hrew].
        destruct (acc_extract (actives p k) _ (rewrapped_good rew Hrew) ds [] H3) as (Hds & _).
        destruct (IH (set_all_ok _ _ (actives p k) _ Hst Hds)) as (m & -> & Hm & Hd & U2).
        exists (S m). repeat split; [apply Nat.add_succ_comm|apply -> Nat.succ_lt_mono; exact Hm|exact Hd|].
        exact (up_to_groups_app _ _ _ _ U1 U2).
    Qed.

    Lemma try_run_async_early_is_failure fuel k st d tr j :
      try_run_async fuel k st d tr j -> S j < k + fuel -> exists e, d = DV (VErr e).
    Proof.
      clear Hwf HW Hkind.
      induction 1 as [fuel k st e t1 H1|k st w t1 t2 d H1 H2
                     |fuel k st w rew ds t1 t2 d j Hf H1 H2 H3 Hrest IH]; intros Hj.
      - eauto.
      - lia.
      - apply IH. lia.
    Qed.

    (* the whole body of a try macro, for the sync and the async kinds alike: R is `try_run` resp.
       `try_run_async`, with the two facts proved of each above.  The trace is t0 ++ ts ++ th: the
       handler expression, the steps, the handler call. *)
    Lemma run_body_try_ops (R : nat -> nat -> state -> dval -> list ev -> nat -> Prop) :
      (forall d tr, run (Steps (max_depth p) 0 st0) d tr -> exists j, R (max_depth p) 0 st0 d tr j) ->
      (forall d tr j, R (max_depth p) 0 st0 d tr j -> st_good st0 ->
         exists m, j = 0 + m /\ m < max_depth p /\ good d /\ up_to_groups (steps_ops p 0 (S m)) tr) ->
      forall d tr, run (run_body msem dotsem callsem awaitsem p) d tr ->
      exists j rs t0 ts th,
        tr = t0 ++ ts ++ th /\ R (max_depth p) 0 st0 rs ts j /\ j < max_depth p /\
        exists ws, groups ws /\
                   Permutation (eevals tr) (handler_operand p ++ steps_ops p 0 (S j) ++ List.concat ws).
    Proof.
      intros Hsteps Hops d tr H. unfold run_body in H.
      apply run_bind_inv in H. destruct H as (ho & t0 & t' & H0 & H & ->).
      apply run_bind_inv in H. destruct H as (rs & ts & th & H1 & H2 & ->).
      destruct (acc_handler_expr ho t0 H0) as (Hho & U0).
      destruct (Hsteps rs ts H1) as (j & Hj).
      destruct (Hops rs ts j Hj st0_good) as (m & -> & Hlt & Hrs & U1).
      destruct (acc_handle_results ho rs Hho Hrs d th H2) as (_ & U2).
      exists m, rs, t0, ts, th. split; [reflexivity|]. split; [exact Hj|]. split; [exact Hlt|].
      destruct (up_to_groups_app _ _ _ _ U0 (up_to_groups_app _ _ _ _ U1 U2)) as (ws & Hws & HP).
      exists ws. split; [exact Hws|]. rewrite app_nil_r, <- app_assoc in HP. exact HP.
    Qed.
  End Prog.
End Acc.
Print Assumptions wrapper_inner_operands_once_per_call.
Print Assumptions step_captures_precede_chains.

(* THE HYPOTHESIS ON USER CODE, for the world `ans` and the set of groups W (see `Acc`). *)
Definition user_code_once (ans : ev -> val -> Prop) (W : list (list operand)) := user_codeC (gcls ans W).

(* What a multiset equation says when the positions hold pairwise different tokens:
   every operand of a position occurs, none occurs twice, nothing else occurs. *)
Lemma exactly_once_of_perm {X} (l l' : list X) :
  Permutation l l' -> NoDup l' -> NoDup l /\ forall x, In x l <-> In x l'.
Proof.
  intros HP Hnd. split.
  - eapply Permutation_NoDup; [symmetry; exact HP|exact Hnd].
  - intros x. split; [apply Permutation_in, HP|apply Permutation_in, Permutation_sym, HP].
Qed.

(* an async macro is a future of its body (`to_val` has no event): run it by awaiting it *)
Lemma run_spec_awaited ans msem dotsem callsem awaitsem (sp : sprog) v tr :
  is_async (sp_cfg sp) = true ->
  run ans (let! d := spec msem dotsem callsem awaitsem sp in await_d awaitsem d) v tr ->
  exists d, run ans (run_body msem dotsem callsem awaitsem sp) d tr.
Proof.
  intros Ha H. unfold spec in H. rewrite Ha in H. cbn [bind await_d] in H.
  apply run_bind_inv in H. destruct H as (d & t1 & t2 & H1 & H2 & ->). exists d.
  destruct d; cbn in H2; try (destruct (run_panic_inv _ _ _ _ H2)).
  apply run_ret_inv in H2. destruct H2 as [_ ->]. rewrite app_nil_r. exact H1.
Qed.

Lemma groups_nil ws : groups [] ws -> List.concat ws = [].
Proof. intros H. destruct ws as [|g ws]; [reflexivity|]. inversion H as [|? ? Hg _]. destruct Hg. Qed.

(* join!.  In every run of the macro that returns, the `EEval` events are: exactly one for every
   once-position (the handler expression; for every step of every branch the hoisted blocks and the
   operands outside wrappers) - `all_operand_occurrences sp` - and, besides, only whole groups: one
   group of a wrapper per call the user's method made to the wrapper's closure. *)
Theorem top_level_operands_once ans W msem dotsem callsem awaitsem (sp : sprog) :
  is_async (sp_cfg sp) = false -> is_spawn (sp_cfg sp) = false -> is_try (sp_cfg sp) = false ->
  wf_prog sp = true -> incl (program_groups sp) W ->
  user_code_once ans W msem dotsem callsem awaitsem ->
  forall d tr, run ans (spec msem dotsem callsem awaitsem sp) d tr ->
  exists ws, groups W ws /\ Permutation (eevals tr) (all_operand_occurrences sp ++ List.concat ws).
Proof.
  intros Ha Hs Ht Hwf HW HU d tr H. unfold spec in H. rewrite Ha in H.
  exact (proj2 (acc_run_body_nontry ans W _ _ _ _ HU sp Hwf HW (or_intror Hs) Ht d tr H)).
Qed.
Print Assumptions top_level_operands_once.

(* programs without wrappers: nothing else at all; the hypothesis on user code then reads
   "no `EEval` event, given closures and futures without `EEval` events" *)
Corollary top_level_operands_once_no_wrappers ans msem dotsem callsem awaitsem (sp : sprog) :
  is_async (sp_cfg sp) = false -> is_spawn (sp_cfg sp) = false -> is_try (sp_cfg sp) = false ->
  wf_prog sp = true -> program_groups sp = [] ->
  user_code_once ans [] msem dotsem callsem awaitsem ->
  forall d tr, run ans (spec msem dotsem callsem awaitsem sp) d tr ->
  Permutation (eevals tr) (all_operand_occurrences sp).
Proof.
  intros Ha Hs Ht Hwf HW HU d tr H.
  destruct (top_level_operands_once ans [] _ _ _ _ sp Ha Hs Ht Hwf ltac:(rewrite HW; apply incl_refl) HU d tr H)
    as (ws & Hws & HP).
  rewrite (groups_nil ws Hws), app_nil_r in HP. exact HP.
Qed.

Corollary top_level_operands_once_det (h : ev -> option val) W msem dotsem callsem awaitsem (sp : sprog) :
  is_async (sp_cfg sp) = false -> is_spawn (sp_cfg sp) = false -> is_try (sp_cfg sp) = false ->
  wf_prog sp = true -> incl (program_groups sp) W ->
  user_code_once (fun e v => h e = Some v) W msem dotsem callsem awaitsem ->
  forall d tr, runT h (spec msem dotsem callsem awaitsem sp) = Some (d, tr) ->
  exists ws, groups W ws /\ Permutation (eevals tr) (all_operand_occurrences sp ++ List.concat ws).
Proof.
  intros Ha Hs Ht Hwf HW HU d tr H. apply runT_run in H.
  eapply top_level_operands_once; eauto.
Qed.

(* try_join!.  The trace of a run that returns is t0 ++ ts ++ th: the handler expression, the
   steps, the handler call.  `try_run .. ts j` says that ts is the trace of the steps 0 .. j run to their
   end, where j is the first step one of whose values is a failure, or the last step (see `try_run`).
   The `EEval` events of the whole run: one for the handler expression, one for every once-position of
   the steps 0 .. j, whole groups - and nothing of a later step. *)
Theorem try_operands_once_until_failure ans W msem dotsem callsem awaitsem (sp : sprog) :
  is_async (sp_cfg sp) = false -> is_spawn (sp_cfg sp) = false -> is_try (sp_cfg sp) = true ->
  wf_prog sp = true -> incl (program_groups sp) W ->
  user_code_once ans W msem dotsem callsem awaitsem ->
  forall d tr, run ans (spec msem dotsem callsem awaitsem sp) d tr ->
  exists j rs t0 ts th,
    tr = t0 ++ ts ++ th /\
    try_run ans msem dotsem callsem awaitsem sp (max_depth sp) 0 (st0 sp) rs ts j /\ j < max_depth sp /\
    exists ws, groups W ws /\
               Permutation (eevals tr) (handler_operand sp ++ steps_ops sp 0 (S j) ++ List.concat ws).
Proof.
  intros Ha Hs Ht Hwf HW HU d tr H. unfold spec in H. rewrite Ha in H.
  apply (run_body_try_ops ans W _ _ _ _ HU sp (try_run ans msem dotsem callsem awaitsem sp)
           (try_run_of_steps ans _ _ _ _ sp Ht Ha _ _ _)
           (try_run_ops ans W _ _ _ _ HU sp Hwf HW (or_intror Hs) _ _ _) d tr H).
Qed.
Print Assumptions try_operands_once_until_failure.

(* ... and when not all steps ran, the result of the steps is the failure itself *)
Corollary try_early_stop_is_failure ans msem dotsem callsem awaitsem (sp : sprog) rs ts j :
  try_run ans msem dotsem callsem awaitsem sp (max_depth sp) 0 (st0 sp) rs ts j ->
  S j < max_depth sp -> SpecProps.cls rs = Some false.
Proof. intros H Hj. eapply try_run_early_is_failure; [exact H|]. lia. Qed.

(* try_join_async!, try_join_async_spawn!: the macro is a future; awaiting it
   evaluates the handler expression, the once-positions of the steps 0 .. j, whole groups, and nothing of
   a later step - j = the first step whose `try_join!` returned `Err`, or the last step *)
Theorem try_operands_once_until_failure_async ans W msem dotsem callsem awaitsem (sp : sprog) :
  is_async (sp_cfg sp) = true -> is_try (sp_cfg sp) = true ->
  wf_prog sp = true -> incl (program_groups sp) W ->
  user_code_once ans W msem dotsem callsem awaitsem ->
  forall v tr, run ans (let! d := spec msem dotsem callsem awaitsem sp in await_d awaitsem d) v tr ->
  exists j rs t0 ts th,
    tr = t0 ++ ts ++ th /\
    try_run_async ans msem dotsem callsem awaitsem sp (max_depth sp) 0 (st0 sp) rs ts j /\ j < max_depth sp /\
    exists ws, groups W ws /\
               Permutation (eevals tr) (handler_operand sp ++ steps_ops sp 0 (S j) ++ List.concat ws).
Proof.
  intros Ha Ht Hwf HW HU v tr H. destruct (run_spec_awaited _ _ _ _ _ _ _ _ Ha H) as (d & Hd).
  apply (run_body_try_ops ans W _ _ _ _ HU sp (try_run_async ans msem dotsem callsem awaitsem sp)
           (try_run_async_of_steps ans W _ _ _ _ sp Ht Ha _ _ _)
           (try_run_async_ops ans W _ _ _ _ HU sp Hwf HW (or_introl Ha) _ _ _) d tr Hd).
Qed.
Print Assumptions try_operands_once_until_failure_async.

(* join_async!, join_async_spawn!: `spec` is a future; run it by awaiting it *)
Theorem top_level_operands_once_async ans W msem dotsem callsem awaitsem (sp : sprog) :
  is_async (sp_cfg sp) = true -> is_try (sp_cfg sp) = false ->
  wf_prog sp = true -> incl (program_groups sp) W ->
  user_code_once ans W msem dotsem callsem awaitsem ->
  forall v tr, run ans (let! d := spec msem dotsem callsem awaitsem sp in await_d awaitsem d) v tr ->
  exists ws, groups W ws /\ Permutation (eevals tr) (all_operand_occurrences sp ++ List.concat ws).
Proof.
  intros Ha Ht Hwf HW HU v tr H. destruct (run_spec_awaited _ _ _ _ _ _ _ _ Ha H) as (d & Hd).
  exact (proj2 (acc_run_body_nontry ans W _ _ _ _ HU sp Hwf HW (or_introl Ha) Ht d tr Hd)).
Qed.
Print Assumptions top_level_operands_once_async.

(* The hoisted `{..}` blocks INSIDE a wrapper are evaluated by phase 1 of the step
   (`capture_node` descends into the wrapper): each exactly once, in order, and nothing else is - an
   equation of lists.  Phase 1 is run once per step (`step_captures_precede_chains`:
   `step_captured` contains `node_captured (NWrap ..)` for every wrapper of an active branch).
   They are NOT evaluated by the calls of the closure: a call evaluates `wrap_group inner`
   (`wrapper_inner_operands_once_per_call`), whose members are not hoistable
   (`wrap_group_not_hoisted`; with identities: `action_positions_partition` - the hoisted and the
   chain-evaluated operand positions of an action partition its operand positions). *)
Theorem wrapper_hoisted_blocks_once_per_step ans (sn : list (string * option val)) b e a inner cp tr :
  run ans (capture_node sn b (NWrap e a inner)) cp tr ->
  eevals tr = flat_map node_captured inner /\ Forall is_eeval tr.
Proof. rewrite capture_node_wrap. apply (acct_capture_nodes ans _ only_eevals_accounting only_eevals_eeval). Qed.
Print Assumptions wrapper_hoisted_blocks_once_per_step.

Lemma wrap_group_not_hoisted inner o :
  In o (wrap_group inner) ->
  exists e a, In (NAct e a) inner /\ In o (exprs_of a) /\ hoistable (a_comb a) o = false.
Proof.
  unfold wrap_group. intros H. apply in_flat_map in H. destruct H as (n & Hn & Ho).
  destruct n as [e a|e a inner']; [|destruct Ho].
  cbn [node_direct] in Ho. apply direct_of_not_hoistable in Ho. exists e, a. tauto.
Qed.

(* `top_level_operands_once` with the identities: the `EEval` operands of the trace are, as a multiset, the
   operands of the once-positions (each position contributes its operand once) and whole groups *)
Corollary once_positions_evaluated_once ans W msem dotsem callsem awaitsem (sp : sprog) :
  is_async (sp_cfg sp) = false -> is_spawn (sp_cfg sp) = false -> is_try (sp_cfg sp) = false ->
  wf_prog sp = true -> incl (program_groups sp) W ->
  user_code_once ans W msem dotsem callsem awaitsem ->
  forall d tr, run ans (spec msem dotsem callsem awaitsem sp) d tr ->
  exists ws, groups W ws /\ Permutation (eevals tr) (map snd (once_positions sp) ++ List.concat ws).
Proof. intros. rewrite once_positions_operands. eapply top_level_operands_once; eauto. Qed.

Module ExOnce.
  (* user code: `.map(f)` on a list calls f once per element, on an Option at most once;
          `recv.<tokens>` and calls of user closures are `ECall` events *)
  Definition call1 (f : dval) (v : val) : comp val :=
    match f with
    | DF g => g [v]
    | DV fv => Vis (ECall fv [v]) (fun w => Ret w)
    | _ => Panic P_ILLTYPED
    end.
  Definition msemX (m : string) (tys : option (list operand)) (recv : dval) (args : list dval) : comp dval :=
    if String.eqb m "map" then
      match args with
      | [f] => match recv with
               | DV (VList vs) => let! ws := mapM (call1 f) vs in Ret (DV (VList ws))
               | _ => std_map recv (fun vs => match vs with [v] => call1 f v | _ => Panic P_ILLTYPED end)
               end
      | _ => Panic P_ILLTYPED
      end
    else Panic P_STUCK.
  Definition dotsemX (o : operand) (sn : list (string * option val)) (recv : dval) : comp dval :=
    match recv with
    | DV v => Vis (ECall (VStr "member") [v]) (fun w => Ret (DV w))
    | _ => Panic P_ILLTYPED
    end.
  Definition callsemX (f : val) (args : list dval) : comp dval := Panic P_ILLTYPED.
  Definition awaitsemX (v : val) : comp val := Ret v.

  Lemma user_code_ex ans W : user_code_once ans W msemX dotsemX callsemX awaitsemX.
  Proof.
    assert (Hcall : forall f v, dval_okC (gcls ans W) f -> acc ans W (fun _ => True) [] (call1 f v)).
    { intros f v Hf. destruct f; cbn [call1]; try apply acc_panic.
      - apply acc_vis; [exact (fun H => H)|]. intros w. apply acc_ret. exact I.
      - apply Hf. }
    split.
    - intros m tys recv args Hrecv Hargs. unfold msemX. destruct (String.eqb m "map"); [|apply acc_panic].
      destruct args as [|f [|]]; try apply acc_panic. inversion Hargs as [|? ? Hf _]; subst.
      assert (Hm : acc ans W (dval_okC (gcls ans W)) []
                       (std_map recv (fun vs => match vs with [v] => call1 f v | _ => Panic P_ILLTYPED end))).
      { apply (cls_std_map _ (gcls_call_class ans W)); [exact Hrecv|].
        intros [|v [|]]; try apply acc_panic. apply Hcall, Hf. }
      destruct recv as [v| | | | | |]; try exact Hm. destruct v; try exact Hm.
      eapply acc_bind0; [apply (c_mapM _ (gcls_call_class ans W)); intros v _; apply Hcall, Hf|].
      intros ws _. apply acc_ret. exact I.
    - intros o sn recv _. destruct recv; try apply acc_panic.
      apply acc_vis; [exact (fun H => H)|]. intros w. apply acc_ret. exact I.
    - intros f args _. apply acc_panic.
    - intros v. apply acc_ret. exact I.
  Qed.

  Definition hX (e : ev) : option val :=
    match e with
    | EEval [TI x] _ =>
        if String.eqb x "xs" then Some (VList [VInt 1; VInt 2])
        else if String.eqb x "two" then Some (VInt 2)
        else if String.eqb x "g" then Some (VOpq 8)
        else if String.eqb x "h" then Some (VOpq 6)
        else if String.eqb x "fin" then Some (VOpq 5)
        else if String.eqb x "none" then Some VNone
        else if String.eqb x "some1" then Some (VSome (VInt 1))
        else None
    | EEval [TG DBrace [TI x]] _ =>
        if String.eqb x "f" then Some (VOpq 7) else if String.eqb x "k" then Some (VOpq 9) else None
    | ECall (VOpq 7) [VInt z] => Some (VInt (z + 10))
    | ECall (VOpq 8) [VInt z] => Some (VSome (VInt (2 * z)))
    | ECall (VOpq 9) [VInt z] => Some (VInt (z + 100))
    | ECall (VOpq 6) [VInt z] => Some (VInt (10 * z))
    | ECall (VOpq 5) _ => Some (VInt 0)
    | _ => None
    end.

  (* the program: 2 branches, 2 steps, block operands (one of them inside a wrapper), a wrapper:
       join! { xs |> { f }  ~|> >>> -> g |> { k } <<<,   two ~-> h,   then fin }
     branch 0, step 0: `xs`, `.map({ f })` (the block is hoisted);
     branch 0, step 1: `.map(|v| ..)` whose closure is `g(v)` followed by `.map({ k })` ({ k } is hoisted:
                       evaluated once per step, while `g` is evaluated once per call - twice here);
     branch 1: `two`, then `h(..)` in step 1. *)
  Definition act (c : comb) (d : bool) (m : mv) (ops : list operand) : action := mkAction c d m ops.
  Definition blk (x : string) : operand := [TG DBrace [TI x]].
  Definition treesX : list (list (list node)) :=
    [ [ [NAct 0 (act Initial false NoMove [[TI "xs"]]); NAct 1 (act Map false NoMove [blk "f"])];
        [NWrap 0 (act Map true Wrap [])
               [NAct 1 (act Then false NoMove [[TI "g"]]); NAct 2 (act Map false NoMove [blk "k"])]] ];
      [ [NAct 0 (act Initial false NoMove [[TI "two"]])];
        [NAct 0 (act Then true NoMove [[TI "h"]])] ] ].
  Definition progX : sprog :=
    mkSprog (mkConfig false false false) [Some "a"; None] treesX (Some (HThen, [TI "fin"])).

  Definition runX := runT hX (spec msemX dotsemX callsemX awaitsemX progX).

  Example runX_result : option_map fst runX = Some (DV (VInt 0)).
  Proof. vm_compute. reflexivity. Qed.
  (* the trace, computed: fin | { f } | xs, two | { k } | g, g (two calls of the wrapper closure), h *)
  Example runX_eevals :
    option_map (fun r => eevals (snd r)) runX =
    Some [[TI "fin"]; blk "f"; [TI "xs"]; [TI "two"]; blk "k"; [TI "g"]; [TI "g"]; [TI "h"]].
  Proof. vm_compute. reflexivity. Qed.
  Example progX_once_positions :
    once_positions progX =
    [(IHandler, [TI "fin"]);
     (IOperand 0 0 1 0, blk "f"); (IOperand 0 0 0 0, [TI "xs"]); (IOperand 1 0 0 0, [TI "two"]);
     (IOperand 0 1 2 0, blk "k"); (IOperand 1 1 0 0, [TI "h"])].
  Proof. vm_compute. reflexivity. Qed.
  Example progX_groups : program_groups progX = [[[TI "g"]]].
  Proof. vm_compute. reflexivity. Qed.
  Example progX_group_positions :
    wrap_group_pos 0 1 [NAct 1 (act Then false NoMove [[TI "g"]]); NAct 2 (act Map false NoMove [blk "k"])]
    = [(IOperand 0 1 1 0, [TI "g"])].
  Proof. vm_compute. reflexivity. Qed.

  Example progX_once : forall d tr, runX = Some (d, tr) ->
    exists ws, groups (program_groups progX) ws /\
               Permutation (eevals tr) (all_operand_occurrences progX ++ List.concat ws).
  Proof.
    intros d tr H.
    eapply (top_level_operands_once_det hX (program_groups progX) msemX dotsemX callsemX awaitsemX progX);
      try reflexivity; [apply incl_refl|apply user_code_ex|exact H].
  Qed.
  (* ... and the multiset equation itself, on the computed trace: ws = two copies of the group [g] *)
  Example progX_equation :
    Permutation [[TI "fin"]; blk "f"; [TI "xs"]; [TI "two"]; blk "k"; [TI "g"]; [TI "g"]; [TI "h"]]
                (all_operand_occurrences progX ++ List.concat [[[TI "g"]]; [[TI "g"]]]).
  Proof.
    vm_compute.
    do 5 apply perm_skip.
    change (Permutation ([[TI "g"]; [TI "g"]] ++ [[TI "h"]]) ([[TI "h"]] ++ [[TI "g"]; [TI "g"]])).
    apply Permutation_app_comm.
  Qed.
  (* each operand of a once-position is evaluated (that none is evaluated twice is read off `progX_equation`:
     the operands of the once-positions are pairwise different here) *)
  Example progX_literally_once : forall d tr, runX = Some (d, tr) ->
    forall o, In o (all_operand_occurrences progX) -> In o (eevals tr).
  Proof.
    intros d tr H o Ho. destruct (progX_once d tr H) as (ws & _ & HP).
    eapply Permutation_in; [symmetry; exact HP|]. apply in_or_app. now left.
  Qed.

  (* try_join!: step 0 fails in branch 0, so nothing of step 1 is evaluated:
       try_join! { <x> |> { f }  ~|> { k },   some1 ~-> h,   map fin } *)
  Definition treesT (x : string) : list (list (list node)) :=
    [ [ [NAct 0 (act Initial false NoMove [[TI x]]); NAct 1 (act Map false NoMove [blk "f"])];
        [NAct 0 (act Map true NoMove [blk "k"])] ];
      [ [NAct 0 (act Initial false NoMove [[TI "some1"]])];
        [NAct 0 (act Map true NoMove [[TI "h"]])] ] ].
  Definition progT (x : string) : sprog :=
    mkSprog (mkConfig false true false) [None; None] (treesT x) (Some (HMap, [TI "fin"])).
  Definition runTr (x : string) := runT hX (spec msemX dotsemX callsemX awaitsemX (progT x)).

  Example runT_fail_result : option_map fst (runTr "none") = Some (DV VNone).
  Proof. vm_compute. reflexivity. Qed.
  (* handler expression, step 0 - and neither { k } nor h of step 1 *)
  Example runT_fail_eevals :
    option_map (fun r => eevals (snd r)) (runTr "none") = Some [[TI "fin"]; blk "f"; [TI "none"]; [TI "some1"]].
  Proof. vm_compute. reflexivity. Qed.
  Example runT_ok_eevals :
    option_map (fun r => eevals (snd r)) (runTr "some1") =
    Some [[TI "fin"]; blk "f"; [TI "some1"]; [TI "some1"]; blk "k"; [TI "h"]].
  Proof. vm_compute. reflexivity. Qed.

  Example progT_until_failure x : forall d tr, runTr x = Some (d, tr) ->
    exists j, j < 2 /\
      Permutation (eevals tr) (handler_operand (progT x) ++ steps_ops (progT x) 0 (S j)).
  Proof.
    intros d tr H. apply runT_run in H.
    destruct (try_operands_once_until_failure _ [] msemX dotsemX callsemX awaitsemX (progT x)
                eq_refl eq_refl eq_refl eq_refl (incl_refl _) (user_code_ex _ _) d tr H)
      as (j & rs & t0 & ts & th & _ & _ & Hj & ws & Hws & HP).
    exists j. split; [exact Hj|]. rewrite (groups_nil ws Hws), app_nil_r in HP. exact HP.
  Qed.
  Example progT_fail_ops :
    handler_operand (progT "none") ++ steps_ops (progT "none") 0 1 = [[TI "fin"]; blk "f"; [TI "none"]; [TI "some1"]].
  Proof. vm_compute. reflexivity. Qed.
End ExOnce.

(* `wf_prog` - the one structural hypothesis of the theorems - holds for every program `prepare` makes
   from an input whose branches begin with their `Initial` expression and have no other `Initial`
   (what the parser produces: `GenPropsA.wf_parsed`). *)
Definition initial_first (inp : input) : Prop :=
  Forall (fun br => match b_members br with
                    | m0 :: rest => a_deferred m0 = false /\ a_mv m0 = NoMove /\
                                    Forall (fun m => comb_eqb (a_comb m) Initial = false) rest
                    | [] => False
                    end) (i_branches inp).

(* no `Initial` anywhere in the node *)
Fixpoint dni (n : node) : bool :=
  match n with
  | NAct _ a => negb (comb_eqb (a_comb a) Initial)
  | NWrap _ _ inner => forallb dni inner
  end.

Lemma dni_act e a : comb_eqb (a_comb a) Initial = false -> a_mv a = NoMove -> dni (NAct e a) = true.
Proof. intros H _. cbn [dni]. rewrite H. reflexivity. Qed.

Lemma dni_wrap e a inner :
  comb_eqb (a_comb a) Initial = false -> a_mv a = Wrap -> Forall (fun n => dni n = true) inner ->
  dni (NWrap e a inner) = true.
Proof. intros _ _ H. apply forallb_forall, Forall_forall, H. Qed.

Lemma forallb_tl {X} (f : X -> bool) l : forallb f l = true -> forallb f (tl l) = true.
Proof. destruct l as [|x r]; [reflexivity|]. cbn [forallb tl]. intros H. apply andb_true_iff in H. apply H. Qed.

Lemma dni_list_wf : forall l,
  Forall (fun n => dni n = true) l -> forallb wf_node l = true /\ forallb ninit l = true.
Proof.
  refine (nodes_ind2 (fun n => dni n = true -> wf_node n = true /\ ninit n = true) _ _ _ _ _).
  - intros e a H. split; [reflexivity|exact H].
  - intros e a inner IH H. cbn [dni] in H. rewrite forallb_forall, <- Forall_forall in H.
    destruct (IH H) as [H1 H2]. split; [|reflexivity]. cbn [wf_node]. rewrite H1, (forallb_tl _ _ H2). reflexivity.
  - intros _. split; reflexivity.
  - intros x t IHx IHt H. inversion H as [|? ? Hx Ht]; subst.
    destruct (IHx Hx) as [H1 H2]. destruct (IHt Ht) as [H3 H4]. cbn [forallb]. rewrite H1, H2, H3, H4. split; reflexivity.
Qed.

Lemma wf_nodes_of_dni t : Forall (fun n => dni n = true) t -> wf_nodes t = true.
Proof.
  intros H. destruct (dni_list_wf t H) as [H1 H2]. unfold wf_nodes. rewrite H1, (forallb_tl _ _ H2). reflexivity.
Qed.

(* the first step of a branch: its `Initial` is the head of the chain *)
Lemma nest_first_wf m0 g t :
  a_mv m0 = NoMove -> Forall (fun a => comb_eqb (a_comb a) Initial = false) g ->
  nest (m0 :: g) = Some t -> wf_nodes t = true.
Proof.
  intros Hm Hg H. unfold nest, nest_levels in H. cbn [enum_from fold_right] in H.
  pose proof (Render.nest_fold_all _ _ dni_act dni_wrap g Hg 1) as HL.
  unfold nest_step in H at 1. cbn [fst snd] in H. rewrite Hm in H.
  destruct (fold_right nest_step [[]] (enum_from 1 g)) as [|cur [|t1 rest]]; try discriminate.
  injection H as <-. inversion HL as [|? ? Hcur _]; subst.
  destruct (dni_list_wf cur Hcur) as [H1 H2]. unfold wf_nodes. cbn [forallb wf_node tl]. rewrite H1, H2. reflexivity.
Qed.

Lemma split_first m0 rest :
  a_deferred m0 = false ->
  exists g gs, Gen.split_steps (m0 :: rest) = (m0 :: g) :: gs /\
               forall acts a, In acts (g :: gs) -> In a acts -> In a rest.
Proof.
  intros Hd. cbn [Gen.split_steps]. rewrite Hd.
  destruct (Gen.split_steps rest) as [|g gs] eqn:E.
  - exists [], []. split; [reflexivity|]. intros acts a [<-|[]] [].
  - exists g, gs. split; [reflexivity|]. intros acts a Hacts Ha.
    eapply GenPropsBase.split_steps_members; [|exact Ha]. rewrite E. exact Hacts.
Qed.

Lemma branch_trees_wf br tr :
  (match b_members br with
   | m0 :: rest => a_deferred m0 = false /\ a_mv m0 = NoMove /\
                   Forall (fun m => comb_eqb (a_comb m) Initial = false) rest
   | [] => False
   end) ->
  Forall2 (fun acts t => nest acts = Some t) (Gen.split_steps (b_members br)) tr -> forallb wf_nodes tr = true.
Proof.
  destruct (b_members br) as [|m0 rest]; [intros []|]. intros (Hd & Hm & Hrest) H.
  destruct (split_first m0 rest Hd) as (g & gs & E & Hin). rewrite E in H.
  inversion H as [|? t0 ? trs H0 Hs]; subst.
  assert (Hsub : forall acts, In acts (g :: gs) -> Forall (fun a => comb_eqb (a_comb a) Initial = false) acts).
  { intros acts Hacts. apply Forall_forall. intros a Ha. rewrite Forall_forall in Hrest. eauto. }
  cbn [forallb]. rewrite (nest_first_wf m0 g t0 Hm (Hsub g (or_introl eq_refl)) H0). cbn [andb].
  apply forallb_forall. intros t Ht. destruct (Forall2_in_r _ _ _ _ Hs Ht) as (acts & Hacts & Hn).
  apply wf_nodes_of_dni, (Render.nest_all _ _ dni_act dni_wrap acts t); [apply Hsub; now right|exact Hn].
Qed.

Theorem prepare_wf_prog cfg inp sp : initial_first inp -> prepare cfg inp = Some sp -> wf_prog sp = true.
Proof.
  intros Hi Hp. destruct (RefineCorollaries.prepare_fields cfg inp sp Hp) as (_ & _ & HF).
  apply forallb_forall. intros tr Htr. destruct (Forall2_in_r _ _ _ _ HF Htr) as (br & Hbr & Hs).
  unfold initial_first in Hi. rewrite Forall_forall in Hi. exact (branch_trees_wf br tr (Hi br Hbr) Hs).
Qed.

Corollary parsed_wf_prog cfg inp sp : GenPropsA.wf_parsed inp -> prepare cfg inp = Some sp -> wf_prog sp = true.
Proof.
  intros Hwf. apply prepare_wf_prog. unfold initial_first. unfold GenPropsA.wf_parsed in Hwf.
  eapply Forall_impl; [|exact Hwf]. intros br (m0 & rest & E & Hc & Hd & Hm & Hr & _). rewrite E.
  split; [exact Hd|]. split; [exact Hm|]. eapply Forall_impl; [|exact Hr].
  intros m Hne. apply GenPropsA.comb_eqb_false, Hne.
Qed.
Print Assumptions parsed_wf_prog.

Lemma NoDup_flat_map {X Y} (f : X -> list Y) (l : list X) :
  NoDup l -> (forall x, In x l -> NoDup (f x)) ->
  (forall x y z, In x l -> In y l -> x <> y -> In z (f x) -> In z (f y) -> False) ->
  NoDup (flat_map f l).
Proof.
  induction 1 as [|a l Ha Hl IH]; intros Hf Hd; cbn [flat_map]; [constructor|].
  apply RefineChain.NoDup_app_intro; [apply Hf; now left| |].
  - apply IH; [intros x Hx; apply Hf; now right|]. intros x y z Hx Hy. apply Hd; now right.
  - intros z Hz Hz'. apply in_flat_map in Hz'. destruct Hz' as (y & Hy & Hzy).
    apply (Hd a y z); [now left|now right| |exact Hz|exact Hzy]. intros ->. exact (Ha Hy).
Qed.

Lemma enum_from_in {X} (xs : list X) : forall j i o, In (i, o) (enum_from j xs) -> j <= i /\ nth_error xs (i - j) = Some o.
Proof.
  induction xs as [|x r IH]; intros j i o H; [destruct H|]. cbn [enum_from] in H. destruct H as [E|H].
  - injection E as <- <-. rewrite Nat.sub_diag. split; [lia|reflexivity].
  - apply IH in H. destruct H as [Hle Hn]. split; [lia|]. replace (i - j) with (S (i - S j)) by lia. exact Hn.
Qed.

Lemma enum_from_filter_nodup {X} (g : nat * X -> bool) (xs : list X) : forall j,
  NoDup (map fst (filter g (enum_from j xs))).
Proof.
  induction xs as [|x r IH]; intros j; cbn [enum_from filter]; [constructor|].
  destruct (g (j, x)); [|apply IH]. cbn [map fst]. constructor; [|apply IH].
  intro Hi. apply in_map_iff in Hi. destruct Hi as ([i o] & Ei & Hi). cbn in Ei. subst i.
  apply filter_In in Hi. destruct Hi as [Hi _]. apply enum_from_in in Hi. lia.
Qed.

Lemma ops_pos_in b k e keep xs id o :
  In (id, o) (ops_pos b k e keep xs) ->
  exists i, id = IOperand b k e i /\ nth_error xs i = Some o /\ keep o = true.
Proof.
  unfold ops_pos. intros H. apply in_map_iff in H. destruct H as ([i o'] & E & H). cbn [fst snd] in E.
  injection E as <- <-. apply filter_In in H. destruct H as [H Hk]. cbn [snd] in Hk.
  apply enum_from_in in H. destruct H as [_ H]. rewrite Nat.sub_0_r in H. eauto.
Qed.

Lemma ops_pos_nodup b k e keep xs : NoDup (map fst (ops_pos b k e keep xs)).
Proof.
  unfold ops_pos. rewrite map_map. cbn [fst].
  rewrite <- (map_map fst (IOperand b k e)).
  apply FinFun.Injective_map_NoDup; [intros i i' E; congruence|apply enum_from_filter_nodup].
Qed.

Lemma direct_pos_in b k e c xs id o :
  In (id, o) (direct_pos b k e c xs) ->
  exists i, id = IOperand b k e i /\ nth_error xs i = Some o /\ hoistable c o = false.
Proof.
  intros H.
  assert (H' : In (id, o) (ops_pos b k e (fun o => negb (hoistable c o)) xs)) by (destruct c; try exact H; destruct H).
  apply ops_pos_in in H'. destruct H' as (i & E & Hn & Hk). apply negb_true_iff in Hk. eauto.
Qed.

Lemma direct_pos_nodup b k e c xs : NoDup (map fst (direct_pos b k e c xs)).
Proof. destruct c; try apply ops_pos_nodup; constructor. Qed.

Definition node_positions (b k : nat) (n : node) : list (ident * operand) :=
  node_captured_pos b k n ++ node_direct_pos b k n.

Lemma node_positions_shape b k : forall t id,
  In id (map fst (flat_map (node_positions b k) t)) ->
  exists e i, id = IOperand b k e i /\ In e (RefineChain.nodes_pos t).
Proof.
  refine (nodes_ind2 (fun n => forall id, In id (map fst (node_positions b k n)) ->
                                          exists e i, id = IOperand b k e i /\ In e (RefineChain.node_pos n)) _ _ _ _ _).
  - intros e a id H. apply in_map_iff in H. destruct H as ([id' o] & <- & H). apply in_app_or in H.
    assert (exists i, id' = IOperand b k e i) as (i & ->).
    { destruct H as [H|H]; [apply ops_pos_in in H|apply direct_pos_in in H]; destruct H as (i & -> & _); eauto. }
    exists e, i. split; [reflexivity|now left].
  - intros e a inner IH id H. unfold node_positions in H. cbn [node_captured_pos node_direct_pos] in H.
    rewrite app_nil_r in H. destruct (IH id) as (e' & i & -> & He).
    { eapply Permutation_in; [apply Permutation_map; symmetry; apply GenPropsC.flat_map_app_perm|].
      rewrite map_app. apply in_or_app. left. exact H. }
    exists e', i. split; [reflexivity|]. rewrite RefineChain.node_pos_NWrap. right. exact He.
  - intros id [].
  - intros x r IHx IHr id H. cbn [flat_map] in H. rewrite map_app in H. rewrite RefineChain.nodes_pos_cons.
    apply in_app_or in H.
    destruct H as [H|H]; [destruct (IHx _ H) as (e & i & -> & He)|destruct (IHr _ H) as (e & i & -> & He)];
      exists e, i; (split; [reflexivity|apply in_or_app; tauto]).
Qed.

Lemma node_positions_nodup b k : forall t,
  NoDup (RefineChain.nodes_pos t) -> NoDup (map fst (flat_map (node_positions b k) t)).
Proof.
  refine (nodes_ind2 (fun n => NoDup (RefineChain.node_pos n) -> NoDup (map fst (node_positions b k n))) _ _ _ _ _).
  - (* a position is either hoisted or evaluated by the chain, never both *)
    intros e a _. unfold node_positions. cbn [node_captured_pos node_direct_pos]. rewrite map_app.
    apply RefineChain.NoDup_app_intro; [apply ops_pos_nodup|apply direct_pos_nodup|].
    intros id H1 H2. apply in_map_iff in H1. destruct H1 as ([id1 o1] & <- & H1).
    apply in_map_iff in H2. destruct H2 as ([id2 o2] & E & H2). cbn [fst] in E. subst id2.
    apply ops_pos_in in H1. destruct H1 as (i & -> & Hn1 & Hk1).
    apply direct_pos_in in H2. destruct H2 as (i' & E & Hn2 & Hk2). injection E as <-. congruence.
  - intros e a inner IH H. rewrite RefineChain.node_pos_NWrap in H. inversion H as [|? ? _ Hin]; subst.
    unfold node_positions. cbn [node_captured_pos node_direct_pos]. rewrite app_nil_r.
    specialize (IH Hin). eapply Permutation_NoDup in IH; [|apply Permutation_map, GenPropsC.flat_map_app_perm].
    rewrite map_app in IH. apply RefineChain.NoDup_app_inv in IH. exact (proj1 IH).
  - intros _. constructor.
  - intros x r IHx IHr H. rewrite RefineChain.nodes_pos_cons in H. apply RefineChain.NoDup_app_inv in H.
    destruct H as (Hx & Hr & Hd). cbn [flat_map]. rewrite map_app.
    apply RefineChain.NoDup_app_intro; [exact (IHx Hx)|exact (IHr Hr)|].
    intros id H1 H2. destruct (node_positions_shape b k [x] id) as (e1 & i1 & -> & He1).
    { cbn [flat_map]. rewrite app_nil_r. exact H1. }
    destruct (node_positions_shape b k r _ H2) as (e2 & i2 & E & He2). injection E as <- _.
    rewrite RefineChain.nodes_pos_cons in He1. apply in_app_or in He1. destruct He1 as [He1|[]].
    exact (Hd e1 He1 He2).
Qed.

Lemma step_positions_perm (sp : sprog) k :
  Permutation (step_positions sp k)
              (flat_map (fun b => flat_map (node_positions b k) (tree sp b k)) (actives sp k)).
Proof.
  unfold step_positions. etransitivity; [symmetry; apply GenPropsC.flat_map_app_perm|].
  apply GenPropsC.flat_map_perm_ext. intros b _. symmetry. apply GenPropsC.flat_map_app_perm.
Qed.

Lemma step_positions_shape (sp : sprog) k id :
  In id (map fst (step_positions sp k)) -> exists b e i, id = IOperand b k e i.
Proof.
  intros H. eapply Permutation_in in H; [|apply Permutation_map, step_positions_perm].
  rewrite map_flat_map in H. apply in_flat_map in H. destruct H as (b & _ & H).
  destruct (node_positions_shape b k _ id H) as (e & i & -> & _). eauto.
Qed.

(* No identity occurs twice in `once_positions sp` when the positions e of the actions of every step
   are pairwise different (`RefineChain.nodes_pos`) - which they are in every program made by `prepare`
   (`RefineChain.nest_pos_nodup`): the labelling of the positions is injective. *)
Theorem once_positions_NoDup (sp : sprog) :
  (forall b k, NoDup (RefineChain.nodes_pos (tree sp b k))) -> NoDup (map fst (once_positions sp)).
Proof.
  intros Ht. unfold once_positions. rewrite map_app. apply RefineChain.NoDup_app_intro.
  - unfold handler_position. destruct (sp_handler sp) as [[hk o]|]; cbn; [constructor; [intros []|constructor]|constructor].
  - rewrite map_flat_map. apply NoDup_flat_map; [apply seq_NoDup| |].
    + intros k _. eapply Permutation_NoDup; [symmetry; apply Permutation_map, step_positions_perm|].
      rewrite map_flat_map. apply NoDup_flat_map; [apply actives_NoDup|intros b _; apply node_positions_nodup, Ht|].
      intros b1 b2 id _ _ Hne H1 H2.
      destruct (node_positions_shape b1 k _ id H1) as (e1 & i1 & -> & _).
      destruct (node_positions_shape b2 k _ _ H2) as (e2 & i2 & E & _). congruence.
    + intros k1 k2 id _ _ Hne H1 H2.
      destruct (step_positions_shape sp k1 id H1) as (b1 & e1 & i1 & ->).
      destruct (step_positions_shape sp k2 _ H2) as (b2 & e2 & i2 & E). congruence.
  - intros id H1 H2. unfold handler_position in H1. destruct (sp_handler sp) as [[hk o]|]; [|destruct H1].
    destruct H1 as [<-|[]]. rewrite map_flat_map in H2. apply in_flat_map in H2. destruct H2 as (k & _ & H2).
    destruct (step_positions_shape sp k _ H2) as (b & e & i & E). discriminate E.
Qed.

Lemma prepare_tree_pos cfg inp sp b k : prepare cfg inp = Some sp -> NoDup (RefineChain.nodes_pos (tree sp b k)).
Proof.
  intros Hp. destruct (tree_cases sp b k) as [E|(tr & Htr & Hs)]; [rewrite E; constructor|].
  destruct (RefineCorollaries.prepare_fields cfg inp sp Hp) as (_ & _ & HF).
  destruct (Forall2_in_r _ _ _ _ HF Htr) as (br & _ & Hbr).
  destruct (Forall2_in_r _ _ _ _ Hbr Hs) as (acts & _ & Hn).
  exact (RefineChain.nest_pos_nodup acts _ Hn).
Qed.

Corollary prepared_once_positions_NoDup cfg inp sp :
  prepare cfg inp = Some sp -> NoDup (map fst (once_positions sp)).
Proof. intros Hp. apply once_positions_NoDup. intros b k. eapply prepare_tree_pos; eauto. Qed.
Print Assumptions prepared_once_positions_NoDup.

(* With the refinement theorem (`RefineTop.gen_refines_spec`: the meaning of the generated code IS
   `spec`), C10's dynamic half for the code `join!` expands to, for every parsed input with default
   options: in every run of the expansion that returns, the operands of the `EEval` events are, as a
   multiset, those of the once-positions - whose identities are pairwise different - and whole groups,
   one per call the user's methods made to a wrapper closure. *)
Corollary expansion_evaluates_operands_once ans W msem dotsem callsem awaitsem inp e sp :
  let cfg := mkConfig false false false in
  RefineProg.wf inp -> GenPropsA.wf_parsed inp -> Gen.gen cfg inp = Ir.Ok e -> prepare cfg inp = Some sp ->
  incl (program_groups sp) W -> user_code_once ans W msem dotsem callsem awaitsem ->
  forall d tr, run ans (den (user_names inp) msem dotsem callsem awaitsem e empty_env) d tr ->
  NoDup (map fst (once_positions sp)) /\
  exists ws, groups W ws /\ Permutation (eevals tr) (map snd (once_positions sp) ++ List.concat ws).
Proof.
  intros cfg Hwf Hpar Hg Hp HW HU d tr H.
  rewrite (RefineTop.gen_refines_spec msem dotsem callsem awaitsem cfg inp e sp Hwf Hg Hp) in H.
  split; [eapply prepared_once_positions_NoDup; eauto|].
  destruct (RefineCorollaries.prepare_fields cfg inp sp Hp) as (Hcfg & _).
  apply (once_positions_evaluated_once ans W msem dotsem callsem awaitsem sp) with (d := d);
    [rewrite Hcfg; reflexivity | rewrite Hcfg; reflexivity | rewrite Hcfg; reflexivity
    | exact (parsed_wf_prog cfg inp sp Hpar Hp) | exact HW | exact HU | exact H].
Qed.
Print Assumptions expansion_evaluates_operands_once.

(* For a chain without wrappers (e.g. the inside of an innermost wrapper) the `EEval` operands of a run are
   not only a permutation of the chain's operands: they are that list in EVALUATION order.  The
   evaluation order is the chain order, except that `-> f` (`Then`) and the sync `?? f` (`Inspect`)
   evaluate their callee expression BEFORE their receiver, i.e. before everything to their left
   (Spec.v: "e(v): the callee expression is evaluated first").  So "in chain order" holds literally
   for chains without these two (`chain_order_plain`). *)
Definition is_act (n : node) : bool := match n with NAct _ _ => true | NWrap _ _ _ => false end.
Definition receiver_first (async : bool) (n : node) : bool :=
  match n with NAct _ a => negb (args_first async (a_comb a)) | NWrap _ _ _ => true end.

Lemma chain_order_plain async l : forall L,
  forallb (receiver_first async) l = true -> chain_order async l L = L ++ flat_map node_direct l.
Proof.
  induction l as [|x t IH]; intros L H; cbn [chain_order fold_left flat_map]; [symmetry; apply app_nil_r|].
  cbn [forallb] in H. apply andb_true_iff in H. destruct H as [Hx Ht].
  change (fold_left (node_order async) t (node_order async L x)) with (chain_order async t (node_order async L x)).
  rewrite (IH _ Ht), app_assoc. f_equal. destruct x as [e a|e a inner]; cbn [node_order node_direct].
  - unfold act_order. cbn [receiver_first] in Hx. apply negb_true_iff in Hx. rewrite Hx. reflexivity.
  - symmetry. apply app_nil_r.
Qed.

Section Order.
  Variable ans : ev -> val -> Prop.
  Variable msem : string -> option (list operand) -> dval -> list dval -> comp dval.
  Variable dotsem : operand -> list (string * option val) -> dval -> comp dval.
  Variable callsem : val -> list dval -> comp dval.
  Variable awaitsem : val -> comp val.
  (* user code makes no `EEval` event, given closures and futures that make none *)
  Hypothesis HU : user_code_once ans [] msem dotsem callsem awaitsem.
  Notation run := (run ans).
  Notation good := (dval_okC (gcls ans [])).
  Notation KC := (gcls_call_class ans []).

  Definition in_order (L : list operand) (tr : list ev) : Prop := eevals tr = L.

  Lemma in_order_accounting : accounting in_order.
  Proof. split; [reflexivity|]. unfold in_order. intros L1 t1 L2 t2 <- <-. apply eevals_app. Qed.

  Lemma in_order_of_acc {A} (Q : A -> Prop) (c : comp A) : acc ans [] Q [] c -> acct ans in_order Q [] c.
  Proof.
    intros Hc a tr H. destruct (Hc a tr H) as (HQ & ws & Hws & HP). split; [exact HQ|].
    rewrite (groups_nil ws Hws) in HP. cbn [app] in HP. apply Permutation_nil. symmetry. exact HP.
  Qed.

  (* every call of the closure of a wrapper whose inside has no further wrapper
     evaluates exactly the non-hoisted inner operands, each once, in evaluation order *)
  Theorem wrapper_inner_operands_in_order async (sn : list (string * option val)) cp b inner v w tr :
    forallb is_act inner = true -> forallb ninit (tl inner) = true ->
    match wrap_clo msem dotsem callsem async sn cp b inner with
    | DF clo => run (clo [v]) w tr
    | _ => False
    end ->
    eevals tr = chain_order async inner [].
  Proof.
    intros Hact Htl H. cbn [wrap_clo] in H.
    assert (Hc : acct ans in_order top (chain_order async inner [])
                       (let! d := sem_nodes msem dotsem callsem async sn cp b inner (Ret (DV v)) in to_val d)).
    { eapply (acct_bind0 ans _ in_order_accounting); [|intros d _; apply in_order_of_acc, (cls_to_val _ KC)].
      apply (acct_sem_nodes ans _ in_order_accounting (fun _ _ => eq_refl) good (fun _ => I) msem dotsem callsem).
      - intros m ty r ds Hr Hds. apply in_order_of_acc, (uc_msem _ _ _ _ _ HU); assumption.
      - intros o sn' r Hr. apply in_order_of_acc, (uc_dotsem _ _ _ _ _ HU), Hr.
      - intros f ds Hf Hds. apply in_order_of_acc, (cls_apply _ KC _ _ _ _ HU); assumption.
      - intros f r Hf Hr. apply in_order_of_acc, (cls_inspect_sem _ KC _ _ _ _ HU); assumption.
      - intros e a inner' Hin. rewrite forallb_forall in Hact. discriminate (Hact _ Hin).
      - apply in_order_of_acc, acc_ret. exact I.
      - right. split; [reflexivity|exact Htl]. }
    destruct (Hc w tr H) as [_ E]. exact E.
  Qed.

  (* ... which is the chain order when no `-> f` / sync `?? f` occurs inside *)
  Corollary wrapper_inner_operands_in_chain_order async (sn : list (string * option val)) cp b inner v w tr :
    forallb is_act inner = true -> forallb ninit (tl inner) = true ->
    forallb (receiver_first async) inner = true ->
    match wrap_clo msem dotsem callsem async sn cp b inner with
    | DF clo => run (clo [v]) w tr
    | _ => False
    end ->
    eevals tr = wrap_group inner.
  Proof.
    intros Hact Htl Hrf H. rewrite (wrapper_inner_operands_in_order async sn cp b inner v w tr Hact Htl H).
    rewrite chain_order_plain by exact Hrf. reflexivity.
  Qed.
End Order.
Print Assumptions wrapper_inner_operands_in_order.

(* `xs |> >>> |> a -> g <<<`: inside the wrapper `.map(a)` then `g(..)`; the callee `g` is evaluated first *)
Example chain_order_then_first :
  chain_order false [NAct 1 (mkAction Map false NoMove [[TI "a"]]); NAct 2 (mkAction Then false NoMove [[TI "g"]])] []
  = [[TI "g"]; [TI "a"]].
Proof. vm_compute. reflexivity. Qed.

(* `all_operand_occurrences` enumerates step by step; as a multiset it is:
   the handler expression, and for EVERY branch b and EVERY step k < depth b of that branch the hoisted
   blocks of the step's tree and the operands of its top-level actions. *)
Definition branch_step_ops (p : sprog) (b k : nat) : list operand :=
  flat_map node_captured (tree p b k) ++ flat_map node_direct (tree p b k).
Definition branch_ops (p : sprog) (b : nat) : list operand :=
  flat_map (branch_step_ops p b) (seq 0 (depth p b)).

Lemma flat_map_filter_if {X Y} (P : X -> bool) (f : X -> list Y) (l : list X) :
  flat_map f (filter P l) = flat_map (fun x => if P x then f x else []) l.
Proof.
  induction l as [|x l IH]; cbn [filter flat_map]; [reflexivity|].
  destruct (P x); cbn [flat_map app]; rewrite IH; reflexivity.
Qed.

(* exchanging two sums over a relation P k b *)
Lemma flat_map_filter_swap {Y} (P : nat -> nat -> bool) (F : nat -> nat -> list Y) (ks bs : list nat) :
  Permutation (flat_map (fun k => flat_map (fun b => F b k) (filter (P k) bs)) ks)
              (flat_map (fun b => flat_map (fun k => F b k) (filter (fun k => P k b) ks)) bs).
Proof.
  rewrite (flat_map_ext _ _ (fun k => flat_map_filter_if (P k) (fun b => F b k) bs)).
  rewrite (flat_map_ext (fun b => flat_map (fun k => F b k) (filter (fun k => P k b) ks)) _
             (fun b => flat_map_filter_if (fun k => P k b) (fun k => F b k) ks)).
  apply (GenPropsC.flat_map_swap (fun k b => if P k b then F b k else [])).
Qed.

Lemma filter_ltb_seq d m : filter (fun k => Nat.ltb k d) (seq 0 m) = seq 0 (Nat.min d m).
Proof.
  induction m as [|m IH]; [rewrite Nat.min_0_r; reflexivity|].
  rewrite seq_S, filter_app, IH. cbn [filter plus].
  destruct (Nat.ltb_spec m d) as [Hlt|Hge].
  - replace (Nat.min d m) with m by lia. replace (Nat.min d (S m)) with (S m) by lia. rewrite seq_S. reflexivity.
  - rewrite app_nil_r. f_equal. lia.
Qed.

Theorem all_operand_occurrences_by_branch (p : sprog) :
  Permutation (all_operand_occurrences p)
              (handler_operand p ++ flat_map (branch_ops p) (seq 0 (List.length (sp_trees p)))).
Proof.
  unfold all_operand_occurrences. apply Permutation_app_head. unfold steps_ops.
  etransitivity.
  { apply GenPropsC.flat_map_perm_ext. intros k _. unfold step_ops, step_captured, step_direct.
    symmetry. apply GenPropsC.flat_map_app_perm. }
  unfold actives.
  etransitivity; [apply (flat_map_filter_swap (active p) (fun b k => branch_step_ops p b k))|].
  apply GenPropsC.flat_map_perm_ext. intros b Hb. apply in_seq in Hb. unfold branch_ops.
  replace (filter (fun k => active p k b) (seq 0 (max_depth p))) with (seq 0 (depth p b)); [reflexivity|].
  unfold active. rewrite filter_ltb_seq. f_equal.
  pose proof (depth_le_max p b ltac:(lia)). lia.
Qed.
Print Assumptions all_operand_occurrences_by_branch.
