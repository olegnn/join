(* GenPropsB - C15 `config_rejection_exact`: `gen` returns `ConfigError k` exactly in the four
   documented situations, in priority order; and the unfolding of `gen` (`gen_unfold`, `gen_ok_unfold`) that
   GenPropsA, C, D and E start from.
   For ALL configurations and ALL inputs (no well-formedness hypothesis). *)
From Join Require Import Tok Ast Ir Gen GenPropsBase.

(** * The verdict of JoinOutput::new as a function of (cfg, inp) *)

Definition has_fcp (inp : input) : bool := match i_fcp inp with Some _ => true | None => false end.

Definition config_verdict (cfg : config) (inp : input) : option N :=
  if negb (is_try cfg) && (is_hkind HMap (i_handler inp) || is_hkind HAndThen (i_handler inp)) then Some 1%N
  else if is_try cfg && is_hkind HThen (i_handler inp) then Some 2%N
  else if negb (is_async cfg) && has_fcp inp then Some 3%N
  else match i_branches inp with [] => Some 4%N | _ => None end.

(* the futures path the generator works with: the user's, else `::futures` for async kinds, else none *)
Definition eff_fcp (cfg : config) (inp : input) : option operand :=
  match i_fcp inp with
  | Some p => Some p
  | None => if is_async cfg then Some default_futures_path else None
  end.
(* the effective option flags (C16 defaults) *)
Definition eff_lazy (cfg : config) (inp : input) : bool :=
  opt_default (i_lazy inp) (is_spawn cfg && negb (is_async cfg)).
Definition eff_transpose (cfg : config) (inp : input) : bool :=
  opt_default (i_transpose inp) (is_try cfg && negb (is_async cfg)).

(* the JoinOutput value built from an accepted input *)
Definition the_jout (cfg : config) (inp : input) : jout :=
  let chains := map (fun b => split_steps (b_members b)) (i_branches inp) in
  let depths := map (fun c => List.length c) chains in
  {| j_cfg := cfg; j_chains := chains; j_pats := map b_pat (i_branches inp);
     j_depths := depths; j_branch_count := List.length (i_branches inp);
     j_max := list_max depths; j_handler := i_handler inp; j_fcp := eff_fcp cfg inp; j_joiner := i_joiner inp;
     j_lazy := eff_lazy cfg inp; j_transpose := eff_transpose cfg inp |}.

Lemma jout_new_unfold cfg inp :
  jout_new cfg inp (eff_fcp cfg inp) =
  match config_verdict cfg inp with Some k => ConfigError k | None => Ok (the_jout cfg inp) end.
Proof.
  unfold jout_new, config_verdict.
  destruct (negb (is_try cfg) && (is_hkind HMap (i_handler inp) || is_hkind HAndThen (i_handler inp))); [reflexivity|].
  destruct (is_try cfg && is_hkind HThen (i_handler inp)); [reflexivity|].
  assert (Hf : (negb (is_async cfg) && match eff_fcp cfg inp with Some _ => true | None => false end)
               = (negb (is_async cfg) && has_fcp inp)).
  { unfold eff_fcp, has_fcp. destruct (i_fcp inp); [reflexivity|]. destruct (is_async cfg); reflexivity. }
  rewrite Hf. destruct (negb (is_async cfg) && has_fcp inp); [reflexivity|].
  destruct (i_branches inp) eqn:Eb; [reflexivity|]. unfold the_jout. rewrite Eb. reflexivity.
Qed.

(* The unfolding of `gen` everything else is built on. *)
Theorem gen_unfold cfg inp :
  gen cfg inp =
  match config_verdict cfg inp with Some k => ConfigError k | None => gen_output (the_jout cfg inp) end.
Proof.
  unfold gen. fold (eff_fcp cfg inp). rewrite jout_new_unfold.
  destruct (config_verdict cfg inp); reflexivity.
Qed.

Lemma gen_ok_unfold cfg inp e :
  gen cfg inp = Ok e -> config_verdict cfg inp = None /\ gen_output (the_jout cfg inp) = Ok e.
Proof. rewrite gen_unfold. destruct (config_verdict cfg inp); [discriminate|auto]. Qed.

(** * `ConfigError k` exactly in the four documented situations *)

Theorem gen_config_error_iff cfg inp k :
  gen cfg inp = ConfigError k <-> config_verdict cfg inp = Some k.
Proof.
  rewrite gen_unfold. destruct (config_verdict cfg inp) as [k'|].
  - split; intros H; inversion H; reflexivity.
  - split; [|discriminate]. intros H. exfalso. exact (no_cfg_gen_output _ _ H).
Qed.

(* the four documented reasons, as propositions *)
Definition handler_is (k : hkind) (inp : input) : Prop := exists h, i_handler inp = Some (k, h).
Definition rej_not_try_handler (cfg : config) (inp : input) : Prop :=     (* 1: `map`/`and_then` in a non-try macro *)
  is_try cfg = false /\ (handler_is HMap inp \/ handler_is HAndThen inp).
Definition rej_try_then (cfg : config) (inp : input) : Prop :=            (* 2: `then` in a try macro *)
  is_try cfg = true /\ handler_is HThen inp.
Definition rej_sync_fcp (cfg : config) (inp : input) : Prop :=            (* 3: futures_crate_path in a non-async macro *)
  is_async cfg = false /\ i_fcp inp <> None.
Definition rej_no_branch (inp : input) : Prop := i_branches inp = [].     (* 4: no branch *)

Lemma is_hkind_true k h : is_hkind k h = true <-> exists o, h = Some (k, o).
Proof.
  split.
  - unfold is_hkind. destruct h as [[[] o]|]; [| | |discriminate]; destruct k; try discriminate; eauto.
  - intros (o & ->). destruct k; reflexivity.
Qed.

Lemma rej1_reflect cfg inp :
  negb (is_try cfg) && (is_hkind HMap (i_handler inp) || is_hkind HAndThen (i_handler inp)) = true
  <-> rej_not_try_handler cfg inp.
Proof.
  unfold rej_not_try_handler, handler_is.
  rewrite andb_true_iff, orb_true_iff, negb_true_iff, !is_hkind_true. reflexivity.
Qed.
Lemma rej2_reflect cfg inp : is_try cfg && is_hkind HThen (i_handler inp) = true <-> rej_try_then cfg inp.
Proof. unfold rej_try_then, handler_is. rewrite andb_true_iff, is_hkind_true. reflexivity. Qed.
Lemma rej3_reflect cfg inp : negb (is_async cfg) && has_fcp inp = true <-> rej_sync_fcp cfg inp.
Proof.
  unfold rej_sync_fcp, has_fcp. rewrite andb_true_iff, negb_true_iff.
  destruct (i_fcp inp); split; intros [H1 H2]; split; auto; try discriminate; congruence.
Qed.

(* the first rule that applies decides *)
Theorem config_rejection_exact cfg inp k :
  gen cfg inp = ConfigError k <->
     (k = 1%N /\ rej_not_try_handler cfg inp)
  \/ (k = 2%N /\ ~ rej_not_try_handler cfg inp /\ rej_try_then cfg inp)
  \/ (k = 3%N /\ ~ rej_not_try_handler cfg inp /\ ~ rej_try_then cfg inp /\ rej_sync_fcp cfg inp)
  \/ (k = 4%N /\ ~ rej_not_try_handler cfg inp /\ ~ rej_try_then cfg inp /\ ~ rej_sync_fcp cfg inp /\ rej_no_branch inp).
Proof.
  rewrite gen_config_error_iff, <- rej1_reflect, <- rej2_reflect, <- rej3_reflect.
  unfold config_verdict, rej_no_branch.
  destruct (negb (is_try cfg) && (is_hkind HMap (i_handler inp) || is_hkind HAndThen (i_handler inp))),
           (is_try cfg && is_hkind HThen (i_handler inp)), (negb (is_async cfg) && has_fcp inp), (i_branches inp);
    (split; [first [intros [= <-]; intuition congruence | discriminate]|intuition congruence]).
Qed.

(* "gen never returns ConfigError for any other reason": the code is one of 1..4 *)
Corollary config_error_codes cfg inp k :
  gen cfg inp = ConfigError k -> k = 1%N \/ k = 2%N \/ k = 3%N \/ k = 4%N.
Proof. rewrite config_rejection_exact. tauto. Qed.

Corollary config_accept cfg inp :
  ~ rej_not_try_handler cfg inp -> ~ rej_try_then cfg inp -> ~ rej_sync_fcp cfg inp -> i_branches inp <> [] ->
  forall k, gen cfg inp <> ConfigError k.
Proof.
  intros H1 H2 H3 H4 k H. apply config_rejection_exact in H. unfold rej_no_branch in H. tauto.
Qed.

Print Assumptions gen_unfold.
Print Assumptions config_rejection_exact.

(** * Non-vacuity: all four codes and acceptance are reached, by computation *)

Definition opx (s : string) : operand := [TI s].
Definition ini (s : string) : action := mkAction Initial false NoMove [opx s].
Definition ex_branch : branch := mkBranch None [ini "a"; mkAction Map false NoMove [opx "f"]].
Definition ex_inp (h : option (hkind * operand)) (fcp : option operand) (bs : list branch) : input :=
  mkInput bs h fcp None None None.
Definition cfg_sync := mkConfig false false false.
Definition cfg_try := mkConfig false true false.
Definition cfg_async_try := mkConfig true true false.

Example ex_code1 : gen cfg_sync (ex_inp (Some (HMap, opx "h")) None [ex_branch]) = ConfigError 1.
Proof. vm_compute. reflexivity. Qed.
Example ex_code1_wins : gen cfg_sync (ex_inp (Some (HAndThen, opx "h")) (Some (opx "fut")) []) = ConfigError 1.
Proof. vm_compute. reflexivity. Qed.
Example ex_code2 : gen cfg_try (ex_inp (Some (HThen, opx "h")) (Some (opx "fut")) []) = ConfigError 2.
Proof. vm_compute. reflexivity. Qed.
Example ex_code3 : gen cfg_try (ex_inp (Some (HMap, opx "h")) (Some (opx "fut")) []) = ConfigError 3.
Proof. vm_compute. reflexivity. Qed.
Example ex_code4 : gen cfg_async_try (ex_inp (Some (HMap, opx "h")) (Some (opx "fut")) []) = ConfigError 4.
Proof. vm_compute. reflexivity. Qed.
Example ex_accept : exists e, gen cfg_async_try (ex_inp (Some (HMap, opx "h")) (Some (opx "fut")) [ex_branch]) = Ok e.
Proof. vm_compute. eexists. reflexivity. Qed.
