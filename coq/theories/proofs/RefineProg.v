(* Refinement, program level (no semantics yet).  Defines the input hypotheses of the refinement theorems,
   `wf` (default options) and `wf_opts` (any options) with `act_ok`, and `opts_of`; then what `wf_opts inp`,
   `gen` and `prepare` give, stated once as a relation `Rel_opts` between the generator's view `jout` and the
   reference semantics' view `sprog`; index lemmas on the Spec side (depth / active / tree). *)
From Coq Require Import Lia.
From Join Require Import Tok Ast Ir Gen Spec SpecOpts CompLaws SpecProps GenPropsBase Render
  RefineBase RefineChain.

Lemma all_some_Forall2 {A B} (f : A -> option B) : forall l l',
  all_some (map f l) = Some l' -> Forall2 (fun x y => f x = Some y) l l'.
Proof.
  induction l as [|x r IH]; intros l' H; cbn [map all_some] in H.
  - inversion H. constructor.
  - destruct (f x) as [y|] eqn:E; [|discriminate].
    destruct (all_some (map f r)) as [ys|] eqn:E'; [|discriminate].
    inversion H; subst. constructor; auto.
Qed.

Lemma Forall2_nth {A B} (R : A -> B -> Prop) l l' da db : Forall2 R l l' ->
  forall i, i < List.length l -> R (nth i l da) (nth i l' db).
Proof.
  induction 1; intros i Hi; cbn [List.length] in Hi; [lia|].
  destruct i as [|i]; cbn [nth]; [assumption|]. apply IHForall2. lia.
Qed.

Lemma Forall2_nth_error {A B} (R : A -> B -> Prop) l l' : Forall2 R l l' ->
  forall i x, nth_error l i = Some x -> exists y, nth_error l' i = Some y /\ R x y.
Proof.
  induction 1; intros i a Hi; destruct i as [|i]; cbn [nth_error] in *; try discriminate.
  - inversion Hi; subst. eauto.
  - eauto.
Qed.

Lemma Forall2_map_l {A B C} (R : C -> B -> Prop) (f : A -> C) l l' :
  Forall2 R (map f l) l' <-> Forall2 (fun x y => R (f x) y) l l'.
Proof.
  split.
  - revert l'. induction l as [|x r IH]; intros l' H; inversion H; subst; constructor; auto.
  - induction 1; cbn [map]; constructor; auto.
Qed.

Lemma Forall2_map_r {A B C} (R : A -> C -> Prop) (g : B -> C) l l' :
  Forall2 R l (map g l') <-> Forall2 (fun x y => R x (g y)) l l'.
Proof.
  split.
  - revert l. induction l' as [|y r IH]; intros l H; inversion H; subst; constructor; auto.
  - induction 1; cbn [map]; constructor; auto.
Qed.

Lemma Forall2_impl {A B} (R R' : A -> B -> Prop) l l' :
  (forall x y, R x y -> R' x y) -> Forall2 R l l' -> Forall2 R' l l'.
Proof. intros H HR. apply (Forall2_impl_in2 R R' l l' HR). intros x y _ _. apply H. Qed.

Lemma Forall2_combine {A B C} (P : A -> B -> Prop) (Q : B -> C -> Prop) :
  forall la lb lc, Forall2 P la lb -> Forall2 Q lb lc ->
  Forall2 (fun a (cb : C * B) => P a (snd cb) /\ Q (snd cb) (fst cb)) la (combine lc lb).
Proof.
  intros la lb lc H. revert lc. induction H; intros lc HQ; inversion HQ; subst; cbn [combine]; constructor; auto.
Qed.

Lemma Forall2_Forall_l {A B} (R : A -> B -> Prop) (P : A -> Prop) l l' :
  Forall2 R l l' -> Forall P l -> Forall2 (fun x y => R x y /\ P x) l l'.
Proof.
  induction 1; intros HP; [constructor|]. inversion HP; subst. constructor; auto.
Qed.

Lemma enum_filter_pairs {A} (g : nat -> A) (f : nat -> bool) : forall m i,
  filter (fun ip => f (fst ip)) (enum_from i (map g (seq i m))) = map (fun b => (b, g b)) (filter f (seq i m)).
Proof.
  induction m as [|m IH]; intros i; cbn [seq map enum_from filter]; [reflexivity|].
  cbn [fst]. destruct (f i); cbn [map]; rewrite IH; reflexivity.
Qed.

Lemma enum_filter_map {A} (g : nat -> A) (f : nat -> bool) m i :
  map snd (filter (fun ip => f (fst ip)) (enum_from i (map g (seq i m)))) = map g (filter f (seq i m)).
Proof. rewrite enum_filter_pairs, map_map. reflexivity. Qed.

Lemma enum_from_map {A B} (h : nat -> A -> B) : forall (l : list A) i,
  map (fun ix => h (fst ix) (snd ix)) (enum_from i l) = map (fun ix => h (fst ix) (snd ix)) (enum_from i l).
Proof. reflexivity. Qed.

Lemma enum_from_fst {A} : forall (l : list A) o, map fst (enum_from o l) = seq o (List.length l).
Proof. induction l as [|x r IH]; intros o; cbn [enum_from map List.length seq fst]; [reflexivity|]. rewrite IH. reflexivity. Qed.

Lemma enum_from_length {A} : forall (l : list A) i, List.length (enum_from i l) = List.length l.
Proof. induction l as [|x r IH]; intros i; cbn; [reflexivity|]. rewrite IH. reflexivity. Qed.

Lemma filter_length_nth (f : nat -> bool) : forall (l : list nat) i,
  List.length (filter (fun b => f (nth (b - i) l 0)) (seq i (List.length l))) = List.length (filter f l).
Proof.
  induction l as [|d r IH]; intros i; cbn [List.length seq filter]; [reflexivity|].
  assert (E : filter (fun b => f (nth (b - i) (d :: r) 0)) (seq (S i) (List.length r))
            = filter (fun b => f (nth (b - S i) r 0)) (seq (S i) (List.length r))).
  { apply filter_ext_in. intros b Hb. apply in_seq in Hb.
    replace (b - i) with (S (b - S i)) by lia. reflexivity. }
  rewrite E, Nat.sub_diag. change (nth 0 (d :: r) 0) with d.
  destruct (f d); cbn [List.length]; rewrite IH; reflexivity.
Qed.

Lemma list_max_lt (l : list nat) k : k < list_max l <-> exists d, In d l /\ k < d.
Proof.
  unfold list_max. induction l as [|d r IH]; cbn [fold_right].
  - split; [lia|]. intros (d & [] & _).
  - split.
    + intros H. destruct (Nat.max_spec d (fold_right Nat.max 0 r)) as [[_ E]|[_ E]]; rewrite E in H.
      * apply IH in H. destruct H as (d' & Hin & Hlt). exists d'. split; [right; exact Hin|exact Hlt].
      * exists d. split; [left; reflexivity|exact H].
    + intros (d' & [<-|Hin] & Hlt); [lia|].
      assert (k < fold_right Nat.max 0 r) by (apply IH; eauto). lia.
Qed.

Lemma split_at_deferred_eq ms : split_at_deferred ms = split_steps ms.
Proof.
  induction ms as [|m r IH]; cbn [split_at_deferred split_steps]; [reflexivity|]. rewrite IH. reflexivity.
Qed.

Lemma split_steps_all_nonempty ms :
  (match ms with m :: _ => a_deferred m = false | [] => False end) ->
  Forall (fun x => x <> []) (split_steps ms).
Proof.
  intros H. destruct (split_steps_shape ms) as (g & gs & E & Hgs & Hg). rewrite E. constructor.
  - intro Eg. specialize (Hg Eg). destruct ms; [exact H|congruence].
  - eapply Forall_impl; [|exact Hgs]. intros s (m & s' & -> & _). discriminate.
Qed.

(* what the refinement needs of one action: operand counts (`RefineChain.arity_ok`), and `>>>` only after a
   wrapper.  Weaker than `GenPropsA.act_ok`, which is what the parser is proved to establish. *)
Definition act_ok (a : action) : Prop :=
  (a_mv a = NoMove -> arity_ok a = true) /\ (a_mv a = Wrap -> can_be_wrapper (a_comb a) = true).

Lemma nodes_ok_Forall t : nodes_ok t <-> Forall node_ok t.
Proof.
  induction t as [|x r IH]; [split; constructor|]. rewrite nodes_ok_cons, IH.
  split; [intros []; constructor; assumption|intros H; inversion H; auto].
Qed.

Lemma nest_ok acts t : Forall act_ok acts -> nest acts = Some t -> nodes_ok t.
Proof.
  intros Hok Hn. apply nodes_ok_Forall. apply (nest_all act_ok node_ok) with (acts := acts); auto.
  - intros e a [Ha _] Hm. exact (Ha Hm).
  - intros e a inner [_ Hw] Hm Hin. rewrite node_ok_NWrap. split; [exact (Hw Hm)|apply nodes_ok_Forall; exact Hin].
Qed.

(* What the refinement assumes of the input.  The first two items are up to the user of the DSL (no parser
   checks them); the last two follow from what the parser is proved to establish (`GenPropsA.wf_parsed`, by
   `GenPropsParse.parse_ok_wf`), though no lemma states that implication.
   - default options;
   - the `let` names are pairwise distinct and do not start with `__` (otherwise a later `let x`
     shadows an earlier branch's result, resp. a user name may collide with `__r1`, `__v`, ..);
   - a branch is not empty and does not begin with a `~` operator (the parser: it begins with the
     Initial expression, which is never deferred) - otherwise step 0 of the branch has no actions,
     the generator skips it but still destructures a result for it;
   - per action: the parser's operand counts for Fold/TryFold/Or/OrElse/MapErr/Initial, and `>>>`
     only after an operator that can be a wrapper.
   That every step's brackets balance is the hypothesis `prepare cfg inp = Some sp`. *)
Record wf (inp : input) : Prop := {
  wf_joiner : i_joiner inp = None;
  wf_transpose : i_transpose inp = None;
  wf_lazy : i_lazy inp = None;
  wf_names_nodup : NoDup (user_names inp);
  wf_names_user : Forall user_ident (user_names inp);
  wf_first : Forall (fun br => match b_members br with m :: _ => a_deferred m = false | [] => False end)
                    (i_branches inp);
  wf_actions : Forall (fun br => Forall act_ok (b_members br)) (i_branches inp)
}.

(* `wf` without the demand for default options: every setting of custom_joiner / lazy_branches /
   transpose_results is allowed (SpecOpts.v gives all of them a meaning) *)
Record wf_opts (inp : input) : Prop := {
  wfo_names_nodup : NoDup (user_names inp);
  wfo_names_user : Forall user_ident (user_names inp);
  wfo_first : Forall (fun br => match b_members br with m :: _ => a_deferred m = false | [] => False end)
                     (i_branches inp);
  wfo_actions : Forall (fun br => Forall act_ok (b_members br)) (i_branches inp)
}.

Lemma wf_wf_opts inp : wf inp -> wf_opts inp.
Proof. intros [_ _ _ H1 H2 H3 H4]. constructor; assumption. Qed.

Lemma wf_opts_wf inp : wf_opts inp -> i_joiner inp = None -> i_transpose inp = None -> i_lazy inp = None -> wf inp.
Proof. intros [H1 H2 H3 H4] Hj Ht Hl. constructor; assumption. Qed.

Definition pat_name (p : option (operand * string)) : option string :=
  match p with Some (_, x) => Some x | None => None end.
Definition opt_list {A} (o : option A) : list A := match o with Some x => [x] | None => [] end.

Definition step_rel (acts : list action) (t : list node) : Prop :=
  acts <> [] /\ nest acts = Some t /\ nodes_ok t.

(* the option-independent part: holds for EVERY setting of custom_joiner / lazy_branches / transpose_results *)
Record Rel_opts (cfg : config) (j : jout) (sp : sprog) : Prop := {
  r_cfg_j : j_cfg j = cfg;
  r_cfg_sp : sp_cfg sp = cfg;
  r_chains : Forall2 (Forall2 step_rel) (j_chains j) (sp_trees sp);
  r_names : sp_names sp = map pat_name (j_pats j);
  r_count : j_branch_count j = List.length (j_chains j);
  r_len_pats : List.length (j_pats j) = List.length (j_chains j);
  r_depths : j_depths j = map (fun c => List.length c) (j_chains j);
  r_max : j_max j = list_max (j_depths j);
  r_handler : sp_handler sp = j_handler j;
  r_nonempty : j_chains j <> [];
  r_hk_nontry : is_try cfg = false -> is_hkind HMap (j_handler j) = false /\ is_hkind HAndThen (j_handler j) = false;
  r_hk_try : is_try cfg = true -> is_hkind HThen (j_handler j) = false;
  r_unames_nodup : NoDup (flat_map opt_list (map pat_name (j_pats j)));
  r_unames_user : Forall user_ident (flat_map opt_list (map pat_name (j_pats j)))
}.

Definition opts_of (j : jout) : sopts :=
  {| so_joiner := j_joiner j; so_lazy := j_lazy j; so_transpose := j_transpose j |}.

Lemma user_names_pats inp :
  user_names inp = flat_map opt_list (map pat_name (map b_pat (i_branches inp))).
Proof.
  unfold user_names. induction (i_branches inp) as [|br r IH]; cbn [flat_map map]; [reflexivity|].
  rewrite IH. destruct (b_pat br) as [[toks x]|]; reflexivity.
Qed.

Lemma steps_rel ms tr :
  (match ms with m :: _ => a_deferred m = false | [] => False end) -> Forall act_ok ms ->
  all_some (map nest (split_at_deferred ms)) = Some tr -> Forall2 step_rel (split_steps ms) tr.
Proof.
  intros Hf Ha Hs. apply all_some_Forall2 in Hs. rewrite split_at_deferred_eq in Hs.
  pose proof (split_steps_all_nonempty _ Hf) as Hne.
  assert (Hin : Forall (fun acts => Forall act_ok acts) (split_steps ms)).
  { rewrite Forall_forall. intros acts Hi. rewrite Forall_forall in *. intros a Haa. apply Ha.
    eapply split_steps_members; eauto. }
  apply (Forall2_Forall_l _ _ _ _ Hs) in Hne. apply (Forall2_Forall_l _ _ _ _ Hne) in Hin.
  eapply Forall2_impl; [|exact Hin]. cbn beta. intros acts t [[Hn Hne'] Hok].
  repeat split; auto. eapply nest_ok; eauto.
Qed.

Lemma jout_new_rel cfg inp fcp j sp :
  wf_opts inp -> jout_new cfg inp fcp = Ok j -> prepare cfg inp = Some sp ->
  Rel_opts cfg j sp /\ user_names inp = flat_map opt_list (map pat_name (j_pats j)) /\ opts_of j = resolve cfg inp.
Proof.
  intros [Hnd Hus Hfirst Hacts] Hg Hp.
  unfold jout_new in Hg.
  destruct (negb (is_try cfg) && (is_hkind HMap (i_handler inp) || is_hkind HAndThen (i_handler inp))) eqn:E1; [discriminate|].
  destruct (is_try cfg && is_hkind HThen (i_handler inp)) eqn:E2; [discriminate|].
  destruct (negb (is_async cfg) && match fcp with Some _ => true | None => false end) eqn:E3; [discriminate|].
  destruct (i_branches inp) as [|br0 brs] eqn:Eb; [discriminate|]. rewrite <- Eb in *.
  inversion Hg; subst j; clear Hg.
  unfold prepare in Hp.
  destruct (all_some (map (fun b => all_some (map nest (split_at_deferred (b_members b)))) (i_branches inp)))
    as [trees|] eqn:Et; [|discriminate].
  inversion Hp; subst sp; clear Hp.
  apply all_some_Forall2 in Et.
  split; [|split; [apply user_names_pats|]].
  2:{ unfold opts_of, resolve, default_opts. cbn [j_joiner j_lazy j_transpose so_lazy so_transpose].
      destruct (i_lazy inp), (i_transpose inp); reflexivity. }
  constructor; cbn [j_cfg sp_cfg j_chains sp_trees sp_names j_pats j_branch_count j_depths j_max sp_handler
                    j_handler j_joiner j_lazy j_transpose]; try reflexivity.
  - apply Forall2_map_l.
    assert (HF : Forall (fun br => (match b_members br with m :: _ => a_deferred m = false | [] => False end)
                                   /\ Forall act_ok (b_members br)) (i_branches inp)).
    { rewrite Forall_forall in *. intros br Hbr. split; [apply Hfirst|apply Hacts]; exact Hbr. }
    clear Hfirst Hacts Eb. revert trees Et HF.
    induction (i_branches inp) as [|br r IH]; intros trees Et HF; inversion Et; subst; constructor.
    + inversion HF as [|? ? [Hf Ha] HF']; subst. apply steps_rel; assumption.
    + apply IH; auto. inversion HF; assumption.
  - rewrite map_map. apply map_ext. intros br. destruct (b_pat br) as [[toks x]|]; reflexivity.
  - rewrite map_length. reflexivity.
  - rewrite !map_length. reflexivity.
  - rewrite Eb. discriminate.
  - intros Htry. rewrite Htry in E1. cbn [negb andb] in E1. apply orb_false_elim in E1. exact E1.
  - intros Htry. rewrite Htry in E2. exact E2.
  - rewrite <- user_names_pats. exact Hnd.
  - rewrite <- user_names_pats. exact Hus.
Qed.

(* all that the refinement proof uses of `gen` above `gen_output` *)
Theorem gen_rel cfg inp e sp :
  wf_opts inp -> gen cfg inp = Ok e -> prepare cfg inp = Some sp ->
  exists j, Rel_opts cfg j sp /\ gen_output j = Ok e /\
            user_names inp = flat_map opt_list (map pat_name (j_pats j)) /\ opts_of j = resolve cfg inp.
Proof.
  intros Hwf Hg Hp. unfold gen in Hg. cbv zeta in Hg.
  destruct (jout_new cfg inp _) as [j| |] eqn:Ej; cbn [rbind] in Hg; try discriminate Hg.
  destruct (jout_new_rel cfg inp _ j sp Hwf Ej Hp) as (HR & Hun & Ho).
  exists j. exact (conj HR (conj Hg (conj Hun Ho))).
Qed.

(* the active branches of step k among the branches b, b+1, .., with their trees *)
Fixpoint spec_branches (k b : nat) (trs : list (list (list node))) : list (nat * list node) :=
  match trs with
  | [] => []
  | tr :: r => match nth_error tr k with
               | Some t => (b, t) :: spec_branches k (S b) r
               | None => spec_branches k (S b) r
               end
  end.

Lemma nth_error_nth_length {A} (l : list A) k d :
  nth_error l k = if Nat.ltb k (List.length l) then Some (nth k l d) else None.
Proof.
  revert k. induction l as [|x r IH]; intros k; destruct k as [|k]; cbn [nth_error nth List.length]; try reflexivity.
  rewrite IH. reflexivity.
Qed.

Lemma spec_branches_eq k : forall trs b,
  spec_branches k b trs =
  map (fun i => (i, nth k (nth (i - b) trs []) []))
      (filter (fun i => Nat.ltb k (List.length (nth (i - b) trs []))) (seq b (List.length trs))).
Proof.
  induction trs as [|tr r IH]; intros b; cbn [spec_branches List.length seq filter]; [reflexivity|].
  assert (E1 : filter (fun i => Nat.ltb k (List.length (nth (i - b) (tr :: r) []))) (seq (S b) (List.length r))
             = filter (fun i => Nat.ltb k (List.length (nth (i - S b) r []))) (seq (S b) (List.length r))).
  { apply filter_ext_in. intros i Hi. apply in_seq in Hi. replace (i - b) with (S (i - S b)) by lia. reflexivity. }
  assert (E2 : forall l, (forall i, In i l -> S b <= i) ->
               map (fun i => (i, nth k (nth (i - b) (tr :: r) []) [])) l = map (fun i => (i, nth k (nth (i - S b) r []) [])) l).
  { intros l Hl. apply map_ext_in. intros i Hi. apply Hl in Hi. replace (i - b) with (S (i - S b)) by lia. reflexivity. }
  rewrite E1, Nat.sub_diag. change (nth 0 (tr :: r) []) with tr.
  rewrite (nth_error_nth_length tr k []).
  destruct (Nat.ltb k (List.length tr)); cbn [map]; rewrite ?Nat.sub_diag; change (nth 0 (tr :: r) []) with tr;
    rewrite IH, E2; try reflexivity;
    intros i Hi; apply filter_In in Hi; destruct Hi as [Hi _]; apply in_seq in Hi; lia.
Qed.

Section RelFacts.
  Variable cfg : config.
  Variable j : jout.
  Variable sp : sprog.
  Hypothesis HR : Rel_opts cfg j sp.

  Let n := j_branch_count j.

  Lemma rel_n_trees : List.length (sp_trees sp) = n.
  Proof. unfold n. rewrite (r_count _ _ _ HR). symmetry. apply (Forall2_length _ _ _ (r_chains _ _ _ HR)). Qed.
  Lemma rel_n_chains : List.length (j_chains j) = n.
  Proof. unfold n. rewrite (r_count _ _ _ HR). reflexivity. Qed.
  Lemma rel_n_pats : List.length (j_pats j) = n.
  Proof. rewrite (r_len_pats _ _ _ HR). apply rel_n_chains. Qed.
  Lemma rel_n_names : List.length (sp_names sp) = n.
  Proof. rewrite (r_names _ _ _ HR), map_length. apply rel_n_pats. Qed.
  Lemma rel_n_pos : 0 < n.
  Proof. rewrite <- rel_n_chains. pose proof (r_nonempty _ _ _ HR). destruct (j_chains j); [congruence|cbn; lia]. Qed.

  Lemma rel_depth b : depth sp b = nth b (j_depths j) 0.
  Proof.
    unfold depth. rewrite (r_depths _ _ _ HR).
    change 0 with (List.length (@nil (list action))). rewrite map_nth.
    destruct (Nat.lt_ge_cases b n) as [Hb|Hb].
    - pose proof (Forall2_nth _ _ _ [] [] (r_chains _ _ _ HR) b) as H.
      rewrite rel_n_chains in H. specialize (H Hb). symmetry. apply (Forall2_length _ _ _ H).
    - rewrite !nth_overflow; [reflexivity| |]; [rewrite rel_n_chains|rewrite rel_n_trees]; exact Hb.
  Qed.

  Lemma rel_active k b : active sp k b = is_active j k b.
  Proof. unfold active, is_active. rewrite rel_depth. reflexivity. Qed.

  Lemma rel_actives k : actives sp k = filter (is_active j k) (seq 0 n).
  Proof.
    unfold actives. rewrite rel_n_trees. apply filter_ext. intros b. apply rel_active.
  Qed.

  Lemma rel_active_count k : active_count j k = List.length (actives sp k).
  Proof.
    rewrite rel_actives. unfold active_count, is_active.
    pose proof (filter_length_nth (fun d => Nat.ltb k d) (j_depths j) 0) as H.
    rewrite <- H. f_equal.
    replace (List.length (j_depths j)) with n.
    - apply filter_ext. intros b. rewrite Nat.sub_0_r. reflexivity.
    - rewrite (r_depths _ _ _ HR), map_length. symmetry. apply rel_n_chains.
  Qed.

  Lemma rel_max : max_depth sp = j_max j.
  Proof.
    rewrite (r_max _ _ _ HR), (r_depths _ _ _ HR). unfold max_depth, list_max. f_equal.
    pose proof (r_chains _ _ _ HR) as H. induction H; cbn [map]; [reflexivity|].
    f_equal; [|assumption]. symmetry. eapply Forall2_length; eauto.
  Qed.

  Lemma rel_actives_nonempty k : k < j_max j -> actives sp k <> [].
  Proof.
    intros Hk. rewrite (r_max _ _ _ HR) in Hk. apply list_max_lt in Hk. destruct Hk as (d & Hin & Hlt).
    apply In_nth with (d := 0) in Hin. destruct Hin as (b & Hb & Hd).
    assert (Hbn : b < n).
    { rewrite (r_depths _ _ _ HR), map_length, rel_n_chains in Hb. exact Hb. }
    intro E. assert (Hin : In b (actives sp k)).
    { rewrite rel_actives. apply filter_In. split; [apply in_seq; lia|].
      unfold is_active. rewrite Hd. apply Nat.ltb_lt. exact Hlt. }
    rewrite E in Hin. exact Hin.
  Qed.

  Lemma rel_actives_lt k b : In b (actives sp k) -> b < n.
  Proof. rewrite rel_actives. intros H. apply filter_In in H. destruct H as [H _]. apply in_seq in H. lia. Qed.

  Lemma rel_spec_branches k :
    spec_branches k 0 (sp_trees sp) = map (fun b => (b, tree sp b k)) (actives sp k).
  Proof.
    rewrite spec_branches_eq. unfold actives, active, depth, tree.
    rewrite (filter_ext (fun i => Nat.ltb k (List.length (nth (i - 0) (sp_trees sp) [])))
                        (fun b => Nat.ltb k (List.length (nth b (sp_trees sp) [])))).
    - apply map_ext. intros b. rewrite Nat.sub_0_r. reflexivity.
    - intros b. rewrite Nat.sub_0_r. reflexivity.
  Qed.

  Lemma rel_tree_ok k b : In b (actives sp k) ->
    exists acts, step_rel acts (tree sp b k).
  Proof.
    intros Hin. pose proof (rel_actives_lt k b Hin) as Hb.
    unfold actives in Hin. apply filter_In in Hin. destruct Hin as [_ Ha]. unfold active, depth in Ha.
    apply Nat.ltb_lt in Ha.
    pose proof (Forall2_nth _ _ _ [] [] (r_chains _ _ _ HR) b) as H.
    rewrite rel_n_chains in H. specialize (H Hb).
    assert (Hk : k < List.length (nth b (j_chains j) [])) by (rewrite (Forall2_length _ _ _ H); exact Ha).
    pose proof (Forall2_nth _ _ _ [] [] H k Hk) as H2.
    exists (nth k (nth b (j_chains j) []) []). exact H2.
  Qed.
End RelFacts.
