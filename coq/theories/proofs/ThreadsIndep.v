(* Schedule independence (confluence) for NESTED fork-join blocks on the thread machine.

   ThreadsProps.v proves schedule independence for ONE block with events-only children.
   This file proves it for hereditarily block-structured code of ARBITRARY nesting depth, in the
   same per-name product world [pw_handle]: such code is a data type ([prog], [compile]), so that
   a schedule-free reference ([ref], [rlog]) and the invariant that ties a machine state to it
   ([TInv] / [KInv]) can be defined by recursion on the code.  [wf] is the name discipline that
   keeps concurrently running threads on different components of the world.
   No parametricity in handles is needed: inside a block handles only reach `Join`, so the
   invariant quantifies the children's thread indices existentially and never looks into a
   continuation at two different handles.
   Section Init restates the theorems for the initial state of a program ([s_init]) and shows that
   a finishing schedule exists; ExNestedIndep and ExNestedPanic evaluate two nested programs; the
   last part shows that the `__tb` names of generated code ([tbp]) satisfy [wf]
   (generated_names_wf, generated_code_schedule_independent).
   No axioms: every theorem is closed under the global context.  See THREADS_NOTES.md section 4. *)
From Coq Require Import ZArith Lia.
From Join Require Import Tok Names Comp Threads NamesInj ThreadsProps.

(* [prog] is the shape of ThreadsProps.hb as a data type (so that the reference can be defined by
   structural recursion; what hb asks beyond the shape - blocks non-empty, [post] strict - is part
   of [wf]): a value, a panic, an event, or a block - named children, a pure post-processing of
   each join outcome, and a continuation that receives the post-processed outcomes. *)
Inductive prog : Type :=
| PRet (v : val)
| PPanic (n : N)
| PVis (e : ev) (k : val -> prog)
| PBlock (B : Type) (post : option val -> B + N) (kids : progs) (K : list B -> prog)
with progs : Type :=
| PNil
| PCons (name : string) (p : prog) (r : progs).

Scheme prog_mind := Induction for prog Sort Prop
  with progs_mind := Induction for progs Sort Prop.
Combined Scheme prog_progs_ind from prog_mind, progs_mind.

Fixpoint compile (p : prog) : comp val :=
  match p with
  | PRet v => Ret v
  | PPanic n => Panic n
  | PVis e k => Vis e (fun v => compile (k v))
  | PBlock B post kids K => gblock post (cnts kids) (fun bs => compile (K bs))
  end
with cnts (ps : progs) : list (string * comp val) :=
  match ps with
  | PNil => []
  | PCons a p r => (a, compile p) :: cnts r
  end.

Fixpoint plen (ps : progs) : nat :=
  match ps with PNil => 0 | PCons _ _ r => S (plen r) end.

Fixpoint pskip (j : nat) (ps : progs) : progs :=
  match j, ps with
  | O, _ => ps
  | S j', PNil => PNil
  | S j', PCons _ _ r => pskip j' r
  end.

Lemma cnts_length ps : List.length (cnts ps) = plen ps.
Proof. induction ps as [|a p r IH]; cbn; auto. Qed.

Lemma cnts_pskip j : forall ps, cnts (pskip j ps) = skipn j (cnts ps).
Proof. induction j as [|j IH]; intros [|a p r]; cbn; auto. Qed.

Lemma pskip_all ps : pskip (plen ps) ps = PNil.
Proof. induction ps as [|a p r IH]; cbn; auto. Qed.

Lemma pskip_cons_lt j : forall ps a q r, pskip j ps = PCons a q r -> j < plen ps.
Proof.
  induction j as [|j IH]; intros [|b p r'] a q r H; cbn in *; try discriminate; try lia.
  apply IH in H. lia.
Qed.

Lemma pskip_S j : forall ps a q r, pskip j ps = PCons a q r -> pskip (S j) ps = r.
Proof.
  induction j as [|j IH]; intros [|b p r'] a q r H; cbn in *; try discriminate.
  - now injection H as _ _ ->.
  - eapply IH; eauto.
Qed.

Lemma pskip_lt_cons j : forall ps, j < plen ps -> exists a q r, pskip j ps = PCons a q r.
Proof.
  induction j as [|j IH]; intros [|b p r'] H; cbn in *; try lia; eauto.
  apply IH. lia.
Qed.

(* [uses p n]: on some path p spawns, at some depth, a thread named n *)
Fixpoint uses (p : prog) (n : option string) : Prop :=
  match p with
  | PRet _ | PPanic _ => False
  | PVis e k => exists v, uses (k v) n
  | PBlock B post kids K => kuses kids n \/ exists bs, uses (K bs) n
  end
with kuses (ps : progs) (n : option string) : Prop :=
  match ps with
  | PNil => False
  | PCons a p r => (n = Some a \/ uses p n) \/ kuses r n
  end.

Definition inscope (nm : option string) (p : prog) (n : option string) : Prop := n = nm \/ uses p n.

(* THE NAME DISCIPLINE (with the two side conditions of ThreadsProps.hb: blocks are non-empty and
   [post] turns "the thread panicked" into a panic).  [wf nm p]: p is run by a thread named nm;
   in every block the children's scopes (own name + every name used below) are pairwise disjoint
   and do not contain nm; hereditarily, so no thread carries the name of an ancestor and two
   threads that may be alive at the same time carry different names.  (Sequentially composed
   blocks MAY reuse names - the generated names <parent>_join_<i> do.) *)
Fixpoint wf (nm : option string) (p : prog) : Prop :=
  match p with
  | PRet _ | PPanic _ => True
  | PVis e k => forall v, wf nm (k v)
  | PBlock B post kids K =>
      kids <> PNil /\ strict_post post /\ ~ kuses kids nm /\ kwf kids /\ forall bs, wf nm (K bs)
  end
with kwf (ps : progs) : Prop :=
  match ps with
  | PNil => True
  | PCons a p r => wf (Some a) p /\ (forall n, inscope (Some a) p n -> ~ kuses r n) /\ kwf r
  end.

Lemma hb_compile_mut :
  (forall p nm, wf nm p -> hb (compile p)) /\
  (forall ps, kwf ps -> Forall (fun nt => hb (snd nt)) (cnts ps)).
Proof.
  apply prog_progs_ind; cbn.
  - constructor.
  - constructor.
  - intros e k IH nm H. constructor. intros v. eapply IH; eauto.
  - intros B post kids IHk K IH nm (Hne & Hs & _ & Hk & HK). apply hb_block; auto.
    + destruct kids; cbn; [contradiction|discriminate].
    + intros bs. eapply IH; eauto.
  - constructor.
  - intros a p IHp r IHr (Hp & _ & Hr). constructor; eauto.
Qed.

Theorem hb_compile p nm : wf nm p -> hb (compile p).
Proof. apply hb_compile_mut. Qed.

Lemma grows_app_r {A} (N : A -> Prop) l D D' :
  (forall z, In z D' <-> In z D \/ N z) -> forall z, In z (l ++ D') <-> In z (l ++ D) \/ N z.
Proof. intros H z. rewrite !in_app_iff, H. tauto. Qed.

Lemma grows_app_l {A} (N : A -> Prop) l D D' :
  (forall z, In z D' <-> In z D \/ N z) -> forall z, In z (D' ++ l) <-> In z (D ++ l) \/ N z.
Proof. intros H z. rewrite !in_app_iff, H. tauto. Qed.

Lemma oname_dec (a b : option string) : {a = b} + {a <> b}.
Proof. decide equality. apply String.string_dec. Qed.

Lemma posts_inl_all {B} (post : option val -> B + N) : forall os bs,
  posts post os = inl bs -> Forall2 (fun o b => post o = inl b) os bs.
Proof.
  induction os as [|o os IH]; intros bs H; cbn in H.
  - injection H as <-. constructor.
  - destruct (post o) as [b|n] eqn:E; [|discriminate].
    destruct (posts post os) as [bs'|n] eqn:E'; [|discriminate]. injection H as <-.
    constructor; auto.
Qed.

Lemma posts_strict_all_some {B} (post : option val -> B + N) os bs :
  strict_post post -> posts post os = inl bs -> forall o, In o os -> exists v, o = Some v.
Proof.
  intros [n Hn] H o Hin. apply posts_inl_all in H.
  destruct (Forall2_In_l _ _ _ _ H Hin) as (b & _ & Hb). destruct o as [v|]; [eauto|congruence].
Qed.

Section Indep.
  Variable cstate : Type.
  (* the per-thread component of the world: thread NAME, event, that name's own state *)
  Variable h : option string -> ev -> cstate -> option val * cstate.

  (* The reference runs on the product world EXTENDED by a ghost log per name: component n =
     (the state of n's component, the events made so far under the name n, oldest first). *)
  Definition xst : Type := (cstate * list ev)%type.
  Definition xworld : Type := option string -> xst.

  Definition xans (nm : option string) (e : ev) (x : xst) : option val * xst :=
    let a := answer h nm e (fst x) in (fst a, (snd a, snd x ++ [e])).

  Definition xupd (w : xworld) (nm : option string) (x : xst) : xworld :=
    fun n => if name_eqb n nm then x else w n.

  Lemma xupd_same w nm x : xupd w nm x nm = x.
  Proof. unfold xupd. now rewrite name_eqb_refl. Qed.
  Lemma xupd_other w nm x n : n <> nm -> xupd w nm x n = w n.
  Proof. intros H. unfold xupd. now rewrite name_eqb_neq. Qed.

  (* THE REFERENCE, by structural recursion on the code; no pool, no schedule, no handles.
     [ref nm p w] = (outcome, final world, own events) of a thread named nm that runs p from w:
     an event reads and writes component nm; a block runs its children one after the other,
     child (a, q) under the name a on the world its predecessor left (they touch different
     components, so this is "each on its own components"), feeds their outcomes through [post]
     and, if no post-processing fails, continues with K.  No schedule is singled out to
     compute it: every finished run gives the reference ([every_finished_run_is_the_reference]). *)
  Fixpoint ref (nm : option string) (p : prog) (w : xworld) : option val * xworld * list ev :=
    match p with
    | PRet v => (Some v, w, [])
    | PPanic _ => (None, w, [])
    | PVis e k =>
        let a := xans nm e (w nm) in
        let w' := xupd w nm (snd a) in
        match fst a with
        | Some v => let r := ref nm (k v) w' in (fst (fst r), snd (fst r), e :: snd r)
        | None => (None, w', [e])
        end
    | PBlock B post kids K =>
        let rs := refs kids w in
        match posts post (fst rs) with
        | inl bs => ref nm (K bs) (snd rs)
        | inr _ => (None, snd rs, [])
        end
    end
  with refs (ps : progs) (w : xworld) : list (option val) * xworld :=
    match ps with
    | PNil => ([], w)
    | PCons a p r =>
        let x := ref (Some a) p w in
        let y := refs r (snd (fst x)) in
        (fst (fst x) :: fst y, snd y)
    end.

  (* one record per thread: name, outcome, own events *)
  Definition trec : Type := (option string * option val * list ev)%type.
  Definition rname (r : trec) : option string := fst (fst r).

  (* the threads SPAWNED (at any depth) while a thread named nm runs p from w, in reference order *)
  Fixpoint rlog (nm : option string) (p : prog) (w : xworld) : list trec :=
    match p with
    | PRet _ | PPanic _ => []
    | PVis e k =>
        let a := xans nm e (w nm) in
        match fst a with
        | Some v => rlog nm (k v) (xupd w nm (snd a))
        | None => []
        end
    | PBlock B post kids K =>
        let rs := refs kids w in
        rlogs kids w ++
        match posts post (fst rs) with
        | inl bs => rlog nm (K bs) (snd rs)
        | inr _ => []
        end
    end
  with rlogs (ps : progs) (w : xworld) : list trec :=
    match ps with
    | PNil => []
    | PCons a p r =>
        let x := ref (Some a) p w in
        (Some a, fst (fst x), snd x) :: rlog (Some a) p w ++ rlogs r (snd (fst x))
    end.

  Definition rnames (nm : option string) (p : prog) (w : xworld) : list (option string) :=
    map rname (rlog nm p w).
  Definition knames (ps : progs) (w : xworld) : list (option string) := map rname (rlogs ps w).

  Lemma rnames_block nm B (post : option val -> B + N) kids K w :
    rnames nm (PBlock B post kids K) w =
    knames kids w ++ match posts post (fst (refs kids w)) with
                     | inl bs => rnames nm (K bs) (snd (refs kids w))
                     | inr _ => []
                     end.
  Proof.
    unfold rnames, knames. cbn. rewrite map_app. f_equal.
    destruct (posts post (fst (refs kids w))); reflexivity.
  Qed.

  Lemma knames_cons a q r w :
    knames (PCons a q r) w = Some a :: rnames (Some a) q w ++ knames r (snd (fst (ref (Some a) q w))).
  Proof. unfold knames, rnames. cbn. now rewrite map_app. Qed.

  Lemma refs_length ps : forall w, List.length (fst (refs ps w)) = plen ps.
  Proof. induction ps as [|a p r IH]; intros w; cbn; auto. Qed.

  Lemma rlog_uses_mut :
    (forall p nm w r, In r (rlog nm p w) -> uses p (rname r)) /\
    (forall ps w r, In r (rlogs ps w) -> kuses ps (rname r)).
  Proof.
    apply prog_progs_ind; cbn.
    - intros v nm w r [].
    - intros n nm w r [].
    - intros e k IH nm w r. destruct (fst (answer h nm e (fst (w nm)))) as [v|]; [|intros []].
      intros H. exists v. eapply IH; eauto.
    - intros B post kids IHk K IH nm w r H. apply in_app_iff in H. destruct H as [H|H].
      + left. eapply IHk; eauto.
      + destruct (posts post (fst (refs kids w))) as [bs|]; [|destruct H]. right. exists bs. eapply IH; eauto.
    - intros w r [].
    - intros a p IHp r IHr w x [<-|H]; [left; left; reflexivity|].
      apply in_app_iff in H. destruct H as [H|H].
      + left. right. eapply IHp; eauto.
      + right. eapply IHr; eauto.
  Qed.

  Lemma rnames_uses p nm w n : In n (rnames nm p w) -> uses p n.
  Proof.
    unfold rnames. intros H. apply in_map_iff in H. destruct H as (r & <- & Hr).
    eapply (proj1 rlog_uses_mut); eauto.
  Qed.
  Lemma knames_kuses ps w n : In n (knames ps w) -> kuses ps n.
  Proof.
    unfold knames. intros H. apply in_map_iff in H. destruct H as (r & <- & Hr).
    eapply (proj2 rlog_uses_mut); eauto.
  Qed.

  Lemma ref_frame_mut :
    (forall p nm w n, n <> nm -> ~ In n (rnames nm p w) -> snd (fst (ref nm p w)) n = w n) /\
    (forall ps w n, ~ In n (knames ps w) -> snd (refs ps w) n = w n).
  Proof.
    apply prog_progs_ind.
    - reflexivity.
    - reflexivity.
    - intros e k IH nm w n Hne Hn. unfold rnames in *. cbn in Hn |- *.
      destruct (fst (answer h nm e (fst (w nm)))) as [v|]; cbn.
      + rewrite IH by auto. now apply xupd_other.
      + now apply xupd_other.
    - intros B post kids IHk K IH nm w n Hne Hn. rewrite rnames_block, in_app_iff in Hn. cbn.
      destruct (posts post (fst (refs kids w))) as [bs|]; cbn.
      + rewrite IH by auto. apply IHk. auto.
      + apply IHk. auto.
    - reflexivity.
    - intros a p IHp r IHr w n Hn. rewrite knames_cons in Hn. cbn in Hn |- *. rewrite in_app_iff in Hn.
      rewrite IHr by auto. apply IHp; auto.
  Qed.

  Definition ref_frame := proj1 ref_frame_mut.
  Definition refs_frame := proj2 ref_frame_mut.

  Notation state := (state (pworld cstate)).
  Notation step_rel := (step_rel (pworld cstate) (pw_handle cstate h)).
  Notation run_thr := (run_thr (pw_handle cstate h)).
  Notation thr := (thr_of (pworld cstate)).
  Notation fin := (fin (pworld cstate)).
  Notation unfinished := (unfinished (pworld cstate)).

  Definition tname (s : state) (i : nat) : option (option string) :=
    option_map th_name (nth_error (pool s) i).
  Definition named_b (s : state) (n : option string) (x : nat * ev) : bool :=
    match tname s (fst x) with Some m => name_eqb m n | None => false end.
  (* the events made under the NAME n (by whichever threads carried it), oldest first *)
  Definition nev (n : option string) (s : state) : list ev :=
    rev (map snd (filter (named_b s n) (trace s))).
  Definition xw (s : state) : xworld := fun n => (world s n, nev n s).

  (* trace entries name existing threads: a thread that is created later has no entry yet
     ([xevs_new]), and [named_b] finds a name for every entry *)
  Definition tvalid (s : state) : Prop := forall x, In x (trace s) -> fst x < List.length (pool s).
  Definition isthr (s : state) (y : nat) (nm : option string) : Prop :=
    exists th, thr s y = Some th /\ th_name th = nm.
  Definition xcode (s : state) (x : nat) (d : comp val) : Prop :=
    exists th, thr s x = Some th /\ th_code th = d.
  Definition xevs (s : state) (x : nat) : list ev := evs_of x (trace s).

  Lemma xevs_events_of s x : xevs s x = events_of x s.
  Proof. reflexivity. Qed.

  Lemma isthr_tname s y nm : isthr s y nm <-> tname s y = Some nm.
  Proof.
    unfold isthr, tname, thr_of. split.
    - intros (th & -> & <-). reflexivity.
    - destruct (nth_error (pool s) y) as [th|]; cbn; [|discriminate]. intros H; injection H as <-. eauto.
  Qed.

  Lemma isthr_inj s y a b : isthr s y a -> isthr s y b -> a = b.
  Proof. intros (th & H1 & <-) (th' & H2 & <-). congruence. Qed.

  Lemma isthr_lt s y nm : isthr s y nm -> y < List.length (pool s).
  Proof. intros (th & H & _). eapply nth_error_Some_lt; eauto. Qed.

  Lemma isthr_step i s s' y nm : step_rel i s s' -> isthr s y nm -> isthr s' y nm.
  Proof.
    intros Hst (th & Hth & Hn).
    destruct (step_thr_stable _ _ i s s' y th Hst Hth) as (th' & Hth' & Hn' & _).
    exists th'. split; [exact Hth'|congruence].
  Qed.

  Lemma tname_step i s s' j : step_rel i s s' -> j < List.length (pool s) -> tname s' j = tname s j.
  Proof.
    intros Hst Hlt. destruct (thr_exists _ _ _ Hlt) as [th Hth].
    assert (H1 : isthr s j (th_name th)) by (exists th; auto).
    pose proof (isthr_step _ _ _ _ _ Hst H1) as H2.
    apply isthr_tname in H1, H2. congruence.
  Qed.

  Lemma tvalid_step i s s' : step_rel i s s' -> tvalid s -> tvalid s'.
  Proof.
    intros Hst Hv x Hx. pose proof (step_length _ _ _ _ _ Hst) as Hl.
    destruct (step_trace _ _ _ _ _ Hst) as [E|[e E]]; rewrite E in Hx.
    - specialize (Hv x Hx). lia.
    - destruct Hx as [<-|Hx]; [|specialize (Hv x Hx); lia]. cbn.
      destruct (step_unfinished _ _ _ _ _ Hst) as (th & Hth & _). apply nth_error_Some_lt in Hth. lia.
  Qed.

  Lemma filter_named_step i s s' n :
    step_rel i s s' -> tvalid s -> filter (named_b s' n) (trace s) = filter (named_b s n) (trace s).
  Proof.
    intros Hst Hv. apply filter_ext_in. intros x Hx. unfold named_b.
    now rewrite (tname_step _ _ _ _ Hst (Hv x Hx)).
  Qed.

  Lemma nev_same i s s' n : step_rel i s s' -> tvalid s -> trace s' = trace s -> nev n s' = nev n s.
  Proof. intros Hst Hv E. unfold nev. rewrite E. now rewrite (filter_named_step _ _ _ _ Hst Hv). Qed.

  Lemma nev_cons i s s' e nmi n :
    step_rel i s s' -> tvalid s -> trace s' = (i, e) :: trace s -> isthr s i nmi ->
    nev n s' = if name_eqb nmi n then nev n s ++ [e] else nev n s.
  Proof.
    intros Hst Hv E Hi. unfold nev. rewrite E. cbn [filter].
    rewrite (filter_named_step _ _ _ _ Hst Hv).
    pose proof (isthr_step _ _ _ _ _ Hst Hi) as Hi'. apply isthr_tname in Hi'.
    unfold named_b at 1. cbn [fst]. rewrite Hi'. destruct (name_eqb nmi n); reflexivity.
  Qed.

  Lemma xevs_other i s s' x : step_rel i s s' -> x <> i -> xevs s' x = xevs s x.
  Proof.
    intros Hst Hne. unfold xevs. destruct (step_trace _ _ _ _ _ Hst) as [E|[e E]]; rewrite E; [reflexivity|].
    apply evs_of_cons_other. congruence.
  Qed.

  Lemma xcode_other i s s' x d : step_rel i s s' -> x <> i -> xcode s x d -> xcode s' x d.
  Proof.
    intros Hst Hne (th & Hth & Hc). exists th.
    now rewrite (step_other _ _ i s s' x Hst Hne (nth_error_Some_lt _ _ _ Hth)).
  Qed.

  Lemma xevs_new s x : tvalid s -> List.length (pool s) <= x -> xevs s x = [].
  Proof.
    intros Hv Hx. unfold xevs. apply evs_of_none. intros y Hy E. specialize (Hv y Hy). lia.
  Qed.

  (* ONE STEP of a thread named nm with code d, in the vocabulary of the invariant: an event answers
     from and writes to the component nm of the extended world; a spawn and a join leave it alone *)
  Lemma xstep i s s' d nm :
    step_rel i s s' -> tvalid s -> xcode s i d -> isthr s i nm ->
    match d with
    | Vis e k =>
        let a := xans nm e (xw s nm) in
        xcode s' i (vis_next k (fst a)) /\ List.length (pool s') = List.length (pool s) /\
        trace s' = (i, e) :: trace s /\ forall n, xw s' n = xupd (xw s) nm (snd a) n
    | Spawn a t k =>
        let L := List.length (pool s) in
        xcode s' i (k L) /\ isthr s' L (Some a) /\ xcode s' L t /\ List.length (pool s') = S L /\
        trace s' = trace s /\ forall n, xw s' n = xw s n
    | Join hj k =>
        exists r, fin s hj r /\ xcode s' i (k r) /\ List.length (pool s') = List.length (pool s) /\
                  trace s' = trace s /\ forall n, xw s' n = xw s n
    | Ret _ | Panic _ => False
    end.
  Proof.
    intros Hst Hv (th & Hth & <-) Hi. pose proof Hi as (th1 & Hth1 & <-).
    rewrite Hth in Hth1. injection Hth1 as <-.
    pose proof (step_inv _ _ i s s' th Hst Hth) as H.
    assert (Hsilent : trace s' = trace s -> world s' = world s -> forall n, xw s' n = xw s n).
    { intros Ht Hw n. unfold xw. now rewrite Hw, (nev_same _ _ _ n Hst Hv Ht). }
    destruct (th_code th) as [v|n0|e k|a t k|hj k]; try contradiction.
    - destruct H as (r & w' & Ha & Es'). cbn zeta.
      destruct (answer_pw cstate h (th_name th) e (world s)) as (H1 & H2 & H3).
      rewrite Ha in H1, H2, H3. cbn [fst snd] in H1, H2, H3.
      assert (Ht : trace s' = (i, e) :: trace s) by now subst s'.
      assert (Hw : world s' = w') by now subst s'.
      destruct (thr_upd _ s s' i th _ (f_equal pool Es') Hth) as (Hx' & Hlen).
      unfold xans. cbn [fst snd xw]. rewrite <- H1.
      split; [eexists; split; [exact Hx'|reflexivity]|]. split; [exact Hlen|]. split; [exact Ht|].
      intros n. unfold xw at 1. rewrite Hw, (nev_cons _ _ _ _ _ n Hst Hv Ht Hi).
      destruct (oname_dec n (th_name th)) as [->|Hn].
      + now rewrite xupd_same, name_eqb_refl, H2.
      + rewrite xupd_other, name_eqb_neq, H3 by congruence. reflexivity.
    - destruct (thr_upd_app _ s s' i th _ _ (f_equal pool H) Hth) as (Hx' & HL & Hlen).
      split; [eexists; split; [exact Hx'|reflexivity]|].
      split; [eexists; split; [exact HL|reflexivity]|]. split; [eexists; split; [exact HL|reflexivity]|].
      split; [exact Hlen|]. split; [now subst s'|]. apply Hsilent; now subst s'.
    - destruct H as (r & Hf & Es'). exists r. split; [exact Hf|].
      destruct (thr_upd _ s s' i th _ (f_equal pool Es') Hth) as (Hx' & Hlen).
      split; [eexists; split; [exact Hx'|reflexivity]|].
      split; [exact Hlen|]. split; [now subst s'|]. apply Hsilent; now subst s'.
  Qed.

  Lemma xw_other i s s' nmi n :
    step_rel i s s' -> tvalid s -> isthr s i nmi -> n <> nmi -> xw s' n = xw s n.
  Proof.
    intros Hst Hv Hi Hn. pose proof Hi as (th & Hth & _).
    pose proof (xstep _ _ _ _ _ Hst Hv (ex_intro _ th (conj Hth eq_refl)) Hi) as H.
    destruct (th_code th); try contradiction.
    - destruct H as (_ & _ & _ & ->). now apply xupd_other.
    - apply H.
    - destruct H as (r & _ & _ & _ & _ & H). apply H.
  Qed.

  (* thread x has code [code], has made [base] events, and the components in Sc are as in w *)
  Definition Leaf (Sc : option string -> Prop) (x : nat) (s : state) (code : comp val)
             (w : xworld) (base : nat) : Prop :=
    xcode s x code /\ List.length (xevs s x) = base /\ forall n, Sc n -> xw s n = w n.

  (* children with their descendants: (thread of the child, its descendants) *)
  Definition flat (hDs : list (nat * list nat)) : list nat :=
    List.concat (map (fun hd => fst hd :: snd hd) hDs).

  (* thread y is finished and (name, outcome, own events) is a record of the log *)
  Definition finrec (s : state) (y : nat) (log : list trec) : Prop :=
    exists th r, thr s y = Some th /\ outcome (th_code th) = Some r /\ In (th_name th, r, xevs s y) log.

  (* the caller x of a block, inside the block; hs = the children spawned so far.  x is silent,
     the names outside the logged names of the children are untouched, and x is spawning, or
     joining (the first m children are finished and joined), or finished by a failed join *)
  Definition InBlock {B} (post : option val -> B + N) (kids : progs) (K' : list B -> comp val)
             (Sc : option string -> Prop) (w : xworld) (x : nat) (s : state) (base : nat)
             (hs : list nat) : Prop :=
    let outs := fst (refs kids w) in
    (forall n, Sc n -> ~ In n (knames kids w) -> xw s n = w n) /\
    List.length (xevs s x) = base /\
    ( ((exists a q r, pskip (List.length hs) kids = PCons a q r) /\
       xcode s x (spawn_all_acc (cnts (pskip (List.length hs) kids)) (rev hs)
                                (fun hs' => join_all_acc post hs' [] K')))
      \/
      (List.length hs = plen kids /\ exists m bs, m < List.length hs /\
         Forall2 (fun o b => post o = inl b) (firstn m outs) bs /\
         Forall (fun y => exists r, fin s y r) (firstn m hs) /\
         xcode s x (join_all_acc post (skipn m hs) (rev bs) K'))
      \/
      (List.length hs = plen kids /\ exists n0, posts post outs = inr n0 /\ xcode s x (Panic n0)) ).

  (* [TInv Sc p nm w x s base D]: thread x, named nm, began to run [compile p] when it had made
     [base] events and the extended world was w on Sc (a set of names that contains the scope of
     (nm, p) and that no thread outside x's subtree touches); s is a state this can have led to, and D
     lists the threads spawned below x since then.  The definition follows the REFERENCE run of p
     from w: every expectation is computed from w, none from s.
     [KInv ps w s hDs]: the children ps of a block that began in world w; the first |hDs| of them
     have been spawned (child thread, its descendants), the others have not and their scopes are
     untouched. *)
  Fixpoint TInv (Sc : option string -> Prop) (p : prog) (nm : option string) (w : xworld)
           (x : nat) (s : state) (base : nat) (D : list nat) {struct p} : Prop :=
    (Leaf Sc x s (compile p) w base /\ D = []) \/
    match p with
    | PRet _ | PPanic _ => False
    | PVis e k =>
        nth_error (xevs s x) base = Some e /\
        let a := xans nm e (w nm) in
        let w' := xupd w nm (snd a) in
        match fst a with
        | Some v => TInv Sc (k v) nm w' x s (S base) D
        | None => Leaf Sc x s (Panic P_USER) w' (S base) /\ D = []
        end
    | PBlock B post kids K =>
        let outs := fst (refs kids w) in
        let wn := snd (refs kids w) in
        (* inside the block *)
        (exists hDs, D = flat hDs /\ KInv kids w s hDs /\
           InBlock post kids (fun bs => compile (K bs)) Sc w x s base (map fst hDs))
        \/ (* past the block: every child and descendant is finished, as the log says *)
        (exists bs Dold DK, D = Dold ++ DK /\ posts post outs = inl bs /\
           (forall y, In y Dold -> finrec s y (rlogs kids w)) /\
           TInv Sc (K bs) nm wn x s base DK)
    end
  with KInv (ps : progs) (w : xworld) (s : state) (hDs : list (nat * list nat)) {struct ps} : Prop :=
    match ps with
    | PNil => hDs = []
    | PCons a q r =>
        let w' := snd (fst (ref (Some a) q w)) in
        match hDs with
        | [] => (forall n, inscope (Some a) q n -> xw s n = w n) /\ KInv r w' s []
        | hd :: rest =>
            isthr s (fst hd) (Some a) /\
            TInv (inscope (Some a) q) q (Some a) w (fst hd) s 0 (snd hd) /\
            KInv r w' s rest
        end
    end.

  Lemma TInv_leaf Sc p nm w x s base :
    Leaf Sc x s (compile p) w base -> TInv Sc p nm w x s base [].
  Proof. intros H. destruct p; left; auto. Qed.

  Lemma TInv_inside Sc B (post : option val -> B + N) kids K nm w x s base hDs :
    KInv kids w s hDs -> InBlock post kids (fun bs => compile (K bs)) Sc w x s base (map fst hDs) ->
    TInv Sc (PBlock B post kids K) nm w x s base (flat hDs).
  Proof. intros Hk HB. right. left. exists hDs. auto. Qed.

  Lemma TInv_past Sc B (post : option val -> B + N) kids K nm w x s base bs Dold DK :
    posts post (fst (refs kids w)) = inl bs -> (forall y, In y Dold -> finrec s y (rlogs kids w)) ->
    TInv Sc (K bs) nm (snd (refs kids w)) x s base DK ->
    TInv Sc (PBlock B post kids K) nm w x s base (Dold ++ DK).
  Proof. intros Hps Hold HK. right. right. exists bs, Dold, DK. auto. Qed.

  Lemma flat_cons hd rest : flat (hd :: rest) = fst hd :: snd hd ++ flat rest.
  Proof. reflexivity. Qed.

  Lemma flat_app a b : flat (a ++ b) = flat a ++ flat b.
  Proof. unfold flat. now rewrite map_app, concat_app. Qed.

  Lemma TInv_names_mut :
    (forall p Sc nm w x s base D, TInv Sc p nm w x s base D ->
       forall y m, In y D -> isthr s y m -> In m (rnames nm p w)) /\
    (forall ps w s hDs, KInv ps w s hDs ->
       forall y m, In y (flat hDs) -> isthr s y m -> In m (knames ps w)).
  Proof.
    apply prog_progs_ind.
    - intros v Sc nm w x s base D [[_ ->]|[]] y m [].
    - intros n Sc nm w x s base D [[_ ->]|[]] y m [].
    - intros e k IH Sc nm w x s base D [[_ ->]|H] y m Hy Hm; [destruct Hy|].
      cbn in H. destruct H as [_ H]. unfold rnames. cbn.
      destruct (fst (answer h nm e (fst (w nm)))) as [v|].
      + eapply IH; eauto.
      + destruct H as [_ ->]. destruct Hy.
    - intros B post kids IHk K IH Sc nm w x s base D [[_ ->]|H] y m Hy Hm; [destruct Hy|].
      rewrite rnames_block. cbn in H. apply in_or_app.
      destruct H as [(hDs & -> & Hk & _)|(bs & Dold & DK & -> & Hps & Hold & HK)].
      + left. eapply IHk; eauto.
      + rewrite Hps. apply in_app_iff in Hy. destruct Hy as [Hy|Hy]; [left|right; eapply IH; eauto].
        destruct (Hold y Hy) as (th & r & Hth & _ & Hin). destruct Hm as (th' & Hth' & <-).
        rewrite Hth in Hth'. injection Hth' as <-. apply in_map_iff. eexists; split; [|exact Hin]. reflexivity.
    - intros w s hDs H y m Hy. cbn in H. subst hDs. destruct Hy.
    - intros a q IHq r IHr w s hDs H y m Hy Hm. rewrite knames_cons. cbn in H.
      destruct hDs as [|hd rest]; [destruct Hy|]. destruct H as (Hhd & Hq & Hr).
      rewrite flat_cons in Hy. destruct Hy as [<-|Hy]; [left; eapply isthr_inj; eauto|right].
      apply in_or_app. apply in_app_iff in Hy. destruct Hy as [Hy|Hy]; [left; eapply IHq|right; eapply IHr]; eauto.
  Qed.

  Definition TInv_names := proj1 TInv_names_mut.
  Definition KInv_names := proj2 TInv_names_mut.

  Lemma TInv_member_uses p Sc nm w x s base D y m :
    TInv Sc p nm w x s base D -> In y D -> isthr s y m -> uses p m.
  Proof. intros H Hy Hm. eapply rnames_uses, TInv_names; eauto. Qed.

  Lemma fin_xcode s x r d : fin s x r -> xcode s x d -> outcome d = Some r.
  Proof. intros (th & H1 & H2) (th' & H3 & H4). congruence. Qed.

  Lemma finrec_fin s y log : finrec s y log -> exists r, fin s y r.
  Proof. intros (th & r & Hth & Ho & _). exists r, th. auto. Qed.

  Lemma skipn_len {A} (l : list A) n : List.length l = n -> skipn n l = [].
  Proof. intros <-. apply skipn_all. Qed.

  Lemma spawn_all_unfinished nt todo acc k : outcome (spawn_all_acc (nt :: todo) acc k) = None.
  Proof. reflexivity. Qed.

  Lemma join_all_unfinished {B} (post : option val -> B + N) hj todo acc K :
    outcome (join_all_acc post (hj :: todo) acc K) = None.
  Proof. reflexivity. Qed.

  Lemma cnts_pskip_cons j kids a q r :
    pskip j kids = PCons a q r -> cnts (pskip j kids) = (a, compile q) :: cnts r.
  Proof. intros ->. reflexivity. Qed.

  Lemma InBlock_fin {B} (post : option val -> B + N) kids K' (Sc : option string -> Prop) w x s base hs r :
    InBlock post kids K' Sc w x s base hs -> fin s x r ->
    List.length hs = plen kids /\ r = None /\ exists n0, posts post (fst (refs kids w)) = inr n0.
  Proof.
    intros (_ & _ & Hph) Hf.
    destruct Hph as [[(a & q & r' & Hsk) Hc]|[(_ & m & bs & Hm & _ & _ & Hc)|(Hlen & n0 & Hps & Hc)]];
      pose proof (fin_xcode _ _ _ _ Hf Hc) as E.
    - rewrite (cnts_pskip_cons _ _ _ _ _ Hsk) in E. discriminate.
    - destruct (nth_error hs m) as [a|] eqn:En; [|apply nth_error_None in En; lia].
      rewrite (skipn_nth _ _ _ En) in E. discriminate.
    - injection E as <-. eauto.
  Qed.

  Lemma TInv_fin p : forall Sc nm w x s base D r,
    wf nm p -> TInv Sc p nm w x s base D -> fin s x r ->
    r = fst (fst (ref nm p w)) /\ skipn base (xevs s x) = snd (ref nm p w).
  Proof.
    induction p as [v|n|e k IH|B post kids K IH]; intros Sc nm w x s base D r Hwf H Hfin.
    - destruct H as [[(Hc & Hl & _) _]|[]]. pose proof (fin_xcode _ _ _ _ Hfin Hc) as E. cbn in E.
      injection E as <-. cbn. split; [reflexivity|now apply skipn_len].
    - destruct H as [[(Hc & Hl & _) _]|[]]. pose proof (fin_xcode _ _ _ _ Hfin Hc) as E. cbn in E.
      injection E as <-. cbn. split; [reflexivity|now apply skipn_len].
    - destruct H as [[(Hc & _) _]|H].
      { pose proof (fin_xcode _ _ _ _ Hfin Hc) as E. discriminate. }
      cbn in H. destruct H as [Hn H]. cbn. cbn in Hwf.
      rewrite (skipn_nth _ _ _ Hn).
      destruct (fst (answer h nm e (fst (w nm)))) as [v|].
      + destruct (IH v _ _ _ _ _ _ _ _ (Hwf v) H Hfin) as [-> E]. cbn [fst snd]. split; [reflexivity|]. now rewrite E.
      + destruct H as [(Hc & Hl & _) _]. pose proof (fin_xcode _ _ _ _ Hfin Hc) as E. cbn in E.
        injection E as <-. cbn [fst snd]. split; [reflexivity|]. f_equal. now apply skipn_len.
    - cbn in Hwf. destruct Hwf as (Hne & Hs & Hnm & Hk & HK).
      destruct H as [[(Hc & _) _]|H].
      { pose proof (fin_xcode _ _ _ _ Hfin Hc) as E. cbn in E. destruct kids; [contradiction|discriminate]. }
      cbn in H. destruct H as [(hDs & _ & _ & HB)|(bs & Dold & DK & _ & Hps & _ & HKb)].
      + destruct (InBlock_fin _ _ _ _ _ _ _ _ _ _ HB Hfin) as (_ & -> & n0 & Hps). destruct HB as (_ & Hl & _).
        cbn. rewrite Hps. cbn. split; [reflexivity|now apply skipn_len].
      + cbn. rewrite Hps. eapply IH; eauto.
  Qed.

  Lemma TInv_returned p : forall Sc nm w x s base D v,
    TInv Sc p nm w x s base D -> fin s x (Some v) -> forall y, In y D -> exists r, fin s y r.
  Proof.
    induction p as [v0|n0|e k IH|B post kids K IH]; intros Sc nm w x s base D v H Hfin.
    - destruct H as [[_ ->]|[]]. intros y [].
    - destruct H as [[_ ->]|[]]. intros y [].
    - destruct H as [[_ ->]|H]; [intros y []|]. cbn in H. destruct H as [_ H].
      destruct (fst (answer h nm e (fst (w nm)))) as [v'|].
      + eapply IH; eauto.
      + destruct H as [_ ->]. intros y [].
    - destruct H as [[_ ->]|H]; [intros y []|]. cbn in H.
      destruct H as [(hDs & _ & _ & HB)|(bs & Dold & DK & -> & _ & Hold & HKb)].
      + destruct (InBlock_fin _ _ _ _ _ _ _ _ _ _ HB Hfin) as (_ & E & _). discriminate.
      + intros y Hy. apply in_app_iff in Hy. destruct Hy as [Hy|Hy]; [eapply finrec_fin; eauto|eapply IH; eauto].
  Qed.

  Lemma TInv_log_mut :
    (forall p (Sc : option string -> Prop) nm w x s base D,
       wf nm p -> TInv Sc p nm w x s base D ->
       forall y r, In y D -> fin s y r -> finrec s y (rlog nm p w)) /\
    (forall ps w s hDs,
       kwf ps -> KInv ps w s hDs ->
       forall y r, In y (flat hDs) -> fin s y r -> finrec s y (rlogs ps w)).
  Proof.
    assert (Hmono : forall s y (l1 l2 : list trec), (forall x, In x l1 -> In x l2) -> finrec s y l1 -> finrec s y l2).
    { intros s y l1 l2 Hl (th & r & H1 & H2 & H3). exists th, r. auto. }
    apply prog_progs_ind.
    - intros v Sc nm w x s base D _ [[_ ->]|[]] y r [].
    - intros n Sc nm w x s base D _ [[_ ->]|[]] y r [].
    - intros e k IH Sc nm w x s base D Hwf [[_ ->]|H] y r Hy Hf; [destruct Hy|].
      cbn in H, Hwf |- *. destruct H as [_ H].
      destruct (fst (answer h nm e (fst (w nm)))) as [v|].
      + eapply IH; eauto.
      + destruct H as [_ ->]. destruct Hy.
    - intros B post kids IHk K IH Sc nm w x s base D Hwf [[_ ->]|H] y r Hy Hf; [destruct Hy|].
      cbn in Hwf. destruct Hwf as (Hne & Hstrict & Hnm & Hkwf & HK). cbn in H |- *.
      destruct H as [(hDs & -> & Hk & _)|(bs & Dold & DK & -> & Hps & Hold & HKb)].
      + eapply Hmono; [|eapply IHk; eauto]. intros z Hz. apply in_or_app. now left.
      + rewrite Hps. apply in_app_iff in Hy. destruct Hy as [Hy|Hy].
        * eapply Hmono; [|apply Hold; exact Hy]. intros z Hz. apply in_or_app. now left.
        * eapply Hmono; [|eapply IH; eauto]. intros z Hz. apply in_or_app. now right.
    - intros w s hDs _ H y r Hy. cbn in H. subst hDs. destruct Hy.
    - intros a q IHq r' IHr w s hDs Hwf H y r Hy Hf.
      cbn in Hwf. destruct Hwf as (Hq & Hdis & Hr). cbn in H |- *.
      destruct hDs as [|hd rest]; [destruct Hy|]. destruct H as (Hhd & HT & Hrest).
      rewrite flat_cons in Hy. destruct Hy as [<-|Hy].
      + destruct (TInv_fin _ _ _ _ _ _ _ _ _ Hq HT Hf) as [Er Eev]. cbn in Eev.
        destruct Hhd as (th & Hth & Hn). destruct Hf as (th' & Hth' & Ho). rewrite Hth in Hth'; injection Hth' as <-.
        exists th, r. split; [exact Hth|]. split; [exact Ho|]. left. now rewrite Hn, Er, Eev.
      + apply in_app_iff in Hy. destruct Hy as [Hy|Hy].
        * eapply Hmono; [|eapply IHq; eauto]. intros z Hz. right. apply in_or_app. now left.
        * eapply Hmono; [|eapply IHr; eauto]. intros z Hz. right. apply in_or_app. now right.
  Qed.

  Definition TInv_log := proj1 TInv_log_mut.

  Lemma world_after_kids kids w (Sc : option string -> Prop) s :
    (forall n, Sc n -> ~ In n (knames kids w) -> xw s n = w n) ->
    (forall n, In n (knames kids w) -> xw s n = snd (refs kids w) n) ->
    forall n, Sc n -> xw s n = snd (refs kids w) n.
  Proof.
    intros HU Hk n Hs. destruct (in_dec oname_dec n (knames kids w)) as [Hin|Hnin]; [now apply Hk|].
    rewrite refs_frame by exact Hnin. now apply HU.
  Qed.

  Lemma TInv_allfin_mut :
    (forall p (Sc : option string -> Prop) nm w x s base D,
       wf nm p -> TInv Sc p nm w x s base D ->
       (exists r, fin s x r) -> (forall y, In y D -> exists r, fin s y r) ->
       forall n, Sc n -> xw s n = snd (fst (ref nm p w)) n) /\
    (forall ps w s hDs,
       kwf ps -> KInv ps w s hDs -> List.length hDs = plen ps ->
       (forall y, In y (flat hDs) -> exists r, fin s y r) ->
       forall n, In n (knames ps w) -> xw s n = snd (refs ps w) n).
  Proof.
    apply prog_progs_ind.
    - intros v Sc nm w x s base D _ [[(_ & _ & Hw) _]|[]] _ _ n Hs. now apply Hw.
    - intros n0 Sc nm w x s base D _ [[(_ & _ & Hw) _]|[]] _ _ n Hs. now apply Hw.
    - intros e k IH Sc nm w x s base D Hwf [[(Hc & _) _]|H] [r Hf] HD n Hs.
      { pose proof (fin_xcode _ _ _ _ Hf Hc) as E. discriminate. }
      cbn in H, Hwf |- *. destruct H as [_ H].
      destruct (fst (answer h nm e (fst (w nm)))) as [v|].
      + cbn [fst snd]. eapply IH; eauto.
      + destruct H as [(_ & _ & Hw) _]. cbn [fst snd]. now apply Hw.
    - intros B post kids IHk K IH Sc nm w x s base D Hwf H [r Hf] HD n Hs.
      cbn in Hwf. destruct Hwf as (Hne & Hstrict & Hnm & Hkwf & HK).
      destruct H as [[(Hc & _) _]|H].
      { pose proof (fin_xcode _ _ _ _ Hf Hc) as E. cbn in E. destruct kids; [contradiction|discriminate]. }
      cbn in H |- *. destruct H as [(hDs & -> & Hk & HB)|(bs & Dold & DK & -> & Hps & Hold & HKb)].
      + destruct (InBlock_fin _ _ _ _ _ _ _ _ _ _ HB Hf) as (Hlen & _ & n1 & Hps). rewrite map_length in Hlen.
        destruct HB as (HU & _). rewrite Hps. cbn [fst snd].
        apply (world_after_kids kids w Sc s HU); [|exact Hs]. intros m Hm. eapply IHk; eauto.
      + rewrite Hps. eapply IH; eauto. intros y Hy. apply HD. apply in_or_app. now right.
    - intros w s hDs _ _ _ _ n [].
    - intros a q IHq r IHr w s hDs Hwf H Hlen HD n Hn.
      cbn in Hwf. destruct Hwf as (Hq & Hdis & Hr). cbn in H.
      destruct hDs as [|hd rest]; [discriminate|]. destruct H as (Hhd & HT & Hrest).
      cbn in Hlen. rewrite knames_cons in Hn. cbn [refs snd].
      assert (Hhead : inscope (Some a) q n -> xw s n = snd (refs r (snd (fst (ref (Some a) q w)))) n).
      { intros Hs. rewrite refs_frame.
        - eapply IHq; eauto.
          + apply HD. rewrite flat_cons. now left.
          + intros y Hy. apply HD. rewrite flat_cons. right. apply in_or_app. now left.
        - intros Hin. apply (Hdis n Hs). eapply knames_kuses; eauto. }
      destruct Hn as [<-|Hn]; [apply Hhead; now left|].
      apply in_app_iff in Hn. destruct Hn as [Hn|Hn]; [apply Hhead; right; eapply rnames_uses; eauto|].
      eapply IHr; eauto. intros y Hy. apply HD. rewrite flat_cons. right. apply in_or_app. now right.
  Qed.

  Definition TInv_allfin := proj1 TInv_allfin_mut.

  Lemma isthr_neq s x i nm nmi : isthr s x nm -> isthr s i nmi -> nm <> nmi -> x <> i.
  Proof. intros Hx Hi Hn ->. apply Hn. eapply isthr_inj; eauto. Qed.

  Lemma Leaf_frame Sc x s s' i nmi code w base :
    step_rel i s s' -> tvalid s -> isthr s i nmi -> ~ Sc nmi -> x <> i ->
    Leaf Sc x s code w base -> Leaf Sc x s' code w base.
  Proof.
    intros Hst Hv Hi Hn Hne (Hc & Hl & Hw). split; [|split].
    - eapply xcode_other; eauto.
    - now rewrite (xevs_other _ _ _ _ Hst Hne).
    - intros n Hs. rewrite (xw_other _ _ _ _ n Hst Hv Hi); auto. intros ->. contradiction.
  Qed.

  Lemma allfin_step i s s' l :
    step_rel i s s' -> Forall (fun y => exists r, fin s y r) l -> Forall (fun y => exists r, fin s' y r) l.
  Proof. intros Hst. apply Forall_impl. intros y [r Hr]. exists r. eapply step_fin_stable; eauto. Qed.

  Lemma InBlock_frame {B} (post : option val -> B + N) kids K' (Sc : option string -> Prop) w x s s' base hs i nmi :
    step_rel i s s' -> tvalid s -> isthr s i nmi -> (Sc nmi -> In nmi (knames kids w)) -> x <> i ->
    InBlock post kids K' Sc w x s base hs -> InBlock post kids K' Sc w x s' base hs.
  Proof.
    intros Hst Hv Hi Hin Hne (HU & Hl & Hph). split; [|split].
    - intros n Hs Hnin. rewrite (xw_other _ _ _ _ n Hst Hv Hi); auto. intros ->. auto.
    - now rewrite (xevs_other _ _ _ _ Hst Hne).
    - destruct Hph as [[Hsk Hc]|[(Hlen & m & bs & Hm & HF & Hfin & Hc)|(Hlen & n0 & Hps & Hc)]];
        apply (xcode_other _ _ _ _ _ Hst Hne) in Hc.
      + left. auto.
      + right; left. split; [exact Hlen|]. exists m, bs. apply (allfin_step _ _ _ _ Hst) in Hfin. auto.
      + right; right. eauto.
  Qed.

  Lemma fin_thr_step i s s' y r : step_rel i s s' -> fin s y r -> y <> i /\ thr s' y = thr s y.
  Proof.
    intros Hst Hf. assert (Hne : y <> i) by (intros ->; eapply step_not_fin; eauto).
    split; [exact Hne|]. destruct Hf as (th & Hth & _).
    eapply step_other; eauto. eapply nth_error_Some_lt; eauto.
  Qed.

  Lemma finrec_step i s s' y log : step_rel i s s' -> finrec s y log -> finrec s' y log.
  Proof.
    intros Hst (th & r & Hth & Ho & Hin).
    destruct (fin_thr_step i s s' y r Hst) as [Hne Hsame]; [exists th; auto|].
    exists th, r. rewrite Hsame, (xevs_other _ _ _ _ Hst Hne). auto.
  Qed.

  Lemma inscope_vis nm e k v n : inscope nm (k v) n -> inscope nm (PVis e k) n.
  Proof. intros [->|Hu]; [now left|right; cbn; eauto]. Qed.

  Lemma inscope_kids nm B (post : option val -> B + N) kids K n :
    kuses kids n -> inscope nm (PBlock B post kids K) n.
  Proof. intros Hu. right. cbn. now left. Qed.

  Lemma inscope_cont nm B (post : option val -> B + N) kids K bs n :
    inscope nm (K bs) n -> inscope nm (PBlock B post kids K) n.
  Proof. intros [->|Hu]; [now left|right; cbn; eauto]. Qed.

  (* FRAME: a step of a thread whose name is outside Sc, where Sc contains the scope of (nm, p),
     leaves the invariant of (nm, p) as it is - the step touches a component that neither x nor
     anything below x reads, and adds no entry under one of their names.  By mutual induction on
     the code and the list of children. *)
  Lemma TInv_frame_mut :
    (forall p Sc nm w x s base D i s' nmi,
       step_rel i s s' -> tvalid s -> isthr s i nmi -> ~ Sc nmi ->
       isthr s x nm -> (forall n, inscope nm p n -> Sc n) ->
       TInv Sc p nm w x s base D -> TInv Sc p nm w x s' base D) /\
    (forall ps w s hDs i s' nmi,
       step_rel i s s' -> tvalid s -> isthr s i nmi -> ~ kuses ps nmi ->
       KInv ps w s hDs -> KInv ps w s' hDs).
  Proof.
    assert (Hother : forall (Sc : option string -> Prop) p nm s x i nmi,
              isthr s i nmi -> ~ Sc nmi -> isthr s x nm -> (forall n, inscope nm p n -> Sc n) -> x <> i).
    { intros Sc p nm s x i nmi Hi Hn Hx Hsub. apply (isthr_neq _ _ _ _ _ Hx Hi).
      intros <-. apply Hn, Hsub. now left. }
    apply prog_progs_ind.
    - intros v Sc nm w x s base D i s' nmi Hst Hv Hi Hn Hx Hsub [[H ->]|[]].
      pose proof (Hother _ _ _ _ _ _ _ Hi Hn Hx Hsub) as Hne. left. split; [|reflexivity]. eapply Leaf_frame; eauto.
    - intros n Sc nm w x s base D i s' nmi Hst Hv Hi Hn Hx Hsub [[H ->]|[]].
      pose proof (Hother _ _ _ _ _ _ _ Hi Hn Hx Hsub) as Hne. left. split; [|reflexivity]. eapply Leaf_frame; eauto.
    - intros e k IH Sc nm w x s base D i s' nmi Hst Hv Hi Hn Hx Hsub H.
      pose proof (Hother _ _ _ _ _ _ _ Hi Hn Hx Hsub) as Hne. destruct H as [[H ->]|H].
      { left. split; [|reflexivity]. eapply Leaf_frame; eauto. }
      right. cbn in H |- *. destruct H as [Hnth H].
      rewrite (xevs_other _ _ _ _ Hst Hne). split; [exact Hnth|].
      destruct (fst (answer h nm e (fst (w nm)))) as [v|].
      + eapply IH; eauto. intros n Hs. eapply Hsub, inscope_vis, Hs.
      + destruct H as [H ->]. split; [|reflexivity]. eapply Leaf_frame; eauto.
    - intros B post kids IHk K IH Sc nm w x s base D i s' nmi Hst Hv Hi Hn Hx Hsub H.
      pose proof (Hother _ _ _ _ _ _ _ Hi Hn Hx Hsub) as Hne. destruct H as [[H ->]|H].
      { left. split; [|reflexivity]. eapply Leaf_frame; eauto. }
      cbn in H. destruct H as [(hDs & HD & Hk & HB)|(bs & Dold & DK & HD & Hps & Hold & HK)].
      + subst D. apply TInv_inside.
        * eapply IHk; eauto. intros Hu. eapply Hn, Hsub, inscope_kids, Hu.
        * eapply InBlock_frame; eauto. intros Hs. contradiction.
      + subst D. eapply TInv_past; [exact Hps| |].
        * intros y Hy. eapply finrec_step; eauto.
        * eapply IH; eauto. intros n Hs. eapply Hsub, inscope_cont, Hs.
    - intros w s hDs i s' nmi Hst Hv Hi Hn H. exact H.
    - intros a q IHq r IHr w s hDs i s' nmi Hst Hv Hi Hn H. cbn in H |- *. cbn in Hn.
      destruct hDs as [|hd rest].
      + destruct H as [Hw Hr]. split.
        * intros n Hs. rewrite (xw_other _ _ _ _ n Hst Hv Hi); auto. intros ->. apply Hn. left. exact Hs.
        * eapply IHr; eauto.
      + destruct H as (Hhd & Hq & Hr). split; [eapply isthr_step; eauto|]. split.
        * apply (IHq _ _ _ _ _ _ _ i s' nmi Hst Hv Hi (fun Hs => Hn (or_introl Hs)) Hhd (fun _ Hs => Hs) Hq).
        * eapply IHr; eauto.
  Qed.

  Definition TInv_frame := proj1 TInv_frame_mut.
  Definition KInv_frame := proj2 TInv_frame_mut.

  Lemma KInv_init ps : forall w s,
    kwf ps -> (forall n, kuses ps n -> xw s n = w n) -> KInv ps w s [].
  Proof.
    induction ps as [|a q r IH]; intros w s Hwf Hw; cbn; [reflexivity|].
    cbn in Hwf. destruct Hwf as (Hq & Hdis & Hr). split.
    - intros n Hn. apply Hw. cbn. now left.
    - apply IH; [exact Hr|]. intros n Hn. rewrite ref_frame.
      + apply Hw. cbn. now right.
      + intros ->. apply (Hdis (Some a)); [now left|exact Hn].
      + intros Hin. apply (Hdis n); [right; eapply rnames_uses; eauto|exact Hn].
  Qed.

  Lemma KInv_next ps : forall w s hDs y a q r,
    KInv ps w s hDs -> pskip (List.length hDs) ps = PCons a q r ->
    isthr s y (Some a) -> xcode s y (compile q) -> xevs s y = [] ->
    KInv ps w s (hDs ++ [(y, [])]).
  Proof.
    induction ps as [|b p r' IH]; intros w s hDs y a q r H Hsk Hy Hc He.
    - destruct hDs; discriminate.
    - cbn in H. destruct hDs as [|hd rest]; cbn in Hsk.
      + injection Hsk as <- <- <-. destruct H as [Hsc Hr]. cbn. split; [exact Hy|]. split; [|exact Hr].
        apply TInv_leaf. split; [exact Hc|]. split; [now rewrite He|exact Hsc].
      + destruct H as (Hhd & Hp & Hr). cbn. split; [exact Hhd|]. split; [exact Hp|]. eapply IH; eauto.
  Qed.

  Lemma KInv_outcome ps : forall w s hDs m hd r,
    kwf ps -> KInv ps w s hDs -> nth_error hDs m = Some hd -> fin s (fst hd) r ->
    nth_error (fst (refs ps w)) m = Some r.
  Proof.
    induction ps as [|a q ps IH]; intros w s hDs m hd r Hwf H Hn Hf; cbn in H.
    - subst hDs. destruct m; discriminate.
    - destruct Hwf as (Hq & _ & Hr). destruct hDs as [|hd0 rest]; [destruct m; discriminate|].
      destruct H as (_ & HT & Hrest). destruct m as [|m]; cbn in Hn |- *.
      + injection Hn as <-. now destruct (TInv_fin _ _ _ _ _ _ _ _ _ Hq HT Hf) as [-> _].
      + eapply IH; eauto.
  Qed.

  Lemma pskip_last j : forall ps a q, pskip j ps = PCons a q PNil -> plen ps = S j.
  Proof.
    induction j as [|j IH]; intros [|b p r] a q H; cbn in *; try discriminate.
    - injection H as _ _ ->. reflexivity.
    - f_equal. eapply IH; eauto.
  Qed.

  Lemma KInv_length ps : forall w s hDs, KInv ps w s hDs -> List.length hDs <= plen ps.
  Proof.
    induction ps as [|a q r IH]; intros w s hDs H; cbn in H.
    - subst. cbn. lia.
    - destruct hDs as [|hd rest]; cbn; [lia|]. destruct H as (_ & _ & H). apply IH in H. lia.
  Qed.

  (* when all children are finished and the reference says they returned values, every descendant is
     finished as well *)
  Lemma KInv_returned ps : forall w s hDs,
    kwf ps -> KInv ps w s hDs ->
    Forall (fun y => exists r, fin s y r) (map fst hDs) ->
    (forall o, In o (fst (refs ps w)) -> exists v, o = Some v) ->
    forall y, In y (flat hDs) -> exists r, fin s y r.
  Proof.
    induction ps as [|a q r IH]; intros w s hDs Hwf H Hfin Hsome y Hy; cbn in H.
    - subst hDs. destruct Hy.
    - destruct hDs as [|hd rest]; [destruct Hy|]. cbn in Hwf. destruct Hwf as (Hq & _ & Hr).
      destruct H as (_ & Hq' & Hr'). cbn [map] in Hfin. inversion Hfin as [|? ? [r0 Hr0] Hfin']; subst.
      rewrite flat_cons in Hy. destruct Hy as [<-|Hy]; [eauto|]. apply in_app_iff in Hy. destruct Hy as [Hy|Hy].
      + destruct (TInv_fin _ _ _ _ _ _ _ _ _ Hq Hq' Hr0) as [Er _].
        destruct (Hsome (fst (fst (ref (Some a) q w)))) as [v Hv]; [cbn; now left|].
        rewrite Hv in Er. subst r0. eapply TInv_returned; eauto.
      + eapply IH; eauto. intros o Ho. apply Hsome. cbn. now right.
  Qed.

  Lemma KInv_all_returned ps w s hDs :
    kwf ps -> KInv ps w s hDs -> List.length hDs = plen ps ->
    Forall (fun y => exists r, fin s y r) (map fst hDs) ->
    (forall o, In o (fst (refs ps w)) -> exists v, o = Some v) ->
    (forall y, In y (flat hDs) -> finrec s y (rlogs ps w)) /\
    (forall n, In n (knames ps w) -> xw s n = snd (refs ps w) n).
  Proof.
    intros Hwf H Hlen Hfin Hsome. pose proof (KInv_returned ps w s hDs Hwf H Hfin Hsome) as Hall. split.
    - intros y Hy. destruct (Hall y Hy) as [r Hr]. eapply (proj2 TInv_log_mut); eauto.
    - eapply (proj2 TInv_allfin_mut); eauto.
  Qed.

  Definition newthr (s s' : state) (z : nat) : Prop :=
    List.length (pool s) <= z < List.length (pool s').

  Lemma iff_nonew s s' D :
    List.length (pool s') = List.length (pool s) -> forall z, In z D <-> In z D \/ newthr s s' z.
  Proof. unfold newthr. intros Hl z. split; [now left|intros [H|H]; [exact H|lia]]. Qed.

  Lemma finished_no_step i s s' d r : step_rel i s s' -> xcode s i d -> outcome d = Some r -> False.
  Proof.
    intros Hst (th & Hth & Hc) Ho. apply (step_not_fin _ _ _ _ _ r Hst). exists th. now rewrite Hc.
  Qed.

  Lemma step_isthr i s s' : step_rel i s s' -> exists nmi, isthr s i nmi.
  Proof. intros Hst. destruct (step_unfinished _ _ _ _ _ Hst) as (th & Hth & _). exists (th_name th), th. auto. Qed.

  Lemma xevs_step_app i s s' x : step_rel i s s' -> exists l, xevs s' x = xevs s x ++ l.
  Proof.
    intros Hst. unfold xevs. destruct (step_trace _ _ _ _ _ Hst) as [E|[e E]]; rewrite E.
    - exists []. now rewrite app_nil_r.
    - destruct (Nat.eq_dec i x) as [->|Hne].
      + exists [e]. apply evs_of_cons_same.
      + exists []. rewrite app_nil_r. now apply evs_of_cons_other.
  Qed.

  Lemma nth_error_app_some {A} (l l' : list A) n e : nth_error l n = Some e -> nth_error (l ++ l') n = Some e.
  Proof. intros H. rewrite nth_error_app1; [exact H|]. eapply nth_error_Some_lt; eauto. Qed.

  Lemma nth_error_map_inv {A C} (f : A -> C) l n c :
    nth_error (map f l) n = Some c -> exists a, nth_error l n = Some a /\ f a = c.
  Proof.
    rewrite nth_error_map. destruct (nth_error l n); [intros [= <-]; eauto|discriminate].
  Qed.

  Lemma block_enter {B} (post : option val -> B + N) kids K (Sc : option string -> Prop) w x s base :
    kids <> PNil -> kwf kids -> (forall n, kuses kids n -> Sc n) ->
    Leaf Sc x s (compile (PBlock B post kids K)) w base ->
    KInv kids w s [] /\ InBlock post kids (fun bs => compile (K bs)) Sc w x s base [].
  Proof.
    intros Hne Hwf Hsub (Hc & Hl & Hw). split.
    - apply KInv_init; [exact Hwf|]. intros n Hn. apply Hw, Hsub, Hn.
    - split; [|split; [exact Hl|]].
      + intros n Hs _. now apply Hw.
      + left. cbn. split; [|exact Hc]. destruct kids as [|a q r]; [contradiction|eauto].
  Qed.

  Lemma block_caller_step {B} (post : option val -> B + N) kids (K : list B -> prog)
        (Sc : option string -> Prop) nm w x s s' base hDs :
    strict_post post -> ~ kuses kids nm -> kwf kids ->
    isthr s x nm -> tvalid s -> step_rel x s s' ->
    KInv kids w s hDs ->
    InBlock post kids (fun bs => compile (K bs)) Sc w x s base (map fst hDs) ->
    exists D', TInv Sc (PBlock B post kids K) nm w x s' base D' /\
               forall z, In z D' <-> In z (flat hDs) \/ newthr s s' z.
  Proof.
    intros Hstrict Hnm Hwf Hx Hv Hst Hk (HU & Hl & Hph).
    assert (Hk' : KInv kids w s' hDs) by (eapply KInv_frame; eauto).
    pose proof (map_length fst hDs) as Hlhs.
    destruct Hph as [[(a & q & r & Hsk) Hc]|[(Hlen & m & bs & Hm & HF & Hfin & Hc)|(Hlen & n0 & Hps & Hc)]].
    - (* spawning: the new thread L is the next child *)
      rewrite (cnts_pskip_cons _ _ _ _ _ Hsk) in Hc. rewrite Hlhs in Hsk.
      destruct (xstep _ _ _ _ _ Hst Hv Hc Hx) as (Hx' & HL & HcL & Hlen' & Htr & Hw).
      set (L := List.length (pool s)) in *.
      exists (flat (hDs ++ [(L, [])])). split.
      + apply TInv_inside.
        * apply (KInv_next _ _ _ _ _ _ _ _ Hk' Hsk HL HcL). unfold xevs. rewrite Htr. now apply xevs_new.
        * rewrite map_app. cbn [map fst]. split; [|split].
          -- intros n Hs Hn. rewrite Hw. now apply HU.
          -- unfold xevs. rewrite Htr. exact Hl.
          -- rewrite app_length, map_length. cbn [List.length]. rewrite Nat.add_1_r, (pskip_S _ _ _ _ _ Hsk).
             cbn beta in Hx'. destruct r as [|a1 q1 r1].
             ++ right; left. split; [apply pskip_last in Hsk; lia|]. exists 0, []. split; [lia|].
                split; [constructor|]. split; [constructor|]. cbn in Hx'. rewrite rev_involutive in Hx'. exact Hx'.
             ++ left. split; [eauto|]. rewrite rev_unit. exact Hx'.
      + intros z. rewrite flat_app, in_app_iff. cbn. unfold newthr. fold L. rewrite Hlen'.
        split; [intros [H|[<-|[]]]; [now left|right; lia]|intros [H|H]; [now left|right; left; lia]].
    - (* joining the m-th child *)
      destruct (nth_error (map fst hDs) m) as [hj|] eqn:Hhj; [|apply nth_error_None in Hhj; lia].
      rewrite (skipn_nth _ _ _ Hhj) in Hc.
      destruct (xstep _ _ _ _ _ Hst Hv Hc Hx) as (r0 & Hf0 & Hx' & Hlen' & Htr & Hw). cbn beta in Hx'.
      destruct (nth_error_map_inv _ _ _ _ Hhj) as (hd & Hhd & <-).
      pose proof (KInv_outcome _ _ _ _ _ _ _ Hwf Hk Hhd Hf0) as Ho'.
      assert (Hl' : List.length (xevs s' x) = base) by (unfold xevs; rewrite Htr; exact Hl).
      assert (HU' : forall n, Sc n -> ~ In n (knames kids w) -> xw s' n = w n) by (intros; rewrite Hw; auto).
      assert (Hfin' : Forall (fun y => exists r, fin s' y r) (firstn (S m) (map fst hDs))).
      { apply (allfin_step _ _ _ _ Hst). rewrite (firstn_snoc _ _ _ Hhj). apply Forall_app.
        split; [exact Hfin|]. constructor; [eauto|constructor]. }
      pose proof (iff_nonew s s' (flat hDs) Hlen') as Hiff.
      destruct (post r0) as [b|n1] eqn:Ep.
      + assert (HF' : Forall2 (fun o b => post o = inl b) (firstn (S m) (fst (refs kids w))) (bs ++ [b])).
        { rewrite (firstn_snoc _ _ _ Ho'). apply Forall2_app; [exact HF|]. constructor; [exact Ep|constructor]. }
        destruct (Nat.eq_dec (S m) (List.length (map fst hDs))) as [E|E].
        * (* the last join: past the block *)
          assert (Hps : posts post (fst (refs kids w)) = inl (bs ++ [b])).
          { apply posts_all. rewrite E, Hlen, <- (refs_length kids w), firstn_all in HF'. exact HF'. }
          rewrite E, firstn_all in Hfin'.
          destruct (KInv_all_returned kids w s' hDs Hwf Hk' (eq_trans (eq_sym Hlhs) Hlen) Hfin'
                      (posts_strict_all_some _ _ _ Hstrict Hps)) as [Hrec Hwk].
          exists (flat hDs ++ []). split; [|rewrite app_nil_r; exact Hiff].
          apply (TInv_past _ _ _ _ _ _ _ _ _ _ _ _ _ Hps Hrec), TInv_leaf.
          split; [|split; [exact Hl'|exact (world_after_kids _ _ _ _ HU' Hwk)]].
          rewrite skipn_all2 in Hx' by lia. cbn in Hx'. rewrite rev_involutive in Hx'. exact Hx'.
        * exists (flat hDs). split; [|exact Hiff]. apply (TInv_inside _ _ _ _ _ _ _ _ _ _ _ Hk').
          split; [exact HU'|]. split; [exact Hl'|]. right; left. split; [exact Hlen|].
          exists (S m), (bs ++ [b]). split; [lia|]. split; [exact HF'|]. split; [exact Hfin'|].
          rewrite rev_unit. exact Hx'.
      + exists (flat hDs). split; [|exact Hiff]. apply (TInv_inside _ _ _ _ _ _ _ _ _ _ _ Hk').
        split; [exact HU'|]. split; [exact Hl'|]. right; right. split; [exact Hlen|]. exists n1.
        split; [eapply posts_fail; eauto|exact Hx'].
    - (* failed: the caller is finished *)
      exfalso. eapply finished_no_step; eauto. reflexivity.
  Qed.

  Lemma vis_leaf_step (Sc : option string -> Prop) e k nm w x s s' base :
    Leaf Sc x s (compile (PVis e k)) w base -> Sc nm -> isthr s x nm -> tvalid s -> step_rel x s s' ->
    TInv Sc (PVis e k) nm w x s' base [] /\ List.length (pool s') = List.length (pool s).
  Proof.
    intros (Hc & Hl & Hw) Hnm Hx Hv Hst.
    destruct (xstep _ _ _ _ _ Hst Hv Hc Hx) as (Hx' & Hlen' & Htr & Hw'). rewrite (Hw nm Hnm) in Hx', Hw'.
    assert (He : xevs s' x = xevs s x ++ [e]) by (unfold xevs; rewrite Htr; apply evs_of_cons_same).
    assert (Hleaf : forall d, xcode s' x d -> Leaf Sc x s' d (xupd w nm (snd (xans nm e (w nm)))) (S base)).
    { intros d Hd. split; [exact Hd|]. split; [rewrite He, app_length; cbn; lia|].
      intros n Hs. rewrite Hw'. unfold xupd. destruct (name_eqb n nm); [reflexivity|now apply Hw]. }
    split; [|exact Hlen']. right. split; [rewrite He, <- Hl; apply nth_error_app_new|].
    cbn zeta. revert Hx'. destruct (fst (xans nm e (w nm))) as [v|]; intros Hx'.
    - now apply TInv_leaf, Hleaf.
    - split; [now apply Hleaf|reflexivity].
  Qed.

  (* STEP of x itself or of a member of D (the threads below x), by mutual induction on the code:
     at a leaf x makes its event; after an event or past a block the continuation moves by
     induction; in a block the stepping thread is x (a spawn or a join moves
     [InBlock] on) or lies below exactly one child, whose invariant moves by induction while the
     siblings' are kept by the frame lemma - [wf] puts the stepping thread's name outside their
     scopes.  D grows by the thread the step creates, if any. *)
  Lemma TInv_step_mut :
    (forall p (Sc : option string -> Prop) nm w x s base D i s',
       wf nm p -> (forall n, inscope nm p n -> Sc n) -> isthr s x nm -> tvalid s ->
       step_rel i s s' -> (i = x \/ In i D) ->
       TInv Sc p nm w x s base D ->
       exists D', TInv Sc p nm w x s' base D' /\ forall z, In z D' <-> In z D \/ newthr s s' z) /\
    (forall ps w s hDs i s',
       kwf ps -> tvalid s -> step_rel i s s' -> In i (flat hDs) ->
       KInv ps w s hDs ->
       exists hDs', KInv ps w s' hDs' /\ map fst hDs' = map fst hDs /\
                    forall z, In z (flat hDs') <-> In z (flat hDs) \/ newthr s s' z).
  Proof.
    apply prog_progs_ind.
    - intros v Sc nm w x s base D i s' Hwf Hsub Hx Hv Hst Hi [[(Hc & _) ->]|[]].
      destruct Hi as [->|[]]. exfalso. eapply finished_no_step; eauto. reflexivity.
    - intros n Sc nm w x s base D i s' Hwf Hsub Hx Hv Hst Hi [[(Hc & _) ->]|[]].
      destruct Hi as [->|[]]. exfalso. eapply finished_no_step; eauto. reflexivity.
    - intros e k IH Sc nm w x s base D i s' Hwf Hsub Hx Hv Hst Hi [[HL ->]|H].
      + (* not begun: x makes the event *)
        destruct Hi as [->|[]].
        destruct (vis_leaf_step _ _ _ _ _ _ _ _ _ HL (Hsub nm (or_introl eq_refl)) Hx Hv Hst) as (HT & Hlen).
        exists []. split; [exact HT|now apply iff_nonew].
      + cbn in H. destruct H as [Hn H].
        assert (Hn' : nth_error (xevs s' x) base = Some e).
        { destruct (xevs_step_app _ _ _ x Hst) as [l ->]. now apply nth_error_app_some. }
        cbn in Hwf.
        destruct (fst (answer h nm e (fst (w nm)))) as [v|] eqn:Ea.
        * destruct (IH v Sc nm _ x s (S base) D i s' (Hwf v) (fun n Hs => Hsub n (inscope_vis _ _ _ _ _ Hs))
                      Hx Hv Hst Hi H) as (D' & HT & HD).
          exists D'. split; [|exact HD]. right. cbn. rewrite Ea. auto.
        * destruct H as [(Hc & _) ->]. destruct Hi as [->|[]].
          exfalso. eapply finished_no_step; eauto. reflexivity.
    - intros B post kids IHk K IH Sc nm w x s base D i s' Hwf Hsub Hx Hv Hst Hi H.
      cbn in Hwf. destruct Hwf as (Hne & Hstrict & Hnm & Hkwf & HK).
      assert (Hksub : forall n, kuses kids n -> Sc n) by (intros n Hn; apply Hsub; now apply inscope_kids).
      destruct H as [[HL ->]|[(hDs & -> & Hk & HB)|(bs & Dold & DK & -> & Hps & Hold & HKb)]].
      + (* not begun: the caller enters the block, with no child yet, and spawns the first *)
        destruct Hi as [->|[]]. destruct (block_enter post kids K Sc w x s base Hne Hkwf Hksub HL) as [Hk HB].
        exact (block_caller_step _ _ _ _ _ _ _ _ _ _ [] Hstrict Hnm Hkwf Hx Hv Hst Hk HB).
      + (* inside the block *)
        destruct Hi as [->|Hi]; [exact (block_caller_step _ _ _ _ _ _ _ _ _ _ _ Hstrict Hnm Hkwf Hx Hv Hst Hk HB)|].
        (* a descendant steps *)
        destruct (IHk w s hDs i s' Hkwf Hv Hst Hi Hk) as (hDs' & Hk' & Hfst & Hiff).
        destruct (step_isthr _ _ _ Hst) as [nmi Hnmi]. pose proof (KInv_names _ _ _ _ Hk i nmi Hi Hnmi) as Hin.
        assert (Hxi : x <> i).
        { apply (isthr_neq _ _ _ _ _ Hx Hnmi). intros ->. eapply Hnm, knames_kuses, Hin. }
        exists (flat hDs'). split; [|exact Hiff]. apply TInv_inside; [exact Hk'|].
        rewrite Hfst. eapply InBlock_frame; eauto.
      + (* past the block *)
        assert (Hi' : i = x \/ In i DK).
        { destruct Hi as [->|Hi]; [now left|]. apply in_app_iff in Hi. destruct Hi as [Hi|Hi]; [|now right].
          exfalso. destruct (finrec_fin _ _ _ (Hold i Hi)) as [r Hr]. eapply step_not_fin; eauto. }
        destruct (IH bs Sc nm _ x s base DK i s' (HK bs) (fun n Hs => Hsub n (inscope_cont _ _ _ _ _ _ _ Hs))
                    Hx Hv Hst Hi' HKb) as (DK' & HT & HD).
        exists (Dold ++ DK'). split; [|now apply grows_app_r].
        eapply TInv_past; [exact Hps| |exact HT]. intros y Hy. eapply finrec_step; eauto.
    - intros w s hDs i s' _ _ _ Hi H. cbn in H. subst hDs. destruct Hi.
    - intros a q IHq r IHr w s hDs i s' Hwf Hv Hst Hi H.
      cbn in Hwf. destruct Hwf as (Hq & Hdis & Hr). cbn in H.
      destruct hDs as [|hd rest]; [destruct Hi|]. destruct H as (Hhd & HT & Hrest).
      destruct (step_isthr _ _ _ Hst) as [nmi Hnmi].
      rewrite flat_cons in Hi.
      assert (Hcase : (i = fst hd \/ In i (snd hd)) \/ In i (flat rest)).
      { destruct Hi as [<-|Hi]; [left; now left|]. apply in_app_iff in Hi. destruct Hi; auto. }
      destruct Hcase as [Hhead|Htail].
      + (* the step is in the subtree of the first child *)
        assert (Hscope : inscope (Some a) q nmi).
        { destruct Hhead as [->|Hin].
          - left. eapply isthr_inj; eauto.
          - right. eapply TInv_member_uses; eauto. }
        destruct (IHq (inscope (Some a) q) (Some a) w (fst hd) s 0 (snd hd) i s' Hq) as (D' & HT' & HD); auto.
        exists ((fst hd, D') :: rest). split; [|split; [reflexivity|]].
        * cbn. split; [eapply isthr_step; eauto|]. split; [exact HT'|].
          eapply KInv_frame; eauto.
        * rewrite !flat_cons. now apply (grows_app_r _ [fst hd]), grows_app_l.
      + (* the step is in the subtree of a later child *)
        destruct (IHr _ s rest i s' Hr Hv Hst Htail Hrest) as (rest' & Hrest' & Hfst & Hiff).
        pose proof (knames_kuses _ _ _ (KInv_names _ _ _ _ Hrest i nmi Htail Hnmi)) as Hku.
        exists (hd :: rest'). split; [|split; [cbn; now rewrite Hfst|]].
        * cbn. split; [eapply isthr_step; eauto|]. split; [|exact Hrest'].
          apply (TInv_frame _ _ _ _ _ _ _ _ i s' nmi Hst Hv Hnmi (fun Hs => Hdis nmi Hs Hku) Hhd (fun _ Hs => Hs) HT).
        * rewrite !flat_cons. now apply (grows_app_r _ (fst hd :: snd hd)).
  Qed.

  Definition TInv_step := proj1 TInv_step_mut.

  Lemma not_unfinished_fin s y th : thr s y = Some th -> ~ unfinished s y -> exists r, fin s y r.
  Proof.
    intros Hth Hn. destruct (outcome (th_code th)) as [r|] eqn:E.
    - exists r, th. auto.
    - exfalso. apply Hn. exists th. auto.
  Qed.

  Definition sole_runner (s0 : state) (c : nat) (nm : option string) (p : prog) : Prop :=
    isthr s0 c nm /\ xcode s0 c (compile p) /\ (forall x, x <> c -> ~ unfinished s0 x) /\ tvalid s0.

  Section Top.
    Variable p : prog.                 (* the code: hereditarily block-structured, any nesting depth *)
    Variable nm : option string.       (* the caller's name *)
    Variable s0 : state.               (* the initial state: any pool in which only the caller runs *)
    Variable c : nat.                  (* the caller: thread 0 of [init], or any thread *)
    Hypothesis Hwf : wf nm p.
    Hypothesis Hsole : sole_runner s0 c nm p.

    Let L0 := List.length (pool s0).
    Let base := List.length (xevs s0 c).
    Let w0 := xw s0.

    Definition All : option string -> Prop := fun _ => True.

    Definition ninv (s : state) : Prop :=
      tvalid s /\ isthr s c nm /\ L0 <= List.length (pool s) /\
      (forall y, y < L0 -> y <> c -> exists r, fin s y r) /\
      exists D, TInv All p nm w0 c s base D /\ forall y, In y D <-> L0 <= y < List.length (pool s).

    Lemma ninv_init : ninv s0.
    Proof.
      destruct Hsole as (Hx0 & Hcode0 & Hothers & Hvalid0).
      split; [exact Hvalid0|]. split; [exact Hx0|]. split; [unfold L0; lia|]. split.
      - intros y Hy Hne. destruct (thr_exists _ _ _ Hy) as [th Hth]. eapply not_unfinished_fin; eauto.
      - exists []. split.
        + apply TInv_leaf. split; [exact Hcode0|]. split; [reflexivity|]. intros n _. reflexivity.
        + intros y. split; [intros []|]. fold L0. lia.
    Qed.

    Lemma ninv_step i s s' : ninv s -> step_rel i s s' -> ninv s'.
    Proof.
      intros (Hv & Hx & HL & Hold & D & HT & HD) Hst.
      pose proof (step_length _ _ _ _ _ Hst) as Hlen.
      assert (Hi : i = c \/ In i D).
      { destruct (Nat.eq_dec i c) as [->|Hne]; [now left|right]. apply HD.
        destruct (step_unfinished _ _ _ _ _ Hst) as (th & Hth & Ho).
        split; [|eapply nth_error_Some_lt; eauto].
        destruct (Nat.lt_ge_cases i L0) as [Hlt|Hge]; [|exact Hge]. exfalso.
        destruct (Hold i Hlt Hne) as [r Hr]. eapply step_not_fin; eauto. }
      destruct (TInv_step p All nm w0 c s base D i s' Hwf (fun _ _ => I) Hx Hv Hst Hi HT) as (D' & HT' & HD').
      split; [eapply tvalid_step; eauto|]. split; [eapply isthr_step; eauto|]. split; [lia|]. split.
      - intros y Hy Hne. destruct (Hold y Hy Hne) as [r Hr]. exists r. eapply step_fin_stable; eauto.
      - exists D'. split; [exact HT'|]. intros y. rewrite HD', HD. unfold newthr. lia.
    Qed.

    Lemma ninv_reachable sched : ninv (run_thr sched s0).
    Proof.
      apply (run_thr_invariant _ (pw_handle cstate h) ninv); [|exact ninv_init].
      intros i s s' H Hst. eapply ninv_step; eauto.
    Qed.

    Lemma finished_caller_fin sched : finished (run_thr sched s0) = true -> exists r, fin (run_thr sched s0) c r.
    Proof.
      intros Hf. destruct (ninv_reachable sched) as (_ & (th & Hth & _) & _).
      rewrite finished_iff in Hf. eapply not_unfinished_fin; eauto.
    Qed.

    Definition Rref : option val * xworld * list ev := ref nm p w0.

    (* SCHEDULE INDEPENDENCE, NESTED BLOCKS.  For hereditarily block-structured code p of any
       nesting depth that obeys the name discipline [wf], run by thread c of a pool in which nobody
       else runs, in the per-name product world: under EVERY schedule, in every reachable state s,
       (1) if the caller is finished, its outcome and its own event sequence (since s0) are the
           reference's;
       (2) every thread created since s0 (at any depth) that is finished carries a name, has an
           outcome and an own event sequence that are a record of the reference's log;
       (3) if the caller RETURNED, the run is over: every thread is finished;
       (4) if every thread is finished (returned or panicked), the whole extended world - every
           component's state and, for every thread NAME, the sequence of events made under that
           name - is the reference's final world.
       The reference is a function of p, nm and the initial world alone: nothing depends on the
       schedule. *)
    Theorem schedule_independence_nested sched :
      let s := run_thr sched s0 in
      (forall r, fin s c r -> r = fst (fst Rref) /\ skipn base (xevs s c) = snd Rref) /\
      (forall y r, L0 <= y -> fin s y r -> finrec s y (rlog nm p w0)) /\
      (forall v, fin s c (Some v) -> finished s = true) /\
      (finished s = true -> forall n, xw s n = snd (fst Rref) n).
    Proof.
      intros s. destruct (ninv_reachable sched) as (Hv & Hx & HL & Hold & D & HT & HD). fold s in Hv, Hx, HL, Hold, HT, HD.
      split; [|split; [|split]].
      - intros r Hf. eapply TInv_fin; eauto.
      - intros y r Hy Hf. eapply TInv_log; eauto. apply HD. split; [exact Hy|].
        destruct Hf as (th & Hth & _). eapply nth_error_Some_lt; eauto.
      - intros v Hf. apply finished_iff. intros y Hun.
        pose proof (TInv_returned _ _ _ _ _ _ _ _ _ HT Hf) as Hrec.
        assert (Hyl : y < List.length (pool s)).
        { destruct Hun as (th & Hth & _). eapply nth_error_Some_lt; eauto. }
        destruct (Nat.eq_dec y c) as [->|Hne]; [eapply fin_not_unfinished; eauto|].
        destruct (Nat.lt_ge_cases y L0) as [Hlt|Hge].
        + destruct (Hold y Hlt Hne) as [r Hr]. eapply fin_not_unfinished; eauto.
        + destruct (Hrec y (proj2 (HD y) (conj Hge Hyl))) as [r Hr].
          eapply fin_not_unfinished; eauto.
      - intros Hfin n. rewrite finished_iff in Hfin.
        apply (TInv_allfin _ _ _ _ _ _ _ _ Hwf HT); [| |exact I].
        + destruct Hx as (th & Hth & _). eapply not_unfinished_fin; eauto.
        + intros y Hy. apply HD in Hy. destruct (thr_exists _ _ _ (proj2 Hy)) as [th Hth].
          eapply not_unfinished_fin; eauto.
    Qed.

    (* ANY TWO SCHEDULES AGREE.
       (a) whenever the caller is finished under both, its result and its own events coincide;
       (b) whenever the run is finished under both (every thread finished), moreover the state of
           every component of the world and EVERY THREAD NAME's event sequence coincide. *)
    Corollary two_schedules_agree_nested sched1 sched2 :
      let s1 := run_thr sched1 s0 in
      let s2 := run_thr sched2 s0 in
      (forall r1 r2, fin s1 c r1 -> fin s2 c r2 ->
         r1 = r2 /\ skipn base (xevs s1 c) = skipn base (xevs s2 c)) /\
      (finished s1 = true -> finished s2 = true ->
         result_of c s1 = result_of c s2 /\
         (forall n, world s1 n = world s2 n) /\
         (forall n, nev n s1 = nev n s2)).
    Proof.
      intros s1 s2.
      destruct (schedule_independence_nested sched1) as (Hc1 & _ & _ & Hw1).
      destruct (schedule_independence_nested sched2) as (Hc2 & _ & _ & Hw2).
      fold s1 in Hc1, Hw1. fold s2 in Hc2, Hw2.
      assert (Ha : forall r1 r2, fin s1 c r1 -> fin s2 c r2 ->
                   r1 = r2 /\ skipn base (xevs s1 c) = skipn base (xevs s2 c)).
      { intros r1 r2 H1 H2. destruct (Hc1 _ H1) as [-> ->]. destruct (Hc2 _ H2) as [-> ->]. auto. }
      split; [exact Ha|]. intros Hf1 Hf2.
      destruct (finished_caller_fin _ Hf1) as [r1 Hr1]. destruct (finished_caller_fin _ Hf2) as [r2 Hr2].
      fold s1 in Hr1. fold s2 in Hr2.
      assert (Hw : forall n, xw s1 n = xw s2 n) by (intros n; now rewrite Hw1, Hw2).
      split; [|split].
      - rewrite (proj1 (fin_result_of _ _ _ _) Hr1), (proj1 (fin_result_of _ _ _ _) Hr2). f_equal. now apply Ha.
      - intros n. exact (f_equal fst (Hw n)).
      - intros n. exact (f_equal snd (Hw n)).
    Qed.
  End Top.
End Indep.

Print Assumptions schedule_independence_nested.
Print Assumptions two_schedules_agree_nested.

Section Init.
  Variable cstate : Type.
  Variable h : option string -> ev -> cstate -> option val * cstate.
  Variable p : prog.
  Variable nm : option string.
  Variable w : pworld cstate.
  Hypothesis Hwf : wf nm p.

  Definition xinit : xworld cstate := fun n => (w n, []).
  Definition s_init : state (pworld cstate) := init nm (compile p) w.

  Notation run := (run_thr (pw_handle cstate h)).

  Lemma init_sole_runner : sole_runner cstate s_init 0 nm p.
  Proof.
    split; [eexists; split; reflexivity|]. split; [eexists; split; reflexivity|]. split; [|intros x []].
    intros x Hx (th & Hth & _). unfold thr_of in Hth. destruct x as [|[|x]]; [congruence|discriminate|discriminate].
  Qed.

  (* [schedule_independence_nested] from a single running thread (thread 0 = the caller): every
     other thread is created by the run, and the own events are all the events ([events_of]) *)
  Theorem schedule_independence_init sched :
    let s := run sched s_init in
    let R := ref cstate h nm p xinit in
    (forall r, fin _ s 0 r -> r = fst (fst R) /\ events_of 0 s = snd R) /\
    (forall y r, 1 <= y -> fin _ s y r ->
       exists th, thr_of _ s y = Some th /\
                  In (th_name th, r, events_of y s) (rlog cstate h nm p xinit)) /\
    (forall v, fin _ s 0 (Some v) -> finished s = true) /\
    (finished s = true ->
     forall n, world s n = fst (snd (fst R) n) /\ nev cstate n s = snd (snd (fst R) n)).
  Proof.
    intros s R.
    destruct (schedule_independence_nested cstate h p nm s_init 0 Hwf init_sole_runner sched) as (H1 & H2 & H3 & H4).
    fold s in H1, H2, H3, H4.
    split; [|split; [|split]].
    - intros r Hr. rewrite <- xevs_events_of. exact (H1 r Hr).   (* no entry precedes s_init: `skipn 0` *)
    - intros y r Hy Hf. destruct (H2 y r Hy Hf) as (th & r' & Hth & Ho & Hin).
      exists th. split; [exact Hth|]. destruct Hf as (th' & Hth' & Ho'). rewrite Hth in Hth'; injection Hth' as <-.
      rewrite Ho in Ho'. injection Ho' as <-. exact Hin.
    - exact H3.
    - intros Hf n. specialize (H4 Hf n). unfold xw in H4.
      change (Rref cstate h p nm s_init) with R in H4. rewrite <- H4. split; reflexivity.
  Qed.

  (* C07: any two schedules agree - on the caller's result and own events whenever it is finished
     under both; on everything (result, world, every thread name's event sequence) whenever the
     run is finished under both *)
  Corollary two_schedules_agree_init sched1 sched2 :
    let s1 := run sched1 s_init in
    let s2 := run sched2 s_init in
    (forall r1 r2, fin _ s1 0 r1 -> fin _ s2 0 r2 -> r1 = r2 /\ events_of 0 s1 = events_of 0 s2) /\
    (finished s1 = true -> finished s2 = true ->
       result_of 0 s1 = result_of 0 s2 /\
       (forall n, world s1 n = world s2 n) /\
       (forall n, nev cstate n s1 = nev cstate n s2)).
  Proof.
    exact (two_schedules_agree_nested cstate h p nm s_init 0 Hwf init_sole_runner sched1 sched2).
  Qed.

  Lemma ws_compile_mut :
    (forall q H, ws (compile q) H) /\ (forall ps, Forall (fun nt => ws (snd nt) []) (cnts ps)).
  Proof.
    apply prog_progs_ind; cbn; auto.
    - intros B post kids IHk K IH H. apply ws_gblock; auto.
  Qed.

  (* "the run finishes" is not vacuous: block-structured code is well-scoped, so the fair
     round-robin is a schedule that finishes the run (ThreadsProps.fair_schedule_finishes) *)
  Theorem finishing_schedule_exists : exists sched, finished (run sched s_init) = true.
  Proof.
    destruct (fair_schedule_finishes _ (pw_handle cstate h) s_init) as [fuel Hf].
    { apply ws_init. apply ws_compile_mut. }
    destruct (run_fuel_is_a_schedule _ (pw_handle cstate h) fuel s_init) as [sched Hs].
    exists sched. now rewrite <- Hs.
  Qed.

  (* hence the reference IS the result of a run, and of every run that finishes *)
  Corollary every_finished_run_is_the_reference :
    (exists sched, finished (run sched s_init) = true) /\
    forall sched, finished (run sched s_init) = true ->
      result_of 0 (run sched s_init) = Some (fst (fst (ref cstate h nm p xinit))) /\
      events_of 0 (run sched s_init) = snd (ref cstate h nm p xinit).
  Proof.
    split; [exact finishing_schedule_exists|]. intros sched Hf.
    destruct (schedule_independence_init sched) as (H1 & _).
    destruct (finished_caller_fin cstate h p nm s_init 0 Hwf init_sole_runner sched Hf) as [r Hr].
    destruct (H1 r Hr) as [E1 E2]. split; [|exact E2].
    rewrite (proj1 (fin_result_of _ _ _ _) Hr). now rewrite E1.
  Qed.
End Init.

Print Assumptions schedule_independence_init.
Print Assumptions two_schedules_agree_init.
Print Assumptions every_finished_run_is_the_reference.

Module ExNestedIndep.
  Import ExBlock ExIndep.
  (* a call of closure n; under ThreadsProps.ExIndep.c_handle (one counter per thread NAME) it
     answers n + counter *)
  Definition pcall (n : Z) (k : val -> prog) : prog := PVis (ECall (VOpq n) []) k.
  Definition pchild (n : Z) : prog := pcall n (fun v => pcall (n + 100) (fun _ => PRet v)).

  Definition p_inner : prog :=
    PBlock val unwrap_post (PCons "x" (pchild 4) (PCons "y" (pchild 5) PNil))
           (fun vs => PRet (VTuple vs)).
  Definition q_inner : prog :=
    PBlock val unwrap_post (PCons "u" (pchild 6) PNil)
           (fun vs => pcall 3 (fun v => PRet (VTuple (v :: vs)))).
  Definition second (v : val) (vs : list val) : prog :=
    PBlock val unwrap_post (PCons "q" (pchild 7) (PCons "x" (pchild 9) PNil))
           (fun vs2 => PRet (VTuple (v :: vs ++ vs2))).
  (* child "p" of the first block contains a block (children "x", "y"); so does child "q"
     (child "u", then an event of its own); the continuation makes an event and runs a SECOND
     block that reuses the names "q" (its counter goes on from where the first "q" left it) and
     "x" (one level higher). *)
  Definition progNN : prog :=
    PBlock val unwrap_post (PCons "p" p_inner (PCons "q" q_inner PNil))
           (fun vs => pcall 8 (fun v => second v vs)).

  Definition hN := pw_handle nat c_handle.
  Definition sNN : state (pworld nat) := s_init nat progNN (Some "main") (fun _ => 0).
  Definition RNN := ref nat c_handle (Some "main") progNN (xinit nat (fun _ => 0)).

  (* three schedules: the fair round-robin; youngest thread first; and one that runs "q" and its
     child before "p" gets to spawn (entries naming disabled or non-existent threads are skipped) *)
  Definition sched_rr (s : state (pworld nat)) := run_fuel hN 40 s.
  Definition sched_young : list nat := flat_map (fun _ => [8; 7; 6; 5; 4; 3; 2; 1; 0]) (seq 0 30).
  Definition sched_q_first : list nat :=
    [0; 0; 2; 2; 3; 3; 3; 2; 2; 1; 1] ++ flat_map (fun _ => [0; 1; 2; 3; 4; 5; 6; 7; 8]) (seq 0 30).

  (* the pools differ: thread 2 is "q" or "x", thread 3 is "x", "q" or "u" - the handles a thread
     receives depend on the schedule ... *)
  Example pools_differ :
    map th_name (pool (sched_rr sNN)) =
      [Some "main"; Some "p"; Some "q"; Some "x"; Some "y"; Some "u"; Some "q"; Some "x"] /\
    map th_name (pool (run_thr hN sched_young sNN)) =
      [Some "main"; Some "p"; Some "x"; Some "q"; Some "u"; Some "y"; Some "q"; Some "x"] /\
    map th_name (pool (run_thr hN sched_q_first sNN)) =
      [Some "main"; Some "p"; Some "q"; Some "u"; Some "x"; Some "y"; Some "q"; Some "x"].
  Proof. vm_compute. repeat split; reflexivity. Qed.

  Example traces_differ :
    map fst (rev (trace (sched_rr sNN))) <> map fst (rev (trace (run_thr hN sched_young sNN))).
  Proof. vm_compute. discriminate. Qed.

  (* ... but the result, the caller's events and every name's event sequence are the reference's *)
  Definition agrees_with_reference (s : state (pworld nat)) : Prop :=
    finished s = true /\
    result_of 0 s = Some (fst (fst RNN)) /\
    events_of 0 s = snd RNN /\
    map (fun n => (world s (Some n), nev nat (Some n) s)) ["main"; "p"; "q"; "x"; "y"; "u"] =
    map (fun n => snd (fst RNN) (Some n)) ["main"; "p"; "q"; "x"; "y"; "u"].

  Example run_rr_agrees : agrees_with_reference (sched_rr sNN).
  Proof. vm_compute. repeat split; reflexivity. Qed.
  Example run_young_agrees : agrees_with_reference (run_thr hN sched_young sNN).
  Proof. vm_compute. repeat split; reflexivity. Qed.
  Example run_q_first_agrees : agrees_with_reference (run_thr hN sched_q_first sNN).
  Proof. vm_compute. repeat split; reflexivity. Qed.

  (* what the reference says (so that the agreement above is not an agreement on nothing) *)
  Example reference_value :
    fst (fst RNN) =
      Some (VTuple [VInt 8; VTuple [VInt 4; VInt 5]; VTuple [VInt 3; VInt 6]; VInt 8; VInt 11]) /\
    List.length (snd RNN) = 1 /\
    snd (snd (fst RNN) (Some "q")) =
      [ECall (VOpq 3) []; ECall (VOpq 7) []; ECall (VOpq 107) []] /\
    List.length (rlog nat c_handle (Some "main") progNN (xinit nat (fun _ => 0))) = 7.
  Proof. vm_compute. repeat split; reflexivity. Qed.

  Example progNN_wf : wf (Some "main") progNN.
  Proof.
    cbn. repeat split; try discriminate; try apply unwrap_post_strict; auto;
      unfold inscope; cbn; firstorder congruence.
  Qed.

  Example progNN_all_schedules sched1 sched2 :
    finished (run_thr hN sched1 sNN) = true -> finished (run_thr hN sched2 sNN) = true ->
    result_of 0 (run_thr hN sched1 sNN) = result_of 0 (run_thr hN sched2 sNN) /\
    forall n, nev nat n (run_thr hN sched1 sNN) = nev nat n (run_thr hN sched2 sNN).
  Proof.
    intros H1 H2.
    destruct (two_schedules_agree_init nat c_handle progNN (Some "main") (fun _ => 0) progNN_wf sched1 sched2)
      as [_ H]. destruct (H H1 H2) as (Hr & _ & Hn). auto.
  Qed.

  Example progNN_value sched :
    finished (run_thr hN sched sNN) = true ->
    result_of 0 (run_thr hN sched sNN) =
      Some (Some (VTuple [VInt 8; VTuple [VInt 4; VInt 5]; VTuple [VInt 3; VInt 6]; VInt 8; VInt 11])).
  Proof.
    intros Hf.
    destruct (every_finished_run_is_the_reference nat c_handle progNN (Some "main") (fun _ => 0) progNN_wf) as [_ H].
    destruct (H sched Hf) as [E _]. unfold hN, sNN. rewrite E. f_equal; exact (proj1 reference_value).
  Qed.

  Example progNN_hb : hb (compile progNN).
  Proof. exact (hb_compile _ _ progNN_wf). Qed.
End ExNestedIndep.

Print Assumptions ExNestedIndep.progNN_all_schedules.
Print Assumptions ExNestedIndep.progNN_value.

(* a run with PANICS: grandchild "x" panics (closure 13), so "p" panics in its first join
   (`.join().unwrap()`) without waiting for "y", and the caller panics in its first join without
   waiting for "q"; "y" and "q" run on, detached.  Still nothing depends on the schedule. *)
Module ExNestedPanic.
  Import ExBlock ExIndep ExNestedIndep.
  Definition cp_handle (nm : option string) (e : ev) (sg : nat) : option val * nat :=
    match e with
    | ECall (VOpq 13) _ => (None, S sg)
    | _ => c_handle nm e sg
    end.
  Definition progP : prog :=
    PBlock val unwrap_post
      (PCons "p" (PBlock val unwrap_post
                    (PCons "x" (pcall 13 (fun v => PRet v)) (PCons "y" (pchild 5) PNil))
                    (fun vs => PRet (VTuple vs)))
      (PCons "q" (pchild 6) PNil))
      (fun vs => pcall 8 (fun v => PRet (VTuple (v :: vs)))).
  Definition hP := pw_handle nat cp_handle.
  Definition sP : state (pworld nat) := s_init nat progP (Some "main") (fun _ => 0).
  Definition RP := ref nat cp_handle (Some "main") progP (xinit nat (fun _ => 0)).

  Definition agreesP (s : state (pworld nat)) : Prop :=
    finished s = true /\
    result_of 0 s = Some (fst (fst RP)) /\
    events_of 0 s = snd RP /\
    map (fun n => (world s (Some n), nev nat (Some n) s)) ["main"; "p"; "q"; "x"; "y"] =
    map (fun n => snd (fst RP) (Some n)) ["main"; "p"; "q"; "x"; "y"].

  Example panic_rr_agrees : agreesP (run_fuel hP 30 sP).
  Proof. vm_compute. repeat split; reflexivity. Qed.
  Example panic_young_agrees : agreesP (run_thr hP sched_young sP).
  Proof. vm_compute. repeat split; reflexivity. Qed.
  (* the caller panics at once (as soon as "x" has), long before "y" and "q" are finished *)
  Example panic_early :
    let s := run_thr hP [0; 0; 1; 1; 3; 1; 0] sP in
    result_of 0 s = Some None /\ result_of 1 s = Some None /\ result_of 3 s = Some None /\
    thr_finished 2 s = false /\ thr_finished 4 s = false /\
    result_of 0 s = Some (fst (fst RP)).
  Proof. vm_compute. repeat split; reflexivity. Qed.

  Example reference_value_P :
    fst (fst RP) = None /\ snd RP = [] /\
    snd (snd (fst RP) (Some "y")) = [ECall (VOpq 5) []; ECall (VOpq 105) []] /\
    snd (snd (fst RP) (Some "q")) = [ECall (VOpq 6) []; ECall (VOpq 106) []].
  Proof. vm_compute. repeat split; reflexivity. Qed.

  Example progP_wf : wf (Some "main") progP.
  Proof.
    cbn. repeat split; try discriminate; try apply unwrap_post_strict; auto;
      unfold inscope; cbn; firstorder congruence.
  Qed.
End ExNestedPanic.

(* the `__tb` discipline stated for [prog] (`ThreadsProps.tbnamed` states it for `comp`; no lemma
   relates the two): in every block run by a
   thread named nm the children are named [child_name nm i] for pairwise distinct branch indices i,
   hereditarily; blocks are non-empty and [post] is strict *)
Fixpoint tbp (nm : option string) (p : prog) : Prop :=
  match p with
  | PRet _ | PPanic _ => True
  | PVis e k => forall v, tbp nm (k v)
  | PBlock B post kids K =>
      kids <> PNil /\ strict_post post /\ (exists idx, ktb nm kids idx /\ NoDup idx) /\
      forall bs, tbp nm (K bs)
  end
with ktb (nm : option string) (ps : progs) (idx : list nat) : Prop :=
  match ps, idx with
  | PNil, [] => True
  | PCons a q r, i :: idx' => a = child_name nm i /\ tbp (Some a) q /\ ktb nm r idx'
  | _, _ => False
  end.

(* n is the name of child i of nm, or of a thread below it *)
Definition inchild (nm : option string) (i : nat) (n : option string) : Prop :=
  exists P, n = Some (child_name nm i +++ path_suffix P).

Definition name_pre (nm : option string) : string :=
  match nm with Some s => s +++ "_join_" | None => "join_" end.

Lemma child_name_pre nm i : child_name nm i = name_pre nm +++ dec i.
Proof. destruct nm; cbn; [now rewrite sapp_assoc|reflexivity]. Qed.

Lemma all_digits_sep s r : all_digits (s +++ String "_" r) = false.
Proof.
  induction s as [|c s IH]; cbn; [reflexivity|]. rewrite IH. apply Bool.andb_false_r.
Qed.

Lemma path_suffix_cases P : path_suffix P = "" \/ exists r, path_suffix P = String "_" r.
Proof. destruct P as [|i P]; cbn; [now left|right; eauto]. Qed.

Lemma inchild_inj nm i j n : inchild nm i n -> inchild nm j n -> i = j.
Proof.
  intros [P ->] [Q H]. injection H as H. rewrite !child_name_pre, !sapp_assoc in H.
  apply sapp_inj_l in H.
  destruct (path_suffix_cases P) as [EP|[rp EP]], (path_suffix_cases Q) as [EQ|[rq EQ]]; rewrite EP, EQ in H.
  - rewrite !sapp_nil_r in H. now apply dec_inj.
  - exfalso. rewrite sapp_nil_r in H. pose proof (dec_digits i) as D. rewrite H, all_digits_sep in D. discriminate.
  - exfalso. rewrite sapp_nil_r in H. pose proof (dec_digits j) as D. rewrite <- H, all_digits_sep in D. discriminate.
  - apply digits_sep_inj in H; try apply dec_digits. apply dec_inj. apply H.
Qed.

Lemma sapp_length (a b : string) : String.length (a +++ b) = String.length a + String.length b.
Proof. induction a as [|c a IH]; cbn; auto. Qed.

Lemma inchild_not_self nm i : ~ inchild nm i nm.
Proof.
  intros [P H]. destruct nm as [s|]; [|discriminate]. injection H as H.
  apply (f_equal String.length) in H. cbn in H. rewrite !sapp_length in H. cbn in H. lia.
Qed.

Lemma inchild_below a j nm i n : a = child_name nm i -> inchild (Some a) j n -> inchild nm i n.
Proof.
  intros -> [P ->]. exists (j :: P). cbn [path_suffix child_name]. now rewrite !sapp_assoc.
Qed.

Lemma tbp_uses_mut :
  (forall p nm, tbp nm p -> forall n, uses p n -> exists j, inchild nm j n) /\
  (forall ps nm idx, ktb nm ps idx -> forall n, kuses ps n -> exists j, In j idx /\ inchild nm j n).
Proof.
  apply prog_progs_ind; cbn.
  - intros v nm _ n [].
  - intros n0 nm _ n [].
  - intros e k IH nm H n [v Hv]. eapply IH; eauto.
  - intros B post kids IHk K IH nm (_ & _ & (idx & Hk & _) & HK) n [Hn|[bs Hn]].
    + destruct (IHk _ _ Hk n Hn) as (j & _ & Hj). eauto.
    + eapply IH; eauto.
  - intros nm idx _ n [].
  - intros a q IHq r IHr nm [|i idx] H n Hn; [destruct H|]. destruct H as (Ha & Hq & Hr).
    destruct Hn as [[->|Hn]|Hn].
    + exists i. split; [now left|]. exists []. cbn. now rewrite sapp_nil_r, Ha.
    + destruct (IHq _ Hq n Hn) as (j & Hj). exists i. split; [now left|]. eapply inchild_below; eauto.
    + destruct (IHr _ _ Hr n Hn) as (j & Hin & Hj). exists j. split; [now right|exact Hj].
Qed.

Lemma tbp_wf_mut :
  (forall p nm, tbp nm p -> wf nm p) /\
  (forall ps nm idx, ktb nm ps idx -> NoDup idx -> kwf ps).
Proof.
  apply prog_progs_ind; cbn; auto.
  - intros B post kids IHk K IH nm (Hne & Hs & (idx & Hk & Hnd) & HK).
    split; [exact Hne|]. split; [exact Hs|]. split; [|split; [eapply IHk; eauto|auto]].
    intros Hu. destruct (proj2 tbp_uses_mut _ _ _ Hk _ Hu) as (j & _ & Hj). eapply inchild_not_self; eauto.
  - intros a q IHq r IHr nm [|i idx] H Hnd; [destruct H|]. destruct H as (Ha & Hq & Hr).
    apply NoDup_cons_iff in Hnd. destruct Hnd as [Hni Hnd'].
    split; [auto|]. split; [|eapply IHr; eauto].
    intros n Hs Hu.
    assert (Hi : inchild nm i n).
    { destruct Hs as [->|Hs].
      - exists []. cbn. now rewrite sapp_nil_r, Ha.
      - destruct (proj1 tbp_uses_mut _ _ Hq _ Hs) as (j & Hj). eapply inchild_below; eauto. }
    destruct (proj2 tbp_uses_mut _ _ _ Hr _ Hu) as (j & Hin & Hj).
    rewrite (inchild_inj _ _ _ _ Hi Hj) in Hni. contradiction.
Qed.

Theorem generated_names_wf p nm : tbp nm p -> wf nm p.
Proof. apply tbp_wf_mut. Qed.

Print Assumptions generated_names_wf.

Corollary generated_code_schedule_independent
          cstate (h : option string -> ev -> cstate -> option val * cstate) p nm (w : pworld cstate) :
  tbp nm p ->
  forall sched1 sched2,
  let s1 := run_thr (pw_handle cstate h) sched1 (s_init cstate p nm w) in
  let s2 := run_thr (pw_handle cstate h) sched2 (s_init cstate p nm w) in
  (forall r1 r2, fin _ s1 0 r1 -> fin _ s2 0 r2 -> r1 = r2 /\ events_of 0 s1 = events_of 0 s2) /\
  (finished s1 = true -> finished s2 = true ->
     result_of 0 s1 = result_of 0 s2 /\
     (forall n, world s1 n = world s2 n) /\
     (forall n, nev cstate n s1 = nev cstate n s2)).
Proof.
  intros H sched1 sched2. exact (two_schedules_agree_init cstate h p nm w (generated_names_wf p nm H) sched1 sched2).
Qed.

Print Assumptions generated_code_schedule_independent.
