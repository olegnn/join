(* Whole-program thread-machine theorems for `join_spawn!` / `try_join_spawn!`.

   ThreadsProps.v proves the barrier, the thread names and the panic propagation for ONE block
   (`gblock`) run by some thread of some pool, and for states that are hereditarily block structured
   (`hb_state`), named by `__tb` (`tb_state`, `named_ok`) or well scoped (`ws_state`).  This file
   proves that the computation `spec` assigns to a WHOLE program of a thread-spawning sync kind,
   started with `init`, is such a state (`spec_spawn_init_hb` / `_tb` / `_ws`) and derives the properties for the whole macro
   run: at every machine step, under every schedule, in an ARBITRARY (stateful) world.

   Throughout: `p : sprog` with `is_async (sp_cfg p) = false`,
     prog := let! d := spec msem dotsem callsem awaitsem (with_spawn true p) in to_val d
   (the caller runs the macro and wants a value), `s0 := init nm prog w`, `s := run_thr handle sched s0`
   for an arbitrary schedule `sched`; user code is `SpecSpawn.user_code` (events only).

   Method.  `SpecCode.walk_program` (the structural walk through `step_result` / `steps` /
   `run_body` / `spec`) is instantiated with relations that ignore the plain program: for a
   predicate P on caller code `comp val`, `cps P Q c` says "c followed by any continuation that
   satisfies P on results in Q satisfies P".  It is closed under `bind` by associativity, contains
   events-only code if P is closed under events, and holds of the thread step if P holds of
   builders; captures; `ublock` (`cps_program`).  P = `hb` and the predicate `blk` (which implies
   `tbnamed nm`) give all the structure needed. *)
From Coq Require Import ZArith Lia.
From Join Require Import Tok Ast Comp Std Spec CompLaws Leaves SpecProps Threads ThreadsProps SpecCode SpecSpawn.
From Join Require SpecPositions.
Import ListNotations.

Local Notation top := (fun _ => True).

Section CPS.
  Variable P : comp val -> Prop.

  Definition cps {A} (Q : A -> Prop) (c : comp A) : Prop :=
    forall f : A -> comp val, (forall a, Q a -> P (f a)) -> P (bind c f).

  Lemma cps_bind {A B} (Q : A -> Prop) (R : B -> Prop) (c : comp A) (f : A -> comp B) :
    cps Q c -> (forall a, Q a -> cps R (f a)) -> cps R (bind c f).
  Proof.
    intros Hc Hf g Hg. rewrite bind_assoc. apply Hc. intros a Ha. apply (Hf a Ha). exact Hg.
  Qed.

  Hypothesis P_ret : forall v, P (Ret v).
  Hypothesis P_panic : forall n, P (Panic n).
  Hypothesis P_vis : forall e k, e <> EThreadName -> (forall v, P (k v)) -> P (Vis e k).

  Lemma cps_ucode {A} (Q : A -> Prop) (c : comp A) : ucode Q c -> cps Q c.
  Proof.
    intros Hc f Hf. induction c as [A a|A n|A e k IH|A name t IHt k IH|A h k IH]; cbn in *; auto; try contradiction.
    destruct Hc as [He Hk]. apply P_vis; [exact He|]. intros v. apply (IH v Q); auto.
  Qed.

  Variable okacts : list nat -> Prop.
  Hypothesis P_thread_step : forall (C : Type) acts (caps : comp C) (child : C -> nat -> comp dval) (f : dval -> comp val),
      okacts acts -> ucode top caps -> (forall cp b, ucode dval_ok (child cp b)) ->
      (forall d, dval_ok d -> P (f d)) ->
      P (bind (std_thread_step acts caps (fun cp b => let! d := child cp b in to_val d)) f).

  Lemma cps_program msem dotsem callsem awaitsem (HU : user_code msem dotsem callsem awaitsem)
        (p : sprog) (Hsync : is_async (sp_cfg p) = false) (Hok : forall k, okacts (actives p k)) :
    P (let! d := spec msem dotsem callsem awaitsem (with_spawn true p) in to_val d).
  Proof.
    assert (H : cps top (let! d := spec msem dotsem callsem awaitsem (with_spawn true p) in to_val d)).
    { apply (walk_program (@ucode) ucode_class (fun A Q c1 _ => @cps A Q c1)) with (okacts := okacts); try assumption.
      - intros A Q c. apply cps_ucode.
      - intros A B Q R c1 c2 f1 f2. apply cps_bind.
      - intros C acts caps child Hacts Hcaps Hchild f Hf. apply P_thread_step; assumption. }
    rewrite <- (bind_ret_r (let! d := spec msem dotsem callsem awaitsem (with_spawn true p) in to_val d)).
    apply H. intros v _. apply P_ret.
  Qed.
End CPS.

Lemma hb_ucode (Q : val -> Prop) (c : comp val) : ucode Q c -> hb c.
Proof.
  intros Hc. rewrite <- (bind_ret_r c).
  apply (cps_ucode hb hb_panic (fun e k _ => hb_vis e k) Q c Hc). intros v _. apply hb_ret.
Qed.

(* the builders, whatever `thread::current().name()` answers *)
Lemma hb_builders acts : forall g : list dval -> comp val,
  (forall names, hb (g (map DBuilder names))) ->
  hb (bind (mapM (fun b => thread_builder (Z.of_nat b)) acts) g).
Proof.
  induction acts as [|b r IH]; intros g Hg; cbn [mapM].
  - cbn. apply (Hg []).
  - unfold thread_builder at 1. cbn [bind]. apply hb_vis. intros cur.
    destruct (tb_name cur (Z.of_nat b)) as [s|]; cbn [bind]; [|constructor].
    rewrite bind_assoc. cbn [bind]. apply (IH (fun ys => g (DBuilder s :: ys))).
    intros names. apply (Hg (s :: names)).
Qed.

Lemma Forall_combine_snd {A B} (R : B -> Prop) (l1 : list A) : forall l2,
  Forall R l2 -> Forall (fun nt => R (snd nt)) (combine l1 l2).
Proof.
  induction l1 as [|a l1 IH]; intros [|b l2] H; cbn; constructor; inversion H; subst; auto.
Qed.

Lemma hb_thread_step {C} acts (caps : comp C) (child : C -> nat -> comp dval) (f : dval -> comp val) :
  ucode top caps -> (forall cp b, ucode dval_ok (child cp b)) ->
  (forall d, dval_ok d -> hb (f d)) ->
  hb (bind (std_thread_step acts caps (fun cp b => let! d := child cp b in to_val d)) f).
Proof.
  intros Hcaps Hchild Hf. unfold std_thread_step. rewrite bind_assoc.
  apply hb_builders. intros names. rewrite bind_assoc.
  apply (cps_ucode hb hb_panic (fun e k _ => hb_vis e k) top caps Hcaps). intros cp _.
  rewrite std_spawn_join_is_ublock'. unfold ublock.
  (* no thread to spawn (no branch, or no name): the block is its continuation *)
  destruct (combine names _) as [|nt nts] eqn:E; [apply Hf; exact I|]. rewrite <- E.
  apply hb_block.
  - rewrite E. discriminate.
  - apply unwrap_post_strict.
  - apply Forall_combine_snd. apply Forall_forall. intros t Ht. apply in_map_iff in Ht.
    destruct Ht as (b' & <- & _). apply (hb_ucode top), (cls_val _ (code_call_class _ ucode_class) dval_ok), Hchild.
  - intros vs. apply Hf. exact I.
Qed.

Lemma tbn_ucode {A} nm (Q : A -> Prop) (c : comp A) : ucode Q c -> tbn nm Q c.
Proof.
  induction c as [A a|A n|A e k IH|A name t IHt k IH|A h k IH]; cbn; auto; try contradiction.
  intros [He Hk]. destruct e; try congruence; intros v; apply IH, Hk.
Qed.

(* the threads the caller has spawned and not yet joined, oldest first: (thread index, branch) *)
Definition opens := list (nat * nat).

Definition distinct (o : opens) : Prop := NoDup (map snd o).

Lemma distinct_snoc o h b : distinct o -> (forall hb, In hb o -> snd hb <> b) -> distinct (o ++ [(h, b)]).
Proof.
  unfold distinct. intros Hs Hne. rewrite map_app. apply NoDup_snoc; [exact Hs|].
  intros Hin. apply in_map_iff in Hin. destruct Hin as (hb & E & Hin). exact (Hne hb Hin E).
Qed.

Lemma distinct_same_branch o : distinct o -> forall x y b, In (x, b) o -> In (y, b) o -> x = y.
Proof.
  unfold distinct. induction o as [|[h0 b0] o IH]; cbn [map snd]; intros Hs x y b Hx Hy; [destruct Hx|].
  inversion Hs as [|? ? Hnin Hs']; subst.
  destruct Hx as [Ex|Hx], Hy as [Ey|Hy].
  - congruence.
  - injection Ex as -> ->. destruct Hnin. apply (in_map snd _ _ Hy).
  - injection Ey as -> ->. destruct Hnin. apply (in_map snd _ _ Hx).
  - eapply IH; eauto.
Qed.

Lemma distinct_length o n : distinct o -> (forall hb, In hb o -> snd hb < n) -> List.length o <= n.
Proof.
  intros Hs Hb. rewrite <- (map_length snd o), <- (seq_length n 0).
  apply NoDup_incl_length; [exact Hs|]. intros b Hin. apply in_map_iff in Hin. destruct Hin as (hb & <- & Hin).
  apply in_seq. specialize (Hb hb Hin). lia.
Qed.

Section Blk.
  Variable nm : option string.   (* the caller's name *)
  Variable n : nat.              (* the number of branches *)

  (* [blk c o]: the caller, with the threads o open, runs c.
       - it evaluates a user expression (`Vis`) or returns only when NO thread is open;
       - a thread it spawns runs events-only code, is named `child_name nm b` for a branch b < n
         that no open thread runs, and becomes the youngest open thread;
       - it joins the OLDEST open thread; if that thread returned a value, it goes on without it,
         if it panicked, the caller panics at once (`.join().unwrap()`). *)
  Fixpoint blk (c : comp val) (o : opens) : Prop :=
    match c with
    | Ret _ => o = []
    | Panic _ => True
    | Vis e k => o = [] /\ match e with
                           | EThreadName => blk (k (name_val nm)) []
                           | _ => forall v, blk (k v) []
                           end
    | Spawn name t k =>
        ucode top t /\
        exists b, name = child_name nm b /\ b < n /\ (forall hb, In hb o -> snd hb <> b) /\
                  forall h, blk (k h) (o ++ [(h, b)])
    | Join h k =>
        exists b o', o = (h, b) :: o' /\ (forall v, blk (k (Some v)) o') /\ exists m, k None = Panic m
    end.

  Definition blk0 (c : comp val) : Prop := blk c [].

  Lemma blk0_ucode {A} (Q : A -> Prop) (c : comp A) (g : A -> comp val) :
    ucode Q c -> (forall a, Q a -> blk0 (g a)) -> blk0 (bind c g).
  Proof.
    intros Hc Hg. apply (cps_ucode blk0) with (Q := Q); auto.
    - intros m. exact I.
    - intros e k He Hk. split; [reflexivity|]. destruct e; try congruence; exact Hk.
  Qed.

  Lemma blk_tbnamed c : forall o, blk c o -> tbnamed nm c.
  Proof.
    unfold tbnamed. induction c as [v|m|e k IH|name t k IHt IH|h k IH] using comp_val_ind; cbn; intros o Hb; auto.
    - destruct Hb as [_ Hk]. destruct e; eauto.
    - destruct Hb as (Ht & b & -> & _ & _ & Hk). split; [eauto|]. split; [apply (tbn_ucode _ top), Ht|]. eauto.
    - destruct Hb as (b & o' & _ & Hs & m & Hn). intros [v|]; [eauto|rewrite Hn; exact I].
  Qed.

  Lemma blk_builders acts : forall g : list dval -> comp val,
    blk0 (g (map (fun b => DBuilder (child_name nm b)) acts)) ->
    blk0 (bind (mapM (fun b => thread_builder (Z.of_nat b)) acts) g).
  Proof.
    induction acts as [|b r IH]; intros g Hg; cbn [mapM map] in *; [exact Hg|].
    unfold thread_builder at 1. cbn [bind]. split; [reflexivity|].
    rewrite tb_name_child_name. cbn [bind]. rewrite bind_assoc. cbn [bind].
    apply (IH (fun ys => g (DBuilder (child_name nm b) :: ys))). exact Hg.
  Qed.

  Lemma blk_join_all K (HK : forall vs, blk0 (K vs)) (o : opens) : forall acc,
    blk (join_all_acc unwrap_post (map fst o) acc K) o.
  Proof.
    induction o as [|[h b] o IH]; intros acc; cbn [map fst join_all_acc]; [apply HK|].
    cbn [blk]. exists b, o. split; [reflexivity|]. split.
    - intros v. cbn. apply IH.
    - exists P_UNWRAP. reflexivity.
  Qed.

  Lemma blk_spawn_all (ch : nat -> comp val) (kont : list nat -> comp val) (acts : list nat) : forall acc o,
    map fst o = rev acc -> (forall hb b, In hb o -> In b acts -> snd hb <> b) ->
    NoDup acts -> Forall (fun b => b < n) acts -> (forall b, ucode top (ch b)) ->
    (forall o2, blk (kont (map fst (o ++ o2))) (o ++ o2)) ->
    blk (spawn_all_acc (combine (map (child_name nm) acts) (map ch acts)) acc kont) o.
  Proof.
    induction acts as [|b r IH]; intros acc o Ho Hlt Hs Hn Hch Hk; cbn [map combine spawn_all_acc].
    - specialize (Hk []). rewrite app_nil_r, Ho in Hk. exact Hk.
    - cbn [fst snd blk]. inversion Hs as [|? ? Hnin Hs']; subst. inversion Hn as [|? ? Hb Hn']; subst.
      split; [apply Hch|]. exists b. split; [reflexivity|]. split; [exact Hb|]. split.
      { intros hb Hin. apply (Hlt hb b Hin). now left. }
      intros h. apply IH; auto.
      + rewrite map_app, Ho. reflexivity.
      + intros hb b' Hin Hb'. apply in_app_iff in Hin. destruct Hin as [Hin|[<-|[]]].
        * apply (Hlt hb b' Hin). now right.
        * cbn. intros ->. exact (Hnin Hb').
      + intros o2. rewrite <- app_assoc. apply Hk.
  Qed.

  Definition okacts (acts : list nat) : Prop := NoDup acts /\ Forall (fun b => b < n) acts.

  Lemma blk_thread_step {C} acts (caps : comp C) (child : C -> nat -> comp dval) (f : dval -> comp val) :
    okacts acts -> ucode top caps -> (forall cp b, ucode dval_ok (child cp b)) ->
    (forall d, dval_ok d -> blk0 (f d)) ->
    blk0 (bind (std_thread_step acts caps (fun cp b => let! d := child cp b in to_val d)) f).
  Proof.
    intros [Hs Hn] Hcaps Hchild Hf. unfold std_thread_step. rewrite bind_assoc.
    apply blk_builders. rewrite bind_assoc. apply (blk0_ucode top caps); [exact Hcaps|]. intros cp _.
    rewrite <- (map_map (child_name nm) DBuilder).
    rewrite std_spawn_join_is_ublock'.
    unfold ublock, gblock, blk0. apply blk_spawn_all; auto.
    - intros b. apply (cls_val _ (code_call_class _ ucode_class) dval_ok), Hchild.
    - intros o2. cbn [app]. apply blk_join_all. intros vs. apply Hf. exact I.
  Qed.

  Lemma blk_block_start {B} (post : option val -> B + N) K nts o :
    nts <> [] -> blk (gblock post nts K) o -> o = [].
  Proof.
    intros Hne Hb. set (hmax := S (list_max (map fst o))).
    assert (Hgen : forall nts acc o2, (nts <> [] \/ acc <> []) -> Forall (fun h => h = hmax) acc ->
                     map fst o2 = rev acc ->
                     blk (spawn_all_acc nts acc (fun hs => join_all_acc post hs [] K)) (o ++ o2) -> o = []).
    { clear Hne Hb nts. induction nts as [|nt r IH]; intros acc o2 Hne Hacc Ho2 Hb; cbn [spawn_all_acc] in Hb.
      - destruct Hne as [Hne|Hne]; [congruence|].
        destruct o2 as [|[h1 b1] o2]; cbn [map] in Ho2.
        { destruct acc as [|a acc]; [congruence|]. cbn in Ho2. symmetry in Ho2. apply app_eq_nil in Ho2.
          destruct Ho2; discriminate. }
        assert (Hh1 : h1 = hmax).
        { rewrite Forall_forall in Hacc. apply Hacc. apply in_rev. rewrite <- Ho2. now left. }
        rewrite <- Ho2 in Hb. cbn [join_all_acc fst blk] in Hb. destruct Hb as (b & o' & E & _).
        destruct o as [|[h0 b0] o]; [reflexivity|]. cbn in E. injection E as E _ _. exfalso.
        assert (Hle : h0 <= list_max (map fst ((h0, b0) :: o))).
        { cbn. apply Nat.le_max_l. }
        unfold hmax in Hh1. lia.
      - cbn [blk] in Hb. destruct Hb as (_ & b & _ & _ & _ & Hk). specialize (Hk hmax).
        rewrite <- app_assoc in Hk. apply (IH (hmax :: acc) (o2 ++ [(hmax, b)])); auto.
        + right. discriminate.
        + rewrite map_app, Ho2. reflexivity. }
    apply (Hgen nts [] []); auto. now rewrite app_nil_r.
  Qed.
End Blk.

Lemma spec_spawn_blk msem dotsem callsem awaitsem (HU : user_code msem dotsem callsem awaitsem)
      (p : sprog) (Hsync : is_async (sp_cfg p) = false) (nm : option string) :
  blk nm (List.length (sp_trees p))
      (let! d := spec msem dotsem callsem awaitsem (with_spawn true p) in to_val d) [].
Proof.
  apply (cps_program (blk0 nm (List.length (sp_trees p)))) with (okacts := okacts (List.length (sp_trees p))); auto.
  - intros v. reflexivity.
  - intros m. exact I.
  - intros e k He Hk. split; [reflexivity|]. destruct e; try congruence; exact Hk.
  - intros C acts caps child f. apply blk_thread_step.
  - intros k. split; [apply actives_NoDup|apply actives_lt].
Qed.

Section Structure.
  Variable W : Type.
  Variables (msem : string -> option (list operand) -> dval -> list dval -> comp dval)
            (dotsem : operand -> list (string * option val) -> dval -> comp dval)
            (callsem : val -> list dval -> comp dval) (awaitsem : val -> comp val).
  Hypothesis HU : user_code msem dotsem callsem awaitsem.
  Variable p : sprog.
  Hypothesis Hsync : is_async (sp_cfg p) = false.
  Variables (nm : option string) (w : W).

  Let prog : comp val := let! d := spec msem dotsem callsem awaitsem (with_spawn true p) in to_val d.

  Lemma spec_spawn_hb : hb prog.
  Proof.
    apply (cps_program hb hb_ret hb_panic (fun e k _ => hb_vis e k) top); auto.
    intros C acts caps child f _. apply hb_thread_step.
  Qed.

  Theorem spec_spawn_init_hb : hb_state W (init nm prog w).
  Proof. apply hb_init, spec_spawn_hb. Qed.

  Theorem spec_spawn_init_tb : tb_state W (init nm prog w) /\ named_ok W (init nm prog w).
  Proof. apply tb_init, (blk_tbnamed nm (List.length (sp_trees p)) prog []), spec_spawn_blk; assumption. Qed.

  Theorem spec_spawn_init_ws : ws_state W (init nm prog w).
  Proof. apply ws_init, spec_spawn_ws; assumption. Qed.
End Structure.

Print Assumptions spec_spawn_init_hb.
Print Assumptions spec_spawn_init_tb.
Print Assumptions spec_spawn_init_ws.

(* the state theorems of ThreadsProps.v apply to every state the macro reaches
   (`returned_means_descendants_returned`, `nested_barrier`, `nested_thread_name`,
   `caller_never_stuck`, `fair_schedule_finishes`, ...) *)
Theorem spec_spawn_reachable_structured :
  forall (W : Type) (handle : option string -> ev -> W -> option val * W)
         msem dotsem callsem awaitsem (p : sprog) (nm : option string) (w : W) (sched : list nat),
    user_code msem dotsem callsem awaitsem ->
    is_async (sp_cfg p) = false ->
    let s := run_thr handle sched
               (init nm (let! d := spec msem dotsem callsem awaitsem (with_spawn true p) in to_val d) w) in
    hb_state W s /\ named_ok W s /\ ws_state W s.
Proof.
  intros W handle msem dotsem callsem awaitsem p nm w sched HU Hsync s. split; [|split].
  - apply hb_reachable. apply spec_spawn_init_hb; assumption.
  - destruct (spec_spawn_init_tb W msem dotsem callsem awaitsem HU p Hsync nm w) as [Htb Hok].
    apply thread_names_all_schedules; assumption.
  - apply ws_reachable. apply spec_spawn_init_ws; assumption.
Qed.

Section Machine.
  Variable W : Type.
  Variable handle : option string -> ev -> W -> option val * W.   (* an ARBITRARY world *)
  Variable nm : option string.
  Variable n : nat.
  Notation state := (Threads.state W).
  Notation thr := (thr_of W).
  Notation fin := (fin W).
  Notation unfinished := (unfinished W).
  Notation step_rel := (step_rel W handle).

  Definition returned (s : state) (x : nat) : Prop := exists v, fin s x (Some v).

  Definition kid_ok (s : state) (o : opens) (x : nat) (th : thread) : Prop :=
    ucode top (th_code th) /\ th_parent th = Some 0 /\
    exists b, b < n /\ th_name th = Some (child_name nm b) /\ (In (x, b) o \/ returned s x).

  Record cinv (s : state) (o : opens) : Prop := {
    ci_caller : exists th0, thr s 0 = Some th0 /\ th_name th0 = nm /\ blk nm n (th_code th0) o;
    ci_distinct : distinct o;
    ci_open : forall x b, In (x, b) o -> b < n;
    ci_kids : forall x th, x <> 0 -> thr s x = Some th -> kid_ok s o x th
  }.

  Lemma returned_step i s s' x : step_rel i s s' -> returned s x -> returned s' x.
  Proof. intros Hst [v Hv]. exists v. eapply step_fin_stable; eauto. Qed.

  Lemma cinv_step i s s' o : cinv s o -> step_rel i s s' -> exists o', cinv s' o'.
  Proof.
    intros [(th0 & H0 & Hnm & Hblk) Hdis Hopen Hkids] Hst.
    pose proof (nth_error_Some_lt _ _ _ H0) as Hpos.
    pose proof (fun x => returned_step i s s' x Hst) as Hret.
    (* a branch thread of s is one of s' (if it is the one that moves, it moves by an event), whatever
       o becomes, as long as a thread that is no longer open has returned *)
    assert (Hold : forall o', (forall x b, In (x, b) o -> In (x, b) o' \/ returned s' x) ->
              forall x thx, x <> 0 -> thr s' x = Some thx -> x < List.length (pool s) -> kid_ok s' o' x thx).
    { intros o' Ho x thx Hx Hthx Hlt. destruct (thr_exists W s x Hlt) as [th Hth].
      destruct (Hkids _ _ Hx Hth) as (Hu & Hp & b & Hb & Hn & Hor).
      destruct (step_thr_stable W handle i s s' x th Hst Hth) as (th' & E & En & Ep & _ & _).
      destruct (thread_code_invariant W handle (ucode top) i s s' x th ucode_tstep Hst Hth Hu) as (th'' & E' & Hu').
      rewrite Hthx in E, E'. injection E as <-. injection E' as <-.
      split; [exact Hu'|]. split; [congruence|]. exists b. split; [exact Hb|]. split; [congruence|].
      destruct Hor as [Hin|Hr]; [apply Ho, Hin|right; apply Hret, Hr]. }
    assert (Hsame : List.length (pool s') = List.length (pool s) ->
              forall o', (forall x b, In (x, b) o -> In (x, b) o' \/ returned s' x) ->
              forall x thx, x <> 0 -> thr s' x = Some thx -> kid_ok s' o' x thx).
    { intros El o' Ho x thx Hx Hthx. apply (Hold o' Ho x thx Hx Hthx). rewrite <- El. eapply nth_error_Some_lt, Hthx. }
    destruct (Nat.eq_dec i 0) as [->|Hi].
    -
      pose proof (step_inv W handle 0 s s' th0 Hst H0) as Hinv.
      destruct (th_code th0) as [v|m|e k|name t k|j k]; cbn [blk] in Hblk; try contradiction.
      + (* an event: no thread is open *)
        destruct Hinv as (r & w' & Ha & Es). destruct (thr_upd W s s' 0 th0 _ (f_equal (@pool W) Es) H0) as [E0 El].
        destruct Hblk as [-> Hk]. exists []. split.
        * exists (set_code th0 (vis_next k r)). split; [exact E0|]. split; [exact Hnm|]. cbn [set_code th_code].
          destruct e; cbn in Ha; try (destruct r; cbn; [apply Hk|exact I]).
          injection Ha as <- _. cbn. rewrite Hnm. exact Hk.
        * constructor.
        * intros x b [].
        * apply (Hsame El). intros x b [].
      + (* a spawn: the new thread is the youngest open one *)
        destruct (thr_upd_app W s s' 0 th0 _ _ (f_equal (@pool W) Hinv) H0) as (E0 & Enew & El).
        destruct Hblk as (Ht & b & -> & Hb & Hlt & Hk).
        exists (o ++ [(List.length (pool s), b)]). split.
        * exists (set_code th0 (k (List.length (pool s)))). split; [exact E0|]. split; [exact Hnm|]. apply Hk.
        * apply distinct_snoc; assumption.
        * intros x b' Hin. apply in_app_iff in Hin. destruct Hin as [Hin|[E|[]]].
          -- apply (Hopen _ _ Hin).
          -- injection E as <- <-. exact Hb.
        * intros x thx Hx Hthx.
          destruct (step_thr_inv W handle 0 s s' x thx Hst Hthx) as [(th & Hth & _)|[-> _]].
          -- apply (Hold (o ++ [(List.length (pool s), b)])); [|exact Hx|exact Hthx|eapply nth_error_Some_lt, Hth].
             intros y b' Hin. left. apply in_or_app. left. exact Hin.
          -- rewrite Enew in Hthx. injection Hthx as <-. split; [exact Ht|]. split; [reflexivity|].
             exists b. split; [exact Hb|]. split; [reflexivity|]. left. apply in_or_app. right. apply in_eq.
      + (* a join: of the oldest open thread *)
        destruct Hinv as (r & Hfj & Es). destruct (thr_upd W s s' 0 th0 _ (f_equal (@pool W) Es) H0) as [E0 El].
        destruct Hblk as (b & o' & -> & Hsome & (m & Hnone)).
        destruct r as [v|].
        * exists o'. split.
          -- exists (set_code th0 (k (Some v))). split; [exact E0|]. split; [exact Hnm|]. apply Hsome.
          -- unfold distinct in *. cbn [map] in Hdis. inversion Hdis; assumption.
          -- intros x b' Hin. apply (Hopen x), in_cons, Hin.
          -- apply (Hsame El). intros x b' [E|Hin]; [|left; exact Hin].
             injection E as <- <-. right. apply Hret. exists v. exact Hfj.
        * exists ((j, b) :: o'). split.
          -- exists (set_code th0 (k None)). split; [exact E0|]. split; [exact Hnm|]. cbn [set_code th_code].
             rewrite Hnone. exact I.
          -- exact Hdis.
          -- exact Hopen.
          -- apply (Hsame El). intros x b' Hin. left. exact Hin.
    - (* a branch thread: it can only make an event *)
      destruct (step_unfinished W handle i s s' Hst) as (th & Hth & _).
      destruct (Hkids _ _ Hi Hth) as (Hu & _).
      pose proof (step_inv W handle i s s' th Hst Hth) as Hinv.
      destruct (th_code th) as [v|m|e k|name t k|j k]; cbn in Hu; try contradiction.
      destruct Hinv as (r & w' & _ & Es). destruct (thr_upd W s s' i th _ (f_equal (@pool W) Es) Hth) as [_ El].
      exists o. split.
      + exists th0. rewrite (step_other W handle i s s' 0 Hst (not_eq_sym Hi) Hpos). auto.
      + exact Hdis.
      + exact Hopen.
      + apply (Hsame El). intros x b' Hin. left. exact Hin.
  Qed.

  Lemma cinv_init c w : blk nm n c [] -> cinv (init nm c w) [].
  Proof.
    intros Hc. split.
    - exists (mkThread nm None c). cbn. auto.
    - constructor.
    - intros x b [].
    - intros [|[|x]] th Hx Hth; unfold thr_of in Hth; cbn in Hth; [congruence|discriminate|discriminate].
  Qed.

  Lemma cinv_reachable sched s : (exists o, cinv s o) -> exists o, cinv (run_thr handle sched s) o.
  Proof.
    apply (run_thr_invariant W handle (fun s => exists o, cinv s o)).
    intros i s1 s2 [o Ho] Hst. eapply cinv_step; eauto.
  Qed.

  Definition others_returned (s : state) : Prop :=
    forall x th, x <> 0 -> thr s x = Some th -> returned s x.

  Lemma cinv_none_open s : cinv s [] -> others_returned s.
  Proof.
    intros [_ _ _ Hkids] x th Hx Hth. destruct (Hkids _ _ Hx Hth) as (_ & _ & b & _ & _ & [[]|Hr]). exact Hr.
  Qed.

  Lemma cinv_caller_vis s o th e k : cinv s o -> thr s 0 = Some th -> th_code th = Vis e k -> o = [].
  Proof.
    intros [(th0 & H0 & _ & Hblk) _ _ _] Hth Hc. rewrite Hth in H0. injection H0 as <-.
    rewrite Hc in Hblk. apply Hblk.
  Qed.

  Lemma cinv_step_trace i s s' o : cinv s o -> step_rel i s s' ->
    trace s' = trace s \/ exists e, trace s' = (i, e) :: trace s /\ (i = 0 -> o = []).
  Proof.
    intros Hinv [th e k r w' Hth Hc Ha ->|th name t k Hth Hc ->|th j k th' r Hth Hc Hth' Ho ->]; cbn [trace]; auto.
    right. exists e. split; [reflexivity|]. intros ->. eapply cinv_caller_vis; eauto.
  Qed.

  Lemma cinv_not_returned_open s o x th :
    cinv s o -> x <> 0 -> thr s x = Some th -> ~ returned s x ->
    exists b, b < n /\ th_name th = Some (child_name nm b) /\ In (x, b) o.
  Proof.
    intros [_ _ _ Hkids] Hx Hth Hnr. destruct (Hkids _ _ Hx Hth) as (_ & _ & b & Hb & Hn & [Hin|Hr]); [eauto|contradiction].
  Qed.

  Lemma unfinished_not_returned s x : unfinished s x -> ~ returned s x.
  Proof. intros Hu [v Hv]. eapply fin_not_unfinished; eauto. Qed.
End Machine.

Section Whole.
  Variable W : Type.
  Variable handle : option string -> ev -> W -> option val * W.   (* an ARBITRARY, stateful world *)
  Variables (msem : string -> option (list operand) -> dval -> list dval -> comp dval)
            (dotsem : operand -> list (string * option val) -> dval -> comp dval)
            (callsem : val -> list dval -> comp dval) (awaitsem : val -> comp val).
  Hypothesis HU : user_code msem dotsem callsem awaitsem.
  Variable p : sprog.
  Hypothesis Hsync : is_async (sp_cfg p) = false.
  Variables (nm : option string) (w : W).

  Notation prog := (let! d := spec msem dotsem callsem awaitsem (with_spawn true p) in to_val d).
  Notation s0 := (init nm prog w).
  Notation n := (List.length (sp_trees p)).
  Notation run := (run_thr handle).
  Notation thr := (thr_of W).
  Notation fin := (fin W).
  Notation unfinished := (unfinished W).
  Notation cinv := (cinv W nm n).

  Lemma spawn_macro_cinv sched : exists o, cinv (run sched s0) o.
  Proof.
    apply cinv_reachable. exists []. apply cinv_init. apply spec_spawn_blk; assumption.
  Qed.

  (** ** C03, the barrier between steps *)

  (* STATE FORM.  In every reachable state: whenever the caller's next machine step is
       (i)  a `Vis` - a user expression evaluated on the caller: the handler expression, a capture
            block, a step with a single active branch, the awaits of the final transposition, the
            handler call; also `thread::current().name()` of a builder, the very first thing a
            step with several branches does -, or the caller has returned, or
       (ii) the `Spawn` that starts a block: the caller's code is a whole spawn-all/join-all block
            `gblock post nts K` none of whose threads has been spawned
            (`ThreadsProps.std_spawn_join_is_ublock'`: that is what follows a step's captures),
     EVERY other thread of the pool has finished - with a value.
     Why this is "no expression of step k+1 begins before every branch has finished step k": an
     expression of step k+1 is evaluated either by the caller (a `Vis` of the caller: (i)) or by a
     thread of step k+1, which is spawned after that step's first `Spawn` (ii), which comes after
     that step's builders (i); at each of these points every thread of every earlier step has
     returned, and "finished" is for ever (`ThreadsProps.step_fin_stable`). *)
  Theorem spawn_macro_steps_never_overlap sched :
    let s := run sched s0 in
    forall th0, thr s 0 = Some th0 ->
      (exists e k, th_code th0 = Vis e k) \/ (exists v, th_code th0 = Ret v) \/
      (exists B (post : option val -> B + N) nts K, nts <> [] /\ th_code th0 = gblock post nts K) ->
      others_returned W s.
  Proof.
    intros s th0 H0 Hhead. destruct (spawn_macro_cinv sched) as [o Hinv]. fold s in Hinv.
    assert (o = []) as ->; [|eapply cinv_none_open; eauto].
    destruct Hinv as [(th0' & H0' & _ & Hblk) _ _ _]. rewrite H0 in H0'. injection H0' as <-.
    destruct Hhead as [(e & k & Hc)|[(v & Hc)|(B & post & nts & K & Hne & Hc)]]; rewrite Hc in Hblk.
    - apply Hblk.
    - exact Hblk.
    - eapply blk_block_start; eauto.
  Qed.

  (* conversely: while some branch thread is unfinished the caller is inside a block (its head is
     a `Spawn` or a `Join`), or it has panicked *)
  Corollary spawn_macro_running_thread_blocks_caller sched x :
    let s := run sched s0 in
    x <> 0 -> unfinished s x ->
    exists th0, thr s 0 = Some th0 /\
      ((exists name t k, th_code th0 = Spawn name t k) \/ (exists h k, th_code th0 = Join h k) \/
       (exists m, th_code th0 = Panic m)).
  Proof.
    intros s Hx Hu. destruct (spawn_macro_cinv sched) as [o Hinv]. fold s in Hinv.
    destruct (ci_caller _ _ _ _ _ Hinv) as (th0 & H0 & _ & _). exists th0. split; [exact H0|].
    pose proof (spawn_macro_steps_never_overlap sched th0 H0) as Hbar. cbv zeta in Hbar. fold s in Hbar.
    assert (Hidle : others_returned W s -> False).
    { intros Hret. apply (unfinished_not_returned W s x Hu). destruct Hu as (th & Hth & _). exact (Hret x th Hx Hth). }
    destruct (th_code th0) as [v|m|e k|name t k|h k].
    - exfalso. apply Hidle, Hbar. right. left. exists v. reflexivity.
    - right. right. exists m. reflexivity.
    - exfalso. apply Hidle, Hbar. left. exists e, k. reflexivity.
    - left. exists name, t, k. reflexivity.
    - right. left. exists h, k. reflexivity.
  Qed.

  (* TRACE FORM (the trace is most recent first).  No branch thread makes events on both sides of an
     event of the caller: wherever the trace is cut at an entry of the caller, the threads with an
     entry in the older part t1 have no entry in the more recent part t2 (and they have returned).
     Every step with several branches begins with caller events (its builders), so the entries of
     the threads of step k' > k are all more recent than every entry of every thread of step k, and
     the caller's entries between the two blocks lie in between. *)
  Theorem spawn_macro_steps_never_overlap_trace sched :
    let s := run sched s0 in
    forall t2 e t1, trace s = t2 ++ (0, e) :: t1 ->
    forall x, x <> 0 -> In x (map fst t1) -> ~ In x (map fst t2) /\ returned W s x.
  Proof.
    cbn zeta.
    cut ((fun s => (exists o, cinv s o) /\ (forall y, In y (trace s) -> fst y < List.length (pool s)) /\
                   forall t2 e t1, trace s = t2 ++ (0, e) :: t1 ->
                   forall x, x <> 0 -> In x (map fst t1) -> ~ In x (map fst t2) /\ returned W s x)
           (run sched s0)).
    { intros (_ & _ & H). exact H. }
    apply run_thr_invariant.
    2:{ split; [exists []; apply cinv_init, spec_spawn_blk; assumption|]. split; [intros y []|].
        intros [|y t2] e t1 E; discriminate. }
    intros i s s' ([o Hinv] & Hlt & Hsplit) Hst.
    pose proof (step_length _ _ _ _ _ Hst) as Hlen.
    pose proof (fun x => returned_step W handle i s s' x Hst) as Hret.
    pose proof (step_unfinished _ _ _ _ _ Hst) as Hun. pose proof Hun as (thi & Hthi & _).
    split; [eapply cinv_step; eauto|].
    destruct (cinv_step_trace W handle nm n i s s' o Hinv Hst) as [E|(e & E & Hcaller)]; rewrite E.
    { split; [intros y Hy; specialize (Hlt y Hy); lia|].
      intros t2 e t1 Ht x Hx Hin. destruct (Hsplit t2 e t1 Ht x Hx Hin). auto. }
    split.
    { intros y [<-|Hy]; cbn; [apply nth_error_Some_lt in Hthi|specialize (Hlt y Hy)]; lia. }
    intros [|y t2] e0 t1 E' x Hx Hin; cbn [app] in E'.
    - (* the new entry is the caller's: no thread is open *)
      injection E' as -> _ <-. split; [intros []|]. apply Hret.
      rewrite (Hcaller eq_refl) in Hinv.
      apply in_map_iff in Hin. destruct Hin as (y & <- & Hy). specialize (Hlt y Hy).
      destruct (thr_exists W s (fst y) Hlt) as [thx Hthx].
      eapply cinv_none_open; eauto.
    - injection E' as <- E'. destruct (Hsplit t2 e0 t1 E' x Hx Hin) as [Hnin Hr].
      split; [|auto]. cbn [map fst]. intros [<-|Hin']; [|contradiction].
      eapply unfinished_not_returned; eauto.
  Qed.

  (** ** C18, a panic of a branch reaches the caller *)

  (* Once a branch thread has ended in a panic (state s), in every later state s2: the caller has
     made NO event since s (no user expression of the rest of this step, of a later step or of the
     handler is ever evaluated on it); if it is finished, it is finished with a panic; and it is
     never left blocked: while it is unfinished some thread can move (hence, `ThreadsProps.
     fair_schedule_finishes` / `SpecSpawn.spawn_macro_fair_run_finishes`, a fair run ends with the
     caller panicked). *)
  Theorem spawn_macro_panic_reaches_caller sched i :
    let s := run sched s0 in
    i <> 0 -> fin s i None ->
    forall sched2, let s2 := run (sched ++ sched2) s0 in
      (exists tnew, trace s2 = tnew ++ trace s /\ forall y, In y tnew -> fst y <> 0) /\
      (forall r, fin s2 0 r -> r = None) /\
      (thr_finished 0 s2 = true -> result_of 0 s2 = Some None) /\
      (unfinished s2 0 -> exists j, enabled handle j s2 = true).
  Proof.
    intros s Hi Hpan sched2 s2.
    assert (Hopen : forall s' o, cinv s' o -> fin s' i None -> o <> []).
    { intros s' o Hinv (th & Hth & Ho).
      destruct (cinv_not_returned_open W nm n s' o i th Hinv Hi Hth) as (b & _ & _ & Hin).
      - intros [v Hv]. assert (E : None = Some v) by (apply (fin_inj W s' i None (Some v)); [exists th; auto|exact Hv]). discriminate.
      - intros ->. destruct Hin. }
    assert (HK : (fun s' => (exists o, cinv s' o) /\ fin s' i None /\
                   exists tnew, trace s' = tnew ++ trace s /\ forall y, In y tnew -> fst y <> 0) s2).
    { unfold s2. rewrite run_thr_app. fold s. apply run_thr_invariant.
      2:{ split; [apply spawn_macro_cinv|]. split; [exact Hpan|]. exists []. split; [reflexivity|intros y []]. }
      intros j s1 s1' ([o Hinv] & Hp & tnew & Htr & Hq) Hst.
      split; [eapply cinv_step; eauto|]. split; [eapply step_fin_stable; eauto|].
      destruct (cinv_step_trace W handle nm n j s1 s1' o Hinv Hst) as [E|(e & E & Hcaller)]; rewrite E, Htr.
      - exists tnew. auto.
      - (* an event of the caller would mean that no thread is open *)
        exists ((j, e) :: tnew). split; [reflexivity|]. intros y [<-|Hy]; [|auto].
        intros Hj. apply (Hopen s1 o Hinv Hp), Hcaller, Hj. }
    destruct HK as ([o Hinv] & Hp2 & Hq). pose proof (Hopen s2 o Hinv Hp2) as Hne.
    destruct (ci_caller _ _ _ _ _ Hinv) as (th0 & H0 & _ & Hblk).
    split; [exact Hq|]. split; [|split].
    - intros r (th & Hth & Ho). rewrite H0 in Hth. injection Hth as <-.
      destruct (th_code th0); cbn in Ho, Hblk; try discriminate; [contradiction|congruence].
    - unfold thr_finished, result_of. unfold thr_of in H0. rewrite H0.
      destruct (th_code th0); cbn in *; try discriminate; [contradiction|reflexivity].
    - apply (caller_never_stuck W handle s0 0). apply spec_spawn_init_ws; assumption.
  Qed.

  (** ** C08, thread names *)

  (* In every reachable state: every thread other than the caller was spawned by the caller and is
     named `child_name nm b` (= "<caller>_join_<b>", "join_<b>" for an unnamed caller) for a branch
     index b < number of branches; two unfinished threads never carry the same name; and the
     number of unfinished branch threads never exceeds the number of branches. *)
  Theorem spawn_macro_thread_names sched :
    let s := run sched s0 in
    (forall x th, x <> 0 -> thr s x = Some th ->
       th_parent th = Some 0 /\ exists b, b < n /\ th_name th = Some (child_name nm b)) /\
    (forall x y thx thy, x <> 0 -> y <> 0 -> x <> y -> thr s x = Some thx -> thr s y = Some thy ->
       unfinished s x -> unfinished s y -> th_name thx <> th_name thy) /\
    List.length (filter (unfin_b W s) (seq 1 (List.length (pool s) - 1))) <= n.
  Proof.
    intros s. destruct (spawn_macro_cinv sched) as [o Hinv]. fold s in Hinv. split; [|split].
    - intros x th Hx Hth. destruct (ci_kids _ _ _ _ _ Hinv x th Hx Hth) as (_ & Hp & b & Hb & Hn & _). eauto.
    - intros x y thx thy Hx Hy Hxy Hthx Hthy Hux Huy E.
      destruct (cinv_not_returned_open W nm n s o x thx Hinv Hx Hthx (unfinished_not_returned W s x Hux))
        as (bx & _ & Hnx & Hinx).
      destruct (cinv_not_returned_open W nm n s o y thy Hinv Hy Hthy (unfinished_not_returned W s y Huy))
        as (b_y & _ & Hny & Hiny).
      rewrite Hnx, Hny in E. injection E as E. apply child_name_inj in E. subst b_y.
      apply Hxy. eapply distinct_same_branch; eauto. apply (ci_distinct _ _ _ _ _ Hinv).
    - transitivity (List.length (map fst o)).
      + apply NoDup_incl_length; [apply NoDup_filter, seq_NoDup|].
        intros x Hin. apply filter_In in Hin. destruct Hin as [Hseq Hu]. apply in_seq in Hseq.
        apply unfin_b_true in Hu. pose proof Hu as (th & Hth & _).
        destruct (cinv_not_returned_open W nm n s o x th Hinv) as (b & _ & _ & Hin); [lia|exact Hth| |].
        * apply unfinished_not_returned, Hu.
        * apply (in_map fst) in Hin. exact Hin.
      + rewrite map_length. apply distinct_length; [apply (ci_distinct _ _ _ _ _ Hinv)|].
        intros [x b] Hin. apply (ci_open _ _ _ _ _ Hinv x b Hin).
  Qed.
End Whole.

Print Assumptions spawn_macro_steps_never_overlap.
Print Assumptions spawn_macro_steps_never_overlap_trace.
Print Assumptions spawn_macro_panic_reaches_caller.
Print Assumptions spawn_macro_thread_names.

(* C06 for every sync try kind q (`try_join!` as well as `try_join_spawn!`): `steps q (S fuel) k st`
   is the step followed by `after_sync` (`SpecCode.steps_sync`).  Once a non-final step has delivered
   its result sr and some branch failed, what is left of the steps is `Ret d`, d the value of the
   lowest-numbered failing branch: no `Vis`, no `Spawn` (`SpecProps.per_step_check`).  A `map` /
   `and_then` handler is then not called (`SpecProps.map_and_then_skip_failure`). *)
Lemma try_abort_sync msem dotsem callsem awaitsem (q : sprog) fuel k st sr ds d :
  is_async (sp_cfg q) = false -> is_try (sp_cfg q) = true -> fuel <> 0 ->
  extract (actives q k) sr = Ret ds -> all_classified ds = true -> first_fail_list ds = Some d ->
  steps msem dotsem callsem awaitsem q (S fuel) k st =
    (let! sr := step_result msem dotsem callsem awaitsem q k st in
     after_sync awaitsem q (steps msem dotsem callsem awaitsem q fuel (S k)) (Nat.eqb fuel 0) k st sr) /\
  after_sync awaitsem q (steps msem dotsem callsem awaitsem q fuel (S k)) (Nat.eqb fuel 0) k st sr = Ret d /\
  forall hk hv fam wv, d = DV wv -> failf fam wv = true -> hk = HMap \/ hk = HAndThen ->
    (let! rs := after_sync awaitsem q (steps msem dotsem callsem awaitsem q fuel (S k)) (Nat.eqb fuel 0) k st sr in
     handle_results callsem awaitsem q (Some (hk, hv)) rs) = Ret d.
Proof.
  intros Hsync Htry Hfuel Hex Hcl Hff.
  assert (Hafter : after_sync awaitsem q (steps msem dotsem callsem awaitsem q fuel (S k)) (Nat.eqb fuel 0) k st sr = Ret d).
  { unfold after_sync. rewrite Hex. cbn [bind]. rewrite Htry. cbn [negb].
    apply Nat.eqb_neq in Hfuel. rewrite Hfuel.
    rewrite per_step_check, Hcl, Hff. reflexivity. }
  split; [apply (steps_sync msem dotsem callsem awaitsem q fuel k st Hsync)|]. split; [exact Hafter|].
  intros hk hv fam wv -> Hfail Hhk. rewrite Hafter. cbn [bind].
  apply (map_and_then_skip_failure callsem awaitsem q hk hv fam wv Hsync Hfail Hhk).
Qed.

(* Stateless world (`SpecSpawn.stateless`): by `spawn_macro_agrees_with_plain` the caller's outcome
   under EVERY schedule is `eval` of the plain program (`try_join!`), so what SpecProps.v /
   SpecPositions.v prove about `spec` of the sequential try kind holds of the thread kind's run.
   Properties stated with `leaves` are transported with `SpecSpawn.spawn_value_post` (as
   `spawn_result_positions` is), equations about `steps` (`try_steps_sync`, `transpose_first_failure`) with `eval_bind`. *)
Section TrySpawn.
  Import RefineCorollaries SpecPositions.
  Variable h : ev -> option val.
  Variable W : Type.
  Variable handle : option string -> ev -> W -> option val * W.
  Hypothesis Hw : stateless h W handle.
  Variables (msem : string -> option (list operand) -> dval -> list dval -> comp dval)
            (dotsem : operand -> list (string * option val) -> dval -> comp dval)
            (callsem : val -> list dval -> comp dval) (awaitsem : val -> comp val).
  Hypothesis HU : user_code msem dotsem callsem awaitsem.
  Variable p : sprog.
  Hypothesis Hsync : is_async (sp_cfg p) = false.
  Variables (nm : option string) (w : W).

  Notation ps := (with_spawn true p).
  Notation pp := (with_spawn false p).
  Notation spawn_prog := (let! d := spec msem dotsem callsem awaitsem ps in to_val d).
  Notation plain_prog := (let! d := spec msem dotsem callsem awaitsem pp in to_val d).
  Notation run sched := (run_thr handle sched (init nm spawn_prog w)).
  Notation n := (List.length (sp_trees p)).
  Notation Steps := (steps msem dotsem callsem awaitsem).
  Notation Step_result := (step_result msem dotsem callsem awaitsem).
  Notation st0 := (init_state p).

  (** ** C04/C05: Some/Ok of the tuple of payloads, or a failing value, unchanged *)

  (* `SpecPositions.result_positions_try_sync_spec` for the thread kind.  T is an arbitrary
     description of what the chains compute (`T b k d`: d is what branch b's chain produced in step
     k), values of one family (Option: fam = true, Result: fam = false).  Under every schedule the
     value v the caller gets satisfies `TryResultOK`:
       - if v = Some/Ok x then x is the tuple (the bare payload for one branch) whose position b is
         the PAYLOAD of a value branch b's chain produced in its LAST step (all branches succeeded);
       - if v is a failure (None / Err e) it is, unchanged, a value some branch's chain produced. *)
  Theorem try_spawn_result_positions (T : nat -> nat -> dval -> Prop) (fam : bool) sched :
    is_try (sp_cfg p) = true -> sp_handler p = None ->
    (forall sn cp k st b, b < n -> k < depth p b -> leaves (chain msem dotsem callsem p sn cp k st b) (T b k)) ->
    (forall b k d, b < n -> k < depth p b -> T b k d -> exists w v, d = DV w /\ wellf fam w v) ->
    (forall b, b < n -> 1 <= depth p b) ->
    forall v, result_of 0 (run sched) = Some (Some v) ->
      TryResultOK p T fam (DV v) /\
      (forall x, v = wrapf fam x -> PayloadsOK p T fam x) /\
      (failf fam v = true -> exists b k, b < n /\ k < depth p b /\ T b k (DV v)).
  Proof.
    intros Htry Hnoh HT Hfam Hdepth v Hres.
    assert (Hok : TryResultOK pp T fam (DV v)).
    { apply (spawn_value_post h W handle msem dotsem callsem awaitsem p nm w sched
                              (fun v => TryResultOK pp T fam (DV v)) v Hw HU Hsync); [|exact Hres].
      apply leaves_bind. eapply leaves_weaken.
      2:{ apply (result_positions_try_sync_spec msem dotsem callsem awaitsem pp T Hdepth fam HT Hfam Hsync eq_refl Htry Hnoh). }
      intros d Hd. apply leaves_to_val. intros v' ->. exact Hd. }
    split; [exact Hok|]. split.
    - intros x ->. exact (try_result_success pp T fam x Hok).
    - intros Hf. exact (try_result_failure pp T fam v Hok Hf).
  Qed.

  (** ** C05: the failure is the lowest-numbered failing branch of the earliest failing step *)

  (* what the active branches of step k produce from the state st: ALL of them, in branch order
     (None: some chain or capture panicked) *)
  Definition step_values (k : nat) (st : Spec.state) : option (list dval) :=
    eval h nm (let! sr := Step_result pp k st in extract (actives p k) sr).

  (* `SpecProps.try_steps_sync`, read by `eval`: every step is run to its end; after a non-final
     step the lowest-numbered failing value (`first_fail_list`: the first failure in branch order)
     IS the result, as it is, and no later step is looked at; the final step transposes *)
  Fixpoint try_outcome (fuel k : nat) (st : Spec.state) : option dval :=
    match fuel with
    | 0 => None
    | S fuel' =>
        match step_values k st with
        | None => None
        | Some ds =>
            let st' := set_all st (actives p k) ds in
            if Nat.eqb fuel' 0 then eval h nm (transpose awaitsem pp (seq 0 n) st')
            else if all_classified ds
                 then match first_fail_list ds with
                      | Some d => Some d
                      | None => try_outcome fuel' (S k) st'
                      end
                 else None
        end
    end.

  Lemma eval_try_steps : is_try (sp_cfg p) = true ->
    forall fuel k st, eval h nm (Steps pp fuel k st) = try_outcome fuel k st.
  Proof.
    intros Htry. induction fuel as [|fuel IH]; intros k st; [reflexivity|].
    rewrite (try_steps_sync msem dotsem callsem awaitsem pp fuel k st Htry Hsync).
    rewrite <- bind_assoc, eval_bind. cbn [try_outcome]. unfold step_values.
    change (actives pp k) with (actives p k). change (sp_trees pp) with (sp_trees p).
    destruct (eval h nm (let! sr := Step_result pp k st in extract (actives p k) sr)) as [ds|]; [|reflexivity].
    cbv zeta. destruct (Nat.eqb fuel 0); [reflexivity|].
    destruct (all_classified ds); [|reflexivity].
    destruct (first_fail_list ds); [reflexivity|apply IH].
  Qed.

  (* under every schedule the caller of `try_join_spawn!` (no handler) ends with that outcome *)
  Theorem try_spawn_first_failure sched :
    is_try (sp_cfg p) = true -> sp_handler p = None ->
    thr_finished 0 (run sched) = true ->
    result_of 0 (run sched) =
      Some (match try_outcome (max_depth p) 0 st0 with Some (DV v) => Some v | _ => None end).
  Proof.
    intros Htry Hnoh Hfin.
    rewrite (spawn_macro_agrees_with_plain h W handle msem dotsem callsem awaitsem p nm w sched Hw HU Hsync Hfin).
    f_equal. rewrite eval_bind.
    rewrite (spec_no_handler_sync msem dotsem callsem awaitsem pp Hsync Hnoh).
    rewrite (eval_try_steps Htry). change (max_depth pp) with (max_depth p). change (init_state pp) with st0.
    destruct (try_outcome (max_depth p) 0 st0) as [d|]; [|reflexivity]. destruct d; reflexivity.
  Qed.

  (* the steps before step k' ran without a failure *)
  Inductive no_failure_until : nat -> nat -> Spec.state -> nat -> nat -> Spec.state -> Prop :=
  | nf_here fuel k st : no_failure_until fuel k st fuel k st
  | nf_step fuel k st ds fuel' k' st' :
      fuel <> 0 -> step_values k st = Some ds -> all_classified ds = true -> first_fail_list ds = None ->
      no_failure_until fuel (S k) (set_all st (actives p k) ds) fuel' k' st' ->
      no_failure_until (S fuel) k st fuel' k' st'.

  (* reading `try_outcome`: the result d comes from the EARLIEST step k' in which a branch failed -
     every earlier step ran to its end without a failure - and is the value of the LOWEST-NUMBERED
     failing branch of that step, unchanged (`first_fail_list ds = Some d`,
     `SpecProps.first_fail_list_cls`); or no non-final step failed and d is what the final
     transposition gives (`try_last_step_first_failure` below) *)
  Lemma try_outcome_inv fuel : forall k st d, try_outcome fuel k st = Some d ->
    exists fuel' k' st' ds,
      no_failure_until fuel k st (S fuel') k' st' /\ step_values k' st' = Some ds /\
      ((fuel' <> 0 /\ all_classified ds = true /\ first_fail_list ds = Some d) \/
       (fuel' = 0 /\ eval h nm (transpose awaitsem pp (seq 0 n) (set_all st' (actives p k') ds)) = Some d)).
  Proof.
    induction fuel as [|fuel IH]; intros k st d H; cbn [try_outcome] in H; [discriminate|].
    destruct (step_values k st) as [ds|] eqn:Ev; [|discriminate]. cbv zeta in H.
    destruct (Nat.eqb fuel 0) eqn:Ef.
    - apply Nat.eqb_eq in Ef. subst fuel. exists 0, k, st, ds. split; [constructor|]. split; [exact Ev|]. right. split; [reflexivity|exact H].
    - apply Nat.eqb_neq in Ef. destruct (all_classified ds) eqn:Ec; [|discriminate].
      destruct (first_fail_list ds) as [d'|] eqn:Ff.
      + injection H as <-. exists fuel, k, st, ds. split; [constructor|]. split; [exact Ev|]. left. split; [exact Ef|]. split; [exact Ec|exact Ff].
      + destruct (IH _ _ _ H) as (fuel' & k' & st' & ds' & Hnf & Ev' & Hcase).
        exists fuel', k', st', ds'. split; [|split; assumption]. exact (nf_step fuel k st ds (S fuel') k' st' Ef Ev Ec Ff Hnf).
  Qed.

  (* the final step (`SpecProps.transpose_first_failure`): Some/Ok of the tuple of payloads iff no
     branch holds a failure, otherwise the value of the LOWEST-NUMBERED failing branch, unchanged *)
  Lemma try_last_step_first_failure (fam : bool) (wv vv : nat -> val) st' :
    (forall b, b < n -> wellf fam (wv b) (vv b)) -> 1 <= n -> StEq p st' (fun b => DV (wv b)) ->
    eval h nm (transpose awaitsem pp (seq 0 n) st') =
    Some (DV (match first_fail_from fam wv 0 n with
              | Some b => wv b
              | None => wrapf fam (bare_or_tuple (map vv (seq 0 n)))
              end)).
  Proof.
    intros Hwell Hn Hst.
    rewrite (transpose_first_failure awaitsem pp fam wv vv Hwell n 0 st'); [reflexivity|reflexivity|exact Hn|].
    exact Hst.
  Qed.

  (** ** C06: a failed step aborts everything after it *)

  (* `try_abort_sync` for the caller's OWN code (the thread kind `ps`), where the step is, for
     several branches, builders, captures and the spawn-all/join-all block: when the step has
     delivered sr, every thread of the step has been joined, and no operand, callback, capture or
     thread of a later step exists in the caller's code any more. *)
  Theorem try_spawn_abort fuel k st sr ds d :
    is_try (sp_cfg p) = true -> fuel <> 0 ->
    extract (actives p k) sr = Ret ds -> all_classified ds = true -> first_fail_list ds = Some d ->
    Steps ps (S fuel) k st =
      (let! sr := Step_result ps k st in
       after_sync awaitsem ps (Steps ps fuel (S k)) (Nat.eqb fuel 0) k st sr) /\
    after_sync awaitsem ps (Steps ps fuel (S k)) (Nat.eqb fuel 0) k st sr = Ret d /\
    forall hk hv fam wv, d = DV wv -> failf fam wv = true -> hk = HMap \/ hk = HAndThen ->
      (let! rs := after_sync awaitsem ps (Steps ps fuel (S k)) (Nat.eqb fuel 0) k st sr in
       handle_results callsem awaitsem ps (Some (hk, hv)) rs) = Ret d.
  Proof. exact (try_abort_sync msem dotsem callsem awaitsem ps fuel k st sr ds d Hsync). Qed.

  (* the same on outcomes, under every schedule (`try_spawn_first_failure`): when step k fails, the
     outcome from step k on is the failing value whatever the later steps are *)
  Corollary try_outcome_abort fuel k st ds d :
    fuel <> 0 -> step_values k st = Some ds -> all_classified ds = true -> first_fail_list ds = Some d ->
    try_outcome (S fuel) k st = Some d.
  Proof.
    intros Hfuel Ev Hcl Hff. cbn [try_outcome]. rewrite Ev. cbv zeta.
    apply Nat.eqb_neq in Hfuel. rewrite Hfuel, Hcl, Hff. reflexivity.
  Qed.

  (** ** C18, stateless reading: a branch panic is a panic of the plain program *)

  (* `SpecSpawn.spawn_macro_outcomes`: for a finished caller, `result_of 0 s = Some None` iff the
     plain program panics.  With `spawn_macro_panic_reaches_caller`: if a branch thread has ended in
     a panic, the plain program (which runs that branch in place) panics. *)
  Corollary spawn_macro_branch_panic_plain_panics sched i sched2 :
    i <> 0 -> fin W (run sched) i None ->
    thr_finished 0 (run (sched ++ sched2)) = true ->
    result_of 0 (run (sched ++ sched2)) = Some None /\ eval h nm plain_prog = None.
  Proof.
    intros Hi Hpan Hfin.
    destruct (spawn_macro_panic_reaches_caller W handle msem dotsem callsem awaitsem HU p Hsync nm w sched i Hi Hpan sched2)
      as (_ & _ & Hres & _).
    specialize (Hres Hfin). split; [exact Hres|].
    destruct (spawn_macro_outcomes h W handle msem dotsem callsem awaitsem p nm w (sched ++ sched2) Hw HU Hsync Hfin) as [_ Hiff].
    apply Hiff. exact Hres.
  Qed.
End TrySpawn.

Print Assumptions try_spawn_result_positions.
Print Assumptions try_spawn_first_failure.
Print Assumptions try_outcome_inv.
Print Assumptions try_spawn_abort.
Print Assumptions spawn_macro_branch_panic_plain_panics.

Module ExSpawnProps.
  Import ExSpawn.
  (* Where a theorem is instantiated, `runE` and `spawn_prog` are unfolded first: the instance then
     matches the goal as it is written, and nothing of the closed program is evaluated. *)
  (* `ExSpawn`: user code `msemE`/`dotsemE`/.. (`user_code_ex`), the event-counting world `handleE`
     (answers `h`; the theorems of `Section Whole` do not need `stateless_ex`), the programs
       prog2 false "dbl" = join_spawn! { one -> inc ~-> dbl,  two -> inc }   (2 branches, 2 steps, branch 1 shorter)
       progT x           = try_join_spawn! { some1 |> f ~|> f,  x }
     and a variant whose SECOND branch panics inside its thread: *)
  Definition progP : sprog :=
    mkSprog (mkConfig false false false) [None; None]
      [ [ [NAct 0 (ini "one"); NAct 1 (dot false "inc")]; [NAct 0 (dot true "dbl")] ];
        [ [NAct 0 (ini "two"); NAct 1 (dot false "boom")] ] ] None.

  (* the state after the first m entries of the round-robin [0;1;2;0;1;2;..] *)
  Definition st (m : nat) (p : sprog) : Threads.state nat := runE (firstn m sched_a) p.
  (* the head of a thread's code: 0 = Ret, 1 = Panic, 2 = Vis, 3 = Spawn, 4 = Join *)
  Definition head (c : comp val) : nat :=
    match c with Ret _ => 0 | Panic _ => 1 | Vis _ _ => 2 | Spawn _ _ _ => 3 | Join _ _ => 4 end.
  Definition heads (s : Threads.state nat) : list nat := map (fun th => head (th_code th)) (pool s).

  (* `runE` and `st` in the form the theorems speak of.  As equations: an evaluated example is
     carried over by `rewrite`; converting its statement would make the kernel run the machine. *)
  Lemma runE_unfold sched p :
    runE sched p = run_thr handleE sched (init (Some "main") (let! d := spec msemE dotsemE callsemE awaitsemE (with_spawn true p) in to_val d) 0).
  Proof. reflexivity. Qed.
  Lemma st_unfold m p :
    st m p = run_thr handleE (firstn m sched_a) (init (Some "main") (let! d := spec msemE dotsemE callsemE awaitsemE (with_spawn true p) in to_val d) 0).
  Proof. reflexivity. Qed.

  Example ex_init_structured p : is_async (sp_cfg p) = false ->
    let s0 := init (Some "main") (spawn_prog p) 0 in
    hb_state nat s0 /\ (tb_state nat s0 /\ named_ok nat s0) /\ ws_state nat s0.
  Proof.
    intros Hs. split; [|split].
    - apply (spec_spawn_init_hb nat msemE dotsemE callsemE awaitsemE user_code_ex p Hs).
    - apply (spec_spawn_init_tb nat msemE dotsemE callsemE awaitsemE user_code_ex p Hs).
    - apply (spec_spawn_init_ws nat msemE dotsemE callsemE awaitsemE user_code_ex p Hs).
  Qed.

  Example ex_barrier_all_schedules sched th0 e k :
    thr_of nat (runE sched (prog2 false "dbl")) 0 = Some th0 -> th_code th0 = Vis e k ->
    others_returned nat (runE sched (prog2 false "dbl")).
  Proof.
    unfold runE, spawn_prog. intros H0 Hc.
    apply (spawn_macro_steps_never_overlap nat handleE msemE dotsemE callsemE awaitsemE user_code_ex
             (prog2 false "dbl") eq_refl (Some "main") 0 sched th0 H0).
    left. eauto.
  Qed.
  (* the machine: after 10 entries the caller waits in the join of step 0 and both branch threads run;
     after 16 it is about to evaluate `dbl` of step 1 (on the caller: one active branch) and both
     threads have returned their step-0 values *)
  Example ex_barrier_inside_step_0 : heads (st 10 (prog2 false "dbl")) = [4; 2; 2].
  Proof. vm_compute. reflexivity. Qed.
  Example ex_barrier_between_steps :
    heads (st 16 (prog2 false "dbl")) = [2; 0; 0] /\
    result_of 1 (st 16 (prog2 false "dbl")) = Some (Some (VInt 2)) /\
    result_of 2 (st 16 (prog2 false "dbl")) = Some (Some (VInt 3)).
  Proof. vm_compute. repeat split; reflexivity. Qed.
  (* a schedule that offers the caller 20 steps first: it cannot get past the join *)
  Example ex_barrier_caller_waits : heads (runE (repeat 0 20) (prog2 false "dbl")) = [4; 2; 2].
  Proof. vm_compute. reflexivity. Qed.
  (* premise (ii) of the theorem is met: after the two builders (4 entries) the caller's code IS a
     whole block `gblock unwrap_post nts K` (here: the first thing of the pool, so nobody else exists) *)
  Example ex_barrier_block_start :
    exists th0 nts K, thr_of nat (st 4 (prog2 false "dbl")) 0 = Some th0 /\ nts <> [] /\
                      th_code th0 = gblock unwrap_post nts K.
  Proof.
    set (ps := with_spawn true (prog2 false "dbl")).
    set (st0 := RefineCorollaries.init_state ps).
    (* what is left of the caller's program after the builders of step 0 ... *)
    pose (code :=
       bind (bind (bind (std_spawn_join (map DBuilder ["main_join_0"; "main_join_1"]) [0; 1]
                           (fun b => let! d := chain msemE dotsemE callsemE ps (snap_of ps st0) [] 0 st0 b in to_val d))
                        (after_sync awaitsemE ps (steps msemE dotsemE callsemE awaitsemE ps 1 1) false 0 st0))
                  (handle_results callsemE awaitsemE ps None))
            (fun d => to_val d)).
    (* ... is a block; the machine is run once, against the thread that holds `code` *)
    assert (Hc : exists nts K, nts <> [] /\ code = gblock unwrap_post nts K).
    { unfold code. rewrite !bind_assoc. rewrite std_spawn_join_is_ublock'. unfold ublock.
      eexists _, _. split; [|reflexivity]. discriminate. }
    destruct Hc as (nts & K & Hne & Hc). exists (mkThread (Some "main") None code), nts, K.
    split; [vm_compute; reflexivity|]. split; [exact Hne|exact Hc].
  Qed.
  Example ex_barrier_trace_all_schedules sched t2 e t1 x :
    trace (runE sched (prog2 false "dbl")) = t2 ++ (0, e) :: t1 -> x <> 0 ->
    In x (map fst t1) -> ~ In x (map fst t2).
  Proof.
    unfold runE, spawn_prog. intros Ht Hx Hin.
    apply (spawn_macro_steps_never_overlap_trace nat handleE msemE dotsemE callsemE awaitsemE user_code_ex
             (prog2 false "dbl") eq_refl (Some "main") 0 sched t2 e t1 Ht x Hx Hin).
  Qed.
  (* the complete round-robin trace, most recent first: caller (dbl) | threads of step 0 | builders *)
  Example ex_barrier_trace : map fst (trace (runE sched_a (prog2 false "dbl"))) = [0; 2; 2; 1; 1; 0; 0].
  Proof. vm_compute. reflexivity. Qed.

  Example ex_names_all_schedules sched x th :
    x <> 0 -> thr_of nat (runE sched (prog2 false "dbl")) x = Some th ->
    th_parent th = Some 0 /\ (th_name th = Some "main_join_0" \/ th_name th = Some "main_join_1").
  Proof.
    unfold runE, spawn_prog. intros Hx Hth.
    destruct (spawn_macro_thread_names nat handleE msemE dotsemE callsemE awaitsemE user_code_ex
                (prog2 false "dbl") eq_refl (Some "main") 0 sched) as (Hnames & _ & _).
    destruct (Hnames x th Hx Hth) as (Hp & b & Hb & Hn). split; [exact Hp|].
    change (b < 2) in Hb. destruct b as [|[|b]]; [left|right|lia]; exact Hn.
  Qed.
  Example ex_alive_all_schedules sched :
    let s := runE sched (prog2 false "dbl") in
    List.length (filter (unfin_b nat s) (seq 1 (List.length (pool s) - 1))) <= 2.
  Proof.
    unfold runE, spawn_prog.
    apply (spawn_macro_thread_names nat handleE msemE dotsemE callsemE awaitsemE user_code_ex
             (prog2 false "dbl") eq_refl (Some "main") 0 sched).
  Qed.
  Example ex_alive_both : let s := st 10 (prog2 false "dbl") in
    List.length (filter (unfin_b nat s) (seq 1 (List.length (pool s) - 1))) = 2.
  Proof. vm_compute. reflexivity. Qed.

  (* after 15 entries thread 2 has panicked (`boom`); thread 1 returned; the caller waits *)
  Example ex_panic_state : heads (st 15 progP) = [4; 0; 1] /\ result_of 2 (st 15 progP) = Some None.
  Proof. vm_compute. split; reflexivity. Qed.
  (* from then on, under EVERY continuation: no event of the caller (`dbl` of step 1 is never
     evaluated), and a finished caller has panicked *)
  Example ex_panic_all_continuations sched2 :
    let s := st 15 progP in let s2 := runE (firstn 15 sched_a ++ sched2) progP in
    (exists tnew, trace s2 = tnew ++ trace s /\ forall y, In y tnew -> fst y <> 0) /\
    (thr_finished 0 s2 = true -> result_of 0 s2 = Some None).
  Proof.
    pose proof (proj2 ex_panic_state) as Hpan. rewrite st_unfold in Hpan. apply fin_result_of in Hpan.
    unfold st, runE, spawn_prog. cbv zeta.
    destruct (spawn_macro_panic_reaches_caller nat handleE msemE dotsemE callsemE awaitsemE user_code_ex
                progP eq_refl (Some "main") 0 (firstn 15 sched_a) 2 ltac:(discriminate) Hpan sched2)
      as (Hq & _ & Hres & _).
    split; assumption.
  Qed.
  Example ex_panic_run : result_of 0 (runE sched_a progP) = Some None /\
                         map fst (trace (runE sched_a progP)) = [2; 2; 1; 1; 0; 0].
  Proof. vm_compute. split; reflexivity. Qed.
  (* stateless reading: the plain program panics as well *)
  Example ex_panic_plain : eval h (Some "main") (plain_prog progP) = None.
  Proof.
    pose proof (proj2 ex_panic_state) as Hpan. rewrite st_unfold in Hpan. apply fin_result_of in Hpan.
    pose proof (result_of_finished _ _ _ (proj1 ex_panic_run)) as Hfin.
    rewrite runE_unfold, <- (firstn_skipn 15 sched_a) in Hfin.
    unfold plain_prog.
    apply (spawn_macro_branch_panic_plain_panics h nat handleE stateless_ex msemE dotsemE callsemE awaitsemE
             user_code_ex progP eq_refl (Some "main") 0 (firstn 15 sched_a) 2 (skipn 15 sched_a)
             ltac:(discriminate) Hpan Hfin).
  Qed.

  Example ex_try_outcome_fail :
    try_outcome h msemE dotsemE callsemE awaitsemE (progT "none") None (max_depth (progT "none")) 0
                (RefineCorollaries.init_state (progT "none")) = Some (DV VNone).
  Proof. vm_compute. reflexivity. Qed.
  (* for ALL schedules: step 0 fails in branch 1, the caller gets that `None`; `f` of step 1 is never called *)
  Example ex_try_fail_all_schedules sched :
    let s := run_thr handleE sched (init None (spawn_prog (progT "none")) 0) in
    thr_finished 0 s = true -> result_of 0 s = Some (Some VNone).
  Proof.
    intros s Hfin. unfold s, spawn_prog in *.
    rewrite (try_spawn_first_failure h nat handleE stateless_ex msemE dotsemE callsemE awaitsemE user_code_ex
               (progT "none") eq_refl None 0 sched eq_refl eq_refl Hfin).
    rewrite ex_try_outcome_fail. reflexivity.
  Qed.
  Example ex_try_ok_all_schedules sched :
    let s := run_thr handleE sched (init None (spawn_prog (progT "some1")) 0) in
    thr_finished 0 s = true -> result_of 0 s = Some (Some (VSome (VTuple [VInt 21; VInt 1]))).
  Proof.
    intros s Hfin. unfold s, spawn_prog in *.
    rewrite (try_spawn_first_failure h nat handleE stateless_ex msemE dotsemE callsemE awaitsemE user_code_ex
               (progT "some1") eq_refl None 0 sched eq_refl eq_refl Hfin).
    vm_compute. reflexivity.
  Qed.
  (* the values of step 0 in the failing run: all of them, branch 1's is the failure *)
  Example ex_try_step_values :
    step_values h msemE dotsemE callsemE awaitsemE (progT "none") None 0 (RefineCorollaries.init_state (progT "none"))
    = Some [DV (VSome (VInt 11)); DV VNone].
  Proof. vm_compute. reflexivity. Qed.
End ExSpawnProps.
