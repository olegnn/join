(* GenPropsD - C19 `no_hidden_cost_constructs` (and the construct census used by C16 in GenPropsE).
   A traversal collects every cost-relevant construct of an IR term that the GENERATOR put there (user
   operands are opaque `RUser` leaves; the methods the user asked for are `RMeth`, not `RGlue`).  One
   master theorem says, for ALL configurations and ALL inputs on which `gen` succeeds, which constructs
   can occur at all; the C19 statements are its corollaries.  No well-formedness hypothesis. *)
From Coq Require Import Lia.
From Join Require Import Tok Names Ast Ir Gen GenPropsBase GenPropsB.
From Join Require GenPropsA Render.

(** * The census *)

Inductive construct :=
| KBoxPin | KAsyncMove | KAwait | KMoveThunk | KTbFn
| KSpawnTokioFn (path : operand) | KUseFutures (path : operand) | KJoinMac (path : operand) (try : bool)
| KGlue (m : string)
| KIfLetSome | KMatchIdx | KMatchOk | KJuxt.

Fixpoint constructs (e : rexpr) : list construct :=
  let es := fix go (l : list rexpr) : list construct :=
              match l with [] => [] | x :: r => constructs x ++ go r end in
  let ss := fix go (l : list rstmt) : list construct :=
              match l with [] => [] | s :: r => constructs_stmt s ++ go r end in
  match e with
  | RUser _ | RVar _ | RUsize _ | RBool _ | RUnreachable => []
  | RBlock s e => ss s ++ constructs e
  | RAsyncMove s e => KAsyncMove :: ss s ++ constructs e
  | RAwait e => KAwait :: constructs e
  | RBoxPin e => KBoxPin :: constructs e
  | RTuple l | RArray l => es l
  | RField e _ => constructs e
  | RMeth r _ _ args => constructs r ++ es args
  | RGlue r m args => KGlue m :: constructs r ++ es args
  | RDot r _ => constructs r
  | RCall f args => constructs f ++ es args
  | RThenCall o arg => constructs o ++ constructs arg
  | RClosure _ b | RClosureMove _ b | RClosureIgn b => constructs b      (* a `move` closure costs what a closure costs: nothing *)
  | RMoveThunk b => KMoveThunk :: constructs b
  | RNot e | RRef e | ROk e => constructs e
  | RIfLetSome _ s t e => KIfLetSome :: constructs s ++ constructs t ++ constructs e
  | RMatchIdx s arms =>
      KMatchIdx :: constructs s ++
      (fix go (l : list (nat * rexpr)) : list construct :=
         match l with [] => [] | ix :: r => constructs (snd ix) ++ go r end) arms
  | RMatchOk s _ a => KMatchOk :: constructs s ++ constructs a
  | RJoinMac p t => [KJoinMac p t]
  | RJuxt l => KJuxt :: es l
  end
with constructs_stmt (s : rstmt) : list construct :=
  match s with
  | SLet _ e | SExpr e => constructs e
  | SFn _ _ _ body => constructs body
  | STbFn => [KTbFn]
  | SSpawnTokioFn p => [KSpawnTokioFn p]
  | SUseFutures p => [KUseFutures p]
  end.

(* the local `fix`es of `constructs` are `flat_map` unfolded, so these equations hold by conversion *)
Lemma c_RBlock ss e : constructs (RBlock ss e) = flat_map constructs_stmt ss ++ constructs e.
Proof. reflexivity. Qed.
Lemma c_RAsyncMove ss e : constructs (RAsyncMove ss e) = KAsyncMove :: flat_map constructs_stmt ss ++ constructs e.
Proof. reflexivity. Qed.
Lemma c_RTuple l : constructs (RTuple l) = flat_map constructs l.
Proof. reflexivity. Qed.
Lemma c_RArray l : constructs (RArray l) = flat_map constructs l.
Proof. reflexivity. Qed.
Lemma c_RMeth r m tf args : constructs (RMeth r m tf args) = constructs r ++ flat_map constructs args.
Proof. reflexivity. Qed.
Lemma c_RGlue r m args : constructs (RGlue r m args) = KGlue m :: constructs r ++ flat_map constructs args.
Proof. reflexivity. Qed.
Lemma c_RCall f args : constructs (RCall f args) = constructs f ++ flat_map constructs args.
Proof. reflexivity. Qed.
Lemma c_RJuxt l : constructs (RJuxt l) = KJuxt :: flat_map constructs l.
Proof. reflexivity. Qed.
Lemma c_RMatchIdx s arms :
  constructs (RMatchIdx s arms) = KMatchIdx :: constructs s ++ flat_map (fun ix => constructs (snd ix)) arms.
Proof. reflexivity. Qed.

(** * "All constructs satisfy Q", compositionally *)

Section Inv.
  Variable Q : construct -> Prop.
  Definition okE (e : rexpr) : Prop := Forall Q (constructs e).
  Definition okS (s : rstmt) : Prop := Forall Q (constructs_stmt s).
  Definition okEs (l : list rexpr) : Prop := Forall okE l.
  Definition okSs (l : list rstmt) : Prop := Forall okS l.

  Lemma okE_leaf e : constructs e = [] -> okE e.
  Proof. unfold okE. intros ->. constructor. Qed.
  Lemma okE_RUser o : okE (RUser o). Proof. now apply okE_leaf. Qed.
  Lemma okE_RVar x : okE (RVar x). Proof. now apply okE_leaf. Qed.
  Lemma okE_RUsize n : okE (RUsize n). Proof. now apply okE_leaf. Qed.
  Lemma okE_RBool b : okE (RBool b). Proof. now apply okE_leaf. Qed.
  Lemma okE_RUnreachable : okE RUnreachable. Proof. now apply okE_leaf. Qed.

  Lemma okE_RBlock ss e : okSs ss -> okE e -> okE (RBlock ss e).
  Proof. unfold okE. rewrite c_RBlock. intros. apply Forall_app; split; auto. now apply Forall_flat_map. Qed.
  Lemma okE_RAsyncMove ss e : Q KAsyncMove -> okSs ss -> okE e -> okE (RAsyncMove ss e).
  Proof.
    unfold okE. rewrite c_RAsyncMove. intros. constructor; auto. apply Forall_app; split; auto.
    now apply Forall_flat_map.
  Qed.
  Lemma okE_RAwait e : Q KAwait -> okE e -> okE (RAwait e).
  Proof. unfold okE. cbn [constructs]. intros. constructor; auto. Qed.
  Lemma okE_RBoxPin e : Q KBoxPin -> okE e -> okE (RBoxPin e).
  Proof. unfold okE. cbn [constructs]. intros. constructor; auto. Qed.
  Lemma okE_RTuple l : okEs l -> okE (RTuple l).
  Proof. unfold okE. rewrite c_RTuple. intros. now apply Forall_flat_map. Qed.
  Lemma okE_RArray l : okEs l -> okE (RArray l).
  Proof. unfold okE. rewrite c_RArray. intros. now apply Forall_flat_map. Qed.
  Lemma okE_RField e i : okE e -> okE (RField e i).
  Proof. exact (fun H => H). Qed.
  Lemma okE_RMeth r m tf args : okE r -> okEs args -> okE (RMeth r m tf args).
  Proof. unfold okE. rewrite c_RMeth. intros. apply Forall_app; split; auto. now apply Forall_flat_map. Qed.
  Lemma okE_RGlue r m args : Q (KGlue m) -> okE r -> okEs args -> okE (RGlue r m args).
  Proof.
    unfold okE. rewrite c_RGlue. intros. constructor; auto. apply Forall_app; split; auto.
    now apply Forall_flat_map.
  Qed.
  Lemma okE_RDot r o : okE r -> okE (RDot r o).
  Proof. exact (fun H => H). Qed.
  Lemma okE_RCall f args : okE f -> okEs args -> okE (RCall f args).
  Proof. unfold okE. rewrite c_RCall. intros. apply Forall_app; split; auto. now apply Forall_flat_map. Qed.
  Lemma okE_RThenCall o a : okE o -> okE a -> okE (RThenCall o a).
  Proof. unfold okE. cbn [constructs]. intros. apply Forall_app; auto. Qed.
  Lemma okE_RClosure x b : okE b -> okE (RClosure x b).
  Proof. exact (fun H => H). Qed.
  Lemma okE_RClosureMove x b : okE b -> okE (RClosureMove x b).
  Proof. exact (fun H => H). Qed.
  Lemma okE_wrapper_closure cfg b : okE b -> okE (wrapper_closure cfg b).
  Proof. unfold wrapper_closure. destruct (is_async cfg && is_spawn cfg); unfold okE; cbn [constructs]; auto. Qed.
  Lemma okE_RClosureIgn b : okE b -> okE (RClosureIgn b).
  Proof. exact (fun H => H). Qed.
  Lemma okE_RMoveThunk b : Q KMoveThunk -> okE b -> okE (RMoveThunk b).
  Proof. unfold okE. cbn [constructs]. intros. constructor; auto. Qed.
  Lemma okE_RNot e : okE e -> okE (RNot e).
  Proof. exact (fun H => H). Qed.
  Lemma okE_RRef e : okE e -> okE (RRef e).
  Proof. exact (fun H => H). Qed.
  Lemma okE_ROk e : okE e -> okE (ROk e).
  Proof. exact (fun H => H). Qed.
  Lemma okE_RIfLetSome x s t e : Q KIfLetSome -> okE s -> okE t -> okE e -> okE (RIfLetSome x s t e).
  Proof. unfold okE. cbn [constructs]. intros. constructor; auto. repeat (apply Forall_app; split; auto). Qed.
  Lemma okE_RMatchIdx s arms : Q KMatchIdx -> okE s -> Forall (fun ix => okE (snd ix)) arms -> okE (RMatchIdx s arms).
  Proof.
    unfold okE. rewrite c_RMatchIdx. intros. constructor; auto. apply Forall_app; split; auto.
    now apply Forall_flat_map.
  Qed.
  Lemma okE_RMatchOk s x a : Q KMatchOk -> okE s -> okE a -> okE (RMatchOk s x a).
  Proof. unfold okE. cbn [constructs]. intros. constructor; auto. apply Forall_app; auto. Qed.
  Lemma okE_RJoinMac p t : Q (KJoinMac p t) -> okE (RJoinMac p t).
  Proof. unfold okE. cbn [constructs]. intros. constructor; auto. Qed.
  Lemma okE_RJuxt l : Q KJuxt -> okEs l -> okE (RJuxt l).
  Proof. unfold okE. rewrite c_RJuxt. intros. constructor; auto. now apply Forall_flat_map. Qed.

  Lemma okS_SLet p e : okE e -> okS (SLet p e). Proof. exact (fun H => H). Qed.
  Lemma okS_SExpr e : okE e -> okS (SExpr e). Proof. exact (fun H => H). Qed.
  Lemma okS_SFn n sg ps b : okE b -> okS (SFn n sg ps b). Proof. exact (fun H => H). Qed.
  Lemma okS_STbFn : Q KTbFn -> okS STbFn. Proof. unfold okS. cbn. auto. Qed.
  Lemma okS_SSpawnTokioFn p : Q (KSpawnTokioFn p) -> okS (SSpawnTokioFn p). Proof. unfold okS. cbn. auto. Qed.
  Lemma okS_SUseFutures p : Q (KUseFutures p) -> okS (SUseFutures p). Proof. unfold okS. cbn. auto. Qed.

  Lemma okSs_nil : okSs []. Proof. constructor. Qed.
  Lemma okSs_cons s l : okS s -> okSs l -> okSs (s :: l). Proof. now constructor. Qed.
  Lemma okSs_app l l' : okSs l -> okSs l' -> okSs (l ++ l'). Proof. intros. apply Forall_app; auto. Qed.
  Lemma okEs_nil : okEs []. Proof. constructor. Qed.
  Lemma okEs_cons s l : okE s -> okEs l -> okEs (s :: l). Proof. now constructor. Qed.
  Lemma okEs_map {A} (f : A -> rexpr) l : (forall x, In x l -> okE (f x)) -> okEs (map f l).
  Proof. intros H. apply Forall_forall. intros y Hy. apply in_map_iff in Hy as (x & <- & Hx). auto. Qed.
  Lemma okSs_map {A} (f : A -> rstmt) l : (forall x, In x l -> okS (f x)) -> okSs (map f l).
  Proof. intros H. apply Forall_forall. intros y Hy. apply in_map_iff in Hy as (x & <- & Hx). auto. Qed.

End Inv.

(* `okc`: the introduction rules of `okE` / `okS`, one per constructor of `rexpr` / `rstmt`; `auto n with okc` walks
   a closed piece of generated syntax, n being at least its depth *)
#[export] Hint Resolve okE_RUser okE_RVar okE_RUsize okE_RBool okE_RUnreachable okE_RBlock okE_RAsyncMove okE_RAwait
     okE_RBoxPin okE_RTuple okE_RArray okE_RField okE_RMeth okE_RGlue okE_RDot okE_RCall okE_RThenCall
     okE_RClosure okE_RClosureMove okE_wrapper_closure okE_RClosureIgn okE_RMoveThunk okE_RNot okE_RRef okE_ROk okE_RIfLetSome okE_RMatchIdx
     okE_RMatchOk okE_RJoinMac okE_RJuxt okS_SLet okS_SExpr okS_SFn okS_STbFn okS_SSpawnTokioFn
     okS_SUseFutures okSs_nil okSs_cons okSs_app okEs_nil okEs_cons : okc.

Section Walk.
  Variable Q : construct -> Prop.

  Lemma meth1_okc prev m args r : okE Q prev -> okEs Q args -> meth1 prev m args = Ok r -> okE Q r.
  Proof.
    unfold meth1. intros Hp Ha. destruct args as [|f [|g l]]; intros H; inversion H; subst.
    inversion Ha; subst. auto with okc.
  Qed.

  Lemma expand_okc cfg prev c args ops r :
    okE Q prev -> okEs Q args -> expand cfg prev c args ops = Ok r -> okE Q r.
  Proof.
    intros Hp Ha. unfold expand.
    destruct c; try (intros H; eapply meth1_okc; eassumption);
      try (intros H; inversion H; subst; auto with okc; fail).
    - (* Dot *) destruct ops as [|o [|o' l]]; intros H; inversion H; subst. auto with okc.
    - (* Inspect *) destruct args as [|f [|g l]]; intros H; inversion H; subst. inversion Ha; subst.
      destruct (is_async cfg); auto 6 with okc.
    - (* Then *) destruct args as [|f [|g l]]; intros H; inversion H; subst. inversion Ha; subst. auto with okc.
    - (* Initial *) destruct args as [|f [|g l]]; intros H; inversion H; subst. now inversion Ha.
    - (* Fold *) destruct args as [|f [|g [|h l]]]; intros H; inversion H; subst.
      inversion Ha as [|? ? ? Ha']; subst. inversion Ha'; subst. auto 6 with okc.
    - (* TryFold *) destruct args as [|f [|g [|h l]]]; intros H; inversion H; subst.
      inversion Ha as [|? ? ? Ha']; subst. inversion Ha'; subst. auto 6 with okc.
  Qed.

  Lemma hoist_okc b e args : forall i ds rs,
    okEs Q args -> hoist b e i args = (ds, rs) -> okSs Q ds /\ okEs Q rs.
  Proof.
    induction args as [|a r IH]; intros i ds rs Ha H; cbn [hoist] in H.
    - inversion H; subst. split; constructor.
    - inversion Ha as [|? ? Ha1 Ha2]; subst. destruct (hoist b e (S i) r) as [ds' rs'] eqn:E.
      destruct (IH (S i) ds' rs') as [Hds Hrs]; auto.
      destruct (arg_is_block a); inversion H; subst; split; auto with okc.
  Qed.

  Lemma separate_okc p ds args :
    okEs Q (p_args p) -> separate_block_expr p = (ds, args) -> okSs Q ds /\ okEs Q args.
  Proof.
    intros Ha. unfold separate_block_expr.
    destruct (is_replaceable (p_comb p) && has_inner_exprs (p_comb p)).
    - destruct (hoist (p_branch p) (p_expr p) 0 (p_args p)) as [ds' rs] eqn:E.
      destruct (hoist_okc _ _ _ _ _ _ Ha E) as [H1 H2].
      destruct ds' as [|d ds'']; [intros H; inversion H; subst; split; auto with okc|].
      destruct (replace_inner (p_comb p) rs) as [args'|] eqn:Er; intros H; inversion H; subst; split; auto.
      exact (incl_Forall (replace_inner_incl _ _ _ Er) H2).
    - intros H; inversion H; subst. split; auto with okc.
  Qed.

  Lemma gen_def_and_step_okc cfg ds prev p ds' s :
    okSs Q ds -> okE Q prev -> okEs Q (p_args p) ->
    gen_def_and_step cfg ds prev p = Ok (ds', s) -> okSs Q ds' /\ okE Q s.
  Proof.
    intros Hd Hp Ha. unfold gen_def_and_step. destruct (separate_block_expr p) as [d args] eqn:E.
    destruct (separate_okc _ _ _ Ha E) as [H1 H2]. intros H. inv_bind H. inversion H; subst.
    split; [auto with okc|]. eapply expand_okc; eauto.
  Qed.

  Lemma mk_pos_args_okc x b e : okEs Q (p_args (mk_pos x b e)).
  Proof.
    unfold mk_pos. cbn [p_args]. destruct (has_inner_exprs (a_comb x)); [|constructor].
    apply okEs_map. auto with okc.
  Qed.

  (* the wrapper stack machine introduces no construct at all *)
  Lemma gen_branch_step_okc j b prev acts ds s :
    okE Q (wrap_into_block j (RVar prev)) ->
    gen_branch_step j b prev acts = Ok (ds, s) -> okSs Q ds /\ okE Q s.
  Proof.
    intros Hw H. apply Render.gen_branch_step_ok in H as (t & Hn & H).
    pose (R := fun st st' : Render.rstate => okSs Q (fst st) /\ okE Q (snd st) -> okSs Q (fst st') /\ okE Q (snd st')).
    apply (Render.nest_run (j_cfg j) b (fun _ => True) (fun _ => R) (fun _ => R)) with (acts := acts) (t := t) in H;
      unfold R in *; auto.
    - apply H. split; [constructor|exact Hw].
    - intros e a [ds0 s0] [ds1 s1] _ _ H1 [Hd Hs]. exact (gen_def_and_step_okc _ _ _ _ _ _ Hd Hs (mk_pos_args_okc a b e) H1).
    - intros e a inner [ds0 s0] [ds1 body] args [ds2 s2] _ _ Hin Er H1 [Hd Hs].
      destruct Hin as [Hd1 Hb]; [split; [exact Hd|apply okE_RVar]|]. refine (gen_def_and_step_okc _ _ _ _ _ _ Hd1 Hs _ H1).
      apply (incl_Forall (replace_inner_incl _ _ _ Er)). auto with okc.
    - apply Forall_forall. auto.
  Qed.

  Lemma transposer_okc vars ret : forall t, okE Q ret -> Q (KGlue "map") -> Q (KGlue "and_then") ->
    transposer vars ret = Some t -> okE Q t.
  Proof.
    induction vars as [|x r IH]; intros t Hr Hm Ha H; cbn [transposer] in H; [discriminate|].
    destruct r as [|y r'].
    - inversion H; subst. auto 6 with okc.
    - destruct (transposer (y :: r') ret) as [acc|] eqn:E; [|discriminate]. inversion H; subst.
      specialize (IH acc Hr Hm Ha eq_refl). auto 6 with okc.
  Qed.
End Walk.

(** * What a JoinOutput may emit *)

Definition base_glue : list string := ["as_ref"; "map"; "unwrap_or"; "iter"; "position"; "and_then"].
Definition spawn_glue : list string := ["spawn"; "unwrap"; "join"].

Definition allowedj (JX : Prop) (j : jout) (c : construct) : Prop :=
  let cfg := j_cfg j in
  let path := opt_default (j_fcp j) [] in
  match c with
  | KBoxPin | KAsyncMove | KAwait => is_async cfg = true
  | KUseFutures p => is_async cfg = true /\ p = path
  | KJoinMac p t => is_async cfg = true /\ p = path /\ t = is_try cfg /\ j_joiner j = None
  | KSpawnTokioFn p => is_async cfg = true /\ is_spawn cfg = true /\ p = path
  | KTbFn => is_async cfg = false /\ is_spawn cfg = true
  | KMoveThunk => j_lazy j = true
  | KGlue m => In m base_glue \/ (is_async cfg = false /\ is_spawn cfg = true /\ In m spawn_glue)
  | KIfLetSome | KMatchIdx => is_try cfg = true /\ j_transpose j = true
  | KMatchOk => is_try cfg = true /\ j_transpose j = false
  | KJuxt => is_async cfg = true /\ JX          (* plain juxtaposition: see HJX below *)
  end.

Section Jout.
  Variable j : jout.
  (* JX = "a juxtaposition may occur".  It can only arise in an async step k < j_max with at most one active branch
     whose number of generated chains is not one. *)
  Variable JX : Prop.
  Hypothesis HJX : forall k vars defs chains,
    k < j_max j -> gen_branches j k vars 0 (j_chains j) = Ok (defs, chains) ->
    active_count j k <= 1 -> (forall c, chains <> [c]) -> JX.
  Notation Qj := (allowedj JX j).
  Notation okEj := (okE Qj).
  Notation okSj := (okS Qj).
  Notation okEsj := (okEs Qj).
  Notation okSsj := (okSs Qj).

  Lemma glue_base m : In m base_glue -> Qj (KGlue m).
  Proof. intros H. left. exact H. Qed.
  Lemma glue_map : Qj (KGlue "map"). Proof. apply glue_base. cbn. tauto. Qed.
  Lemma glue_and_then : Qj (KGlue "and_then"). Proof. apply glue_base. cbn. tauto. Qed.
  Lemma glue_as_ref : Qj (KGlue "as_ref"). Proof. apply glue_base. cbn. tauto. Qed.
  Lemma glue_unwrap_or : Qj (KGlue "unwrap_or"). Proof. apply glue_base. cbn. tauto. Qed.
  Lemma glue_iter : Qj (KGlue "iter"). Proof. apply glue_base. cbn. tauto. Qed.
  Lemma glue_position : Qj (KGlue "position"). Proof. apply glue_base. cbn. tauto. Qed.
  Hint Resolve glue_map glue_and_then glue_as_ref glue_unwrap_or glue_iter glue_position : okc.

  Lemma wrap_into_block_okc e : okEj e -> okEj (wrap_into_block j e).
  Proof.
    intros H. unfold wrap_into_block. destruct (is_async (j_cfg j)) eqn:Ea; auto with okc.
  Qed.

  Lemma wrap_branch_okc k b chain : okEj chain -> okEj (wrap_branch j k b chain).
  Proof.
    intros H. unfold wrap_branch. destruct (Nat.ltb 1 (active_count j k)); [|exact H].
    assert (Hc : okEj (if j_lazy j then RMoveThunk chain else chain)).
    { destruct (j_lazy j) eqn:El; [|exact H]. apply okE_RMoveThunk; auto. }
    destruct (is_spawn (j_cfg j)) eqn:Es; [|exact Hc].
    destruct (is_async (j_cfg j)) eqn:Ea.
    - apply okE_RBlock; auto with okc.
    - apply okE_RBlock; auto with okc.
      apply okE_RGlue; auto with okc; [right; cbn; tauto|].
      apply okE_RGlue; auto with okc. right; cbn; tauto.
  Qed.

  Lemma gen_branches_okc k vars chains b defs cs :
    gen_branches j k vars b chains = Ok (defs, cs) -> okSsj defs /\ okEsj cs.
  Proof.
    apply (gen_branches_run j k vars (fun _ _ defs cs => okSsj defs /\ okEsj cs)).
    - split; constructor.
    - auto.
    - intros b0 ch rest d0 c0 acts ds s _ _ Hs [H1 H2].
      destruct (gen_branch_step_okc Qj j b0 (nth b0 vars "") acts ds s) as [H3 H4]; auto.
      { apply wrap_into_block_okc. auto with okc. }
      split; [auto with okc|]. constructor; auto. apply wrap_branch_okc. exact H4.
  Qed.

  Lemma indexed_sr_okc sr k i : okEj (indexed_sr j sr k i).
  Proof. unfold indexed_sr. destruct (Nat.ltb 1 (active_count j k)); auto with okc. Qed.

  Lemma thread_builders_okc k sr tbs sjs : thread_builders j k sr = (tbs, sjs) -> okSsj tbs /\ okSsj sjs.
  Proof.
    unfold thread_builders.
    destruct (is_async (j_cfg j)) eqn:Ea; cbn [orb]; [intros H; inversion H; subst; split; constructor|].
    destruct (is_spawn (j_cfg j)) eqn:Es; cbn [negb orb]; [|intros H; inversion H; subst; split; constructor].
    destruct (Nat.ltb (active_count j k) 2); intros H; inversion H; subst; [split; constructor|].
    split.
    - apply okSs_map. intros b _. apply okS_SLet. auto 6 with okc.
    - constructor; [|constructor]. apply okS_SLet. apply okE_RTuple. apply okEs_map. intros ib _.
      apply okE_RGlue; [right; cbn; tauto| |constructor].
      apply okE_RGlue; [right; cbn; tauto| |constructor]. apply indexed_sr_okc.
  Qed.

  Lemma gen_step_okc k vars sr stmts : k < j_max j -> gen_step j k vars sr = Ok stmts -> okSsj stmts.
  Proof.
    unfold gen_step. intros Hk H. inv_bind H. destruct x as [defs chains].
    destruct (gen_branches_okc _ _ _ _ _ _ E) as [Hd Hc].
    destruct (is_async (j_cfg j)) eqn:Ea.
    - inversion H; subst. apply okSs_app; auto. constructor; [|constructor]. apply okS_SLet.
      destruct (Nat.ltb 1 (active_count j k)) eqn:El.
      + destruct (j_joiner j) eqn:Ej; apply okE_RCall; auto with okc.
        apply okE_RJoinMac. cbn. auto.
      + apply Nat.ltb_ge in El. apply okE_RAwait; [exact Ea|].
        destruct chains as [|c [|c' l]].
        * apply okE_RJuxt; auto. cbn. split; [exact Ea|]. eapply HJX; eauto. intros c; discriminate.
        * now inversion Hc.
        * apply okE_RJuxt; auto. cbn. split; [exact Ea|]. eapply HJX; eauto. intros c0; discriminate.
    - destruct (thread_builders j k sr) as [tbs sjs] eqn:Et. destruct (thread_builders_okc _ _ _ _ Et) as [H1 H2].
      inversion H; subst. apply okSs_app; [exact H1|]. apply okSs_app; [exact Hd|]. apply okSs_cons; [|exact H2].
      apply okS_SLet.
      destruct (Nat.ltb 1 (active_count j k)); [destruct (j_joiner j)|]; auto with okc.
  Qed.

  Lemma extract_step_okc sr pats k : okSj (extract_step j sr pats k).
  Proof. unfold extract_step. auto with okc. Qed.

  Lemma is_succ_okc x : okEj (is_succ x).
  Proof. unfold is_succ. auto 12 with okc. Qed.

  Lemma tuple_of_okc vars : okEj (tuple_of vars).
  Proof. unfold tuple_of. apply okE_RTuple, okEs_map. auto with okc. Qed.

  Lemma join_steps_okc k step next pats vars sr ss e :
    okSsj step -> (forall nss ne, next = Some (nss, ne) -> okSsj nss /\ okEj ne) ->
    join_steps j k step next pats vars sr = Ok (ss, e) -> okSsj ss /\ okEj e.
  Proof.
    intros Hs Hn. unfold join_steps. pose proof (extract_step_okc sr pats k) as Hx.
    destruct (is_try (j_cfg j)) eqn:Et; cbn [andb].
    - destruct (Nat.ltb k (j_max j - 1)).
      + destruct (j_transpose j) eqn:Etr.
        * destruct next as [[nss ne]|]; [|discriminate]. destruct (Hn _ _ eq_refl) as [Hn1 Hn2].
          intros H; inversion H; subst. split; [auto with okc|].
          apply okE_RIfLetSome; [cbn; auto| | |auto with okc].
          -- apply okE_RGlue; auto with okc. apply okE_RGlue; auto with okc.
             apply okE_RArray, okEs_map. intros; apply is_succ_okc.
          -- apply okE_RBlock; auto with okc. apply okE_RMatchIdx; [cbn; auto|auto with okc|].
             apply Forall_forall. intros ix Hix. apply in_map_iff in Hix as (nv & <- & _). cbn [snd].
             auto 6 with okc.
        * destruct next as [[nss ne]|]; [|discriminate]. destruct (Hn _ _ eq_refl) as [Hn1 Hn2].
          intros H; inversion H; subst. split; [auto|].
          apply okE_RMatchOk; [cbn; auto|auto with okc|]. apply okE_RBlock; auto.
          apply okSs_app; auto. destruct (is_async (j_cfg j)); [|auto with okc].
          constructor; [|auto with okc]. apply okS_SLet, okE_RTuple, okEs_map. intros ib _.
          apply okE_ROk, indexed_sr_okc.
      + destruct (j_transpose j) eqn:Etr; cbn [andb].
        * destruct (transposer vars (tuple_of vars)) as [t|] eqn:E; [|discriminate].
          intros H; inversion H; subst. split; [auto with okc|].
          exact (transposer_okc Qj vars (tuple_of vars) _ (tuple_of_okc vars) glue_map glue_and_then E).
        * destruct (Nat.ltb 1 (j_branch_count j)).
          -- destruct (map snd (filter (fun iv => negb (is_active j k (fst iv))) (enum_from 0 vars))) as [|r0 rs].
             ++ intros H; inversion H; subst. split; [auto|].
                apply okE_RMatchOk; [cbn; auto|auto with okc|]. apply okE_RBlock; auto with okc.
                apply okE_ROk, tuple_of_okc.
             ++ destruct (transposer (r0 :: rs) (tuple_of vars)) as [t|] eqn:E; [|discriminate].
                intros H; inversion H; subst. split; [auto|].
                apply okE_RMatchOk; [cbn; auto|auto with okc|]. apply okE_RBlock; auto with okc.
                exact (transposer_okc Qj (r0 :: rs) (tuple_of vars) _ (tuple_of_okc vars) glue_map glue_and_then E).
          -- intros H; inversion H; subst. split; [auto|].
             apply okE_RMatchOk; [cbn; auto|auto with okc|]. auto 6 with okc.
    - rewrite andb_false_r. destruct next as [[nss ne]|].
      + destruct (Hn _ _ eq_refl) as [Hn1 Hn2]. intros H; inversion H; subst. split; auto with okc.
      + intros H; inversion H; subst. split; [auto with okc|apply tuple_of_okc].
  Qed.

  Lemma gen_steps_okc pats vars : forall n k r,
    k + n = j_max j ->
    gen_steps j pats vars k n = Ok r -> forall ss e, r = Some (ss, e) -> okSsj ss /\ okEj e.
  Proof.
    induction n as [|n IH]; intros k r Hkn H ss e Hr.
    - injection H as <-. discriminate.
    - apply gen_steps_S_inv in H as (next & step & bd & E & Es & Ej & ->). injection Hr as ->.
      eapply join_steps_okc; [| |exact Ej].
      + eapply gen_step_okc; [|eauto]. lia.
      + intros nss ne ->. eapply (IH (S k)); [lia|eauto|reflexivity].
  Qed.

  Lemma gen_handle_okc : okEj (gen_handle j).
  Proof.
    unfold gen_handle.
    assert (Hcall : okEj (RBlock [SLet (PTuple (map PIdent (map n_r (seq 0 (j_branch_count j))))) (RVar n_rs)]
                                 (RCall (RVar n_h) (map RVar (map n_r (seq 0 (j_branch_count j))))))).
    { apply okE_RBlock; auto with okc. apply okE_RCall; auto with okc. apply okEs_map. auto with okc. }
    assert (Haw : forall e, okEj e -> okEj (if is_async (j_cfg j) then RAwait e else e)).
    { intros e He. destruct (is_async (j_cfg j)) eqn:Ea; auto. apply okE_RAwait; auto. }
    destruct (j_handler j) as [[[| |] h]|]; auto with okc.
    - apply Haw. apply okE_RGlue; [apply glue_map|apply wrap_into_block_okc; auto with okc|].
      constructor; [|constructor]. apply okE_RClosure, okE_RBlock; auto with okc.
      destruct (is_async (j_cfg j)); auto 6 with okc.
    - apply Haw. apply okE_RGlue; [apply glue_and_then|apply wrap_into_block_okc; auto with okc|].
      constructor; [|constructor]. auto with okc.
  Qed.

  Lemma inspect_fn_okc : okSj inspect_fn.
  Proof. unfold inspect_fn. apply okS_SFn. auto 8 with okc. Qed.

  Theorem gen_output_okc e : gen_output j = Ok e -> okEj e.
  Proof.
    unfold gen_output. intros H. inv_bind H. destruct x as [[sss se]|]; [|discriminate].
    destruct (gen_steps_okc _ _ _ _ _ (Nat.add_0_l _) E sss se eq_refl) as [H1 H2].
    assert (Htail : okSsj (match j_handler j with Some (_, h) => [SLet (PIdent n_h) (RUser h)] | None => [] end
                           ++ [SLet (PIdent n_rs) (RBlock sss se)])).
    { apply okSs_app; [destruct (j_handler j) as [[hk h]|]; auto with okc|auto with okc]. }
    destruct (is_async (j_cfg j)) eqn:Ea; inversion H; subst.
    - apply okE_RBoxPin; [exact Ea|]. apply okE_RAsyncMove; [exact Ea| |apply gen_handle_okc].
      apply okSs_cons; [apply okS_SUseFutures; cbn; auto|].
      apply okSs_app; [|exact Htail].
      destruct (is_spawn (j_cfg j)) eqn:Es; [|constructor]. constructor; [|constructor].
      apply okS_SSpawnTokioFn. cbn. auto.
    - apply okE_RBlock; [|apply gen_handle_okc].
      apply okSs_cons; [apply inspect_fn_okc|].
      apply okSs_app; [|exact Htail].
      destruct (is_spawn (j_cfg j)) eqn:Es; [|constructor]. constructor; [|constructor].
      apply okS_STbFn. cbn. auto.
  Qed.
End Jout.

(** * The master theorem, in terms of the configuration and the input *)

(* the futures path every futures item carries: the given one, `::futures` by default *)
Definition futures_path (inp : input) : operand := opt_default (i_fcp inp) default_futures_path.

Definition allowed (cfg : config) (inp : input) (c : construct) : Prop :=
  match c with
  | KBoxPin | KAsyncMove | KAwait => is_async cfg = true
  | KUseFutures p => is_async cfg = true /\ p = futures_path inp
  | KJoinMac p t => is_async cfg = true /\ p = futures_path inp /\ t = is_try cfg /\ i_joiner inp = None
  | KSpawnTokioFn p => is_async cfg = true /\ is_spawn cfg = true /\ p = futures_path inp
  | KTbFn => is_async cfg = false /\ is_spawn cfg = true
  | KMoveThunk => eff_lazy cfg inp = true
  | KGlue m => In m base_glue \/ (is_async cfg = false /\ is_spawn cfg = true /\ In m spawn_glue)
  | KIfLetSome | KMatchIdx => is_try cfg = true /\ eff_transpose cfg inp = true
  | KMatchOk => is_try cfg = true /\ eff_transpose cfg inp = false
  | KJuxt => is_async cfg = true
  end.

Lemma async_path cfg inp : is_async cfg = true -> opt_default (eff_fcp cfg inp) [] = futures_path inp.
Proof. intros Ha. unfold eff_fcp, futures_path. destruct (i_fcp inp); [reflexivity|]. rewrite Ha. reflexivity. Qed.

Lemma allowedj_allowed JX cfg inp c : allowedj JX (the_jout cfg inp) c -> allowed cfg inp c.
Proof.
  destruct c; cbn [allowedj allowed the_jout j_cfg j_fcp j_lazy j_transpose j_joiner]; auto.
  - intros (Ha & Hs & ->). rewrite (async_path _ _ Ha). auto.
  - intros (Ha & ->). rewrite (async_path _ _ Ha). auto.
  - intros (Ha & -> & Ht & Hj). rewrite (async_path _ _ Ha). auto.
  - tauto.
Qed.

Theorem gen_constructs_allowed cfg inp e :
  gen cfg inp = Ok e -> Forall (allowed cfg inp) (constructs e).
Proof.
  intros H. apply gen_ok_unfold in H as [_ H].
  apply (gen_output_okc (the_jout cfg inp) True) in H; [|intros; exact I].
  unfold okE in H. eapply Forall_impl; [|exact H]. intros c. apply allowedj_allowed.
Qed.

Lemma gen_allowed_in cfg inp e c : gen cfg inp = Ok e -> In c (constructs e) -> allowed cfg inp c.
Proof. intros H. exact (proj1 (Forall_forall _ _) (gen_constructs_allowed cfg inp e H) c). Qed.

(** * C19: the corollaries, construct by construct *)

Definition is_cost_construct (c : construct) : bool :=
  match c with
  | KBoxPin | KAsyncMove | KAwait | KMoveThunk | KTbFn | KSpawnTokioFn _ | KUseFutures _ | KJoinMac _ _ => true
  | _ => false
  end.

(* (a) the plain synchronous kinds (join!, try_join!) with lazy_branches not switched on *)
Theorem no_hidden_cost_constructs cfg inp e :
  is_async cfg = false -> is_spawn cfg = false -> i_lazy inp <> Some true ->
  gen cfg inp = Ok e ->
  forall c, In c (constructs e) ->
    is_cost_construct c = false /\
    (forall m, c = KGlue m -> In m ["as_ref"; "map"; "unwrap_or"; "iter"; "position"; "and_then"]).
Proof.
  intros Ha Hs Hl H c Hc. pose proof (gen_allowed_in cfg inp e c H Hc) as Hall.
  assert (Hlazy : eff_lazy cfg inp = false).
  { unfold eff_lazy. rewrite Hs. cbn. destruct (i_lazy inp) as [[|]|]; [congruence|reflexivity|reflexivity]. }
  destruct c; cbn [allowed is_cost_construct] in *; try congruence;
    try (destruct Hall; congruence); try (split; [reflexivity|intros; discriminate]).
  split; [reflexivity|]. intros m' Hm; inversion Hm; subst m'.
  destruct Hall as [Hb|(_ & Hs' & _)]; [exact Hb|congruence].
Qed.

(* (b) no configuration emits `clone` / `to_owned` (nor `collect`, nor any glue method outside the nine) *)
Theorem glue_methods_closed cfg inp e m :
  gen cfg inp = Ok e -> In (KGlue m) (constructs e) ->
  In m ["as_ref"; "map"; "unwrap_or"; "iter"; "position"; "and_then"; "spawn"; "unwrap"; "join"].
Proof.
  intros H Hc. apply (gen_allowed_in _ _ _ _ H) in Hc. change (In m (base_glue ++ spawn_glue)).
  apply in_or_app. cbn [allowed] in Hc. tauto.
Qed.

Corollary no_clone_anywhere cfg inp e :
  gen cfg inp = Ok e ->
  ~ In (KGlue "clone") (constructs e) /\ ~ In (KGlue "to_owned") (constructs e) /\ ~ In (KGlue "collect") (constructs e).
Proof.
  intros H. repeat split; intros Hc; apply (glue_methods_closed _ _ _ _ H) in Hc; cbn in Hc;
    repeat (destruct Hc as [Hc|Hc]; [discriminate|]); exact Hc.
Qed.

(* (c) thread constructs only in the thread kinds *)
Theorem spawn_constructs_only_if_spawn cfg inp e c :
  gen cfg inp = Ok e -> In c (constructs e) ->
  (c = KGlue "spawn" \/ c = KGlue "join" \/ c = KGlue "unwrap" \/ c = KTbFn \/ (exists p, c = KSpawnTokioFn p)) ->
  is_spawn cfg = true.
Proof.
  intros H Hc Hk. pose proof (gen_allowed_in cfg inp e c H Hc) as Hall.
  destruct Hk as [->|[->|[->|[->|(p & ->)]]]]; cbn [allowed] in Hall; try tauto;
    destruct Hall as [Hb|(_ & Hs & _)]; auto; cbn in Hb;
    repeat (destruct Hb as [Hb|Hb]; [discriminate|]); contradiction.
Qed.

(* (d) future constructs only in the async kinds *)
Theorem async_constructs_only_if_async cfg inp e c :
  gen cfg inp = Ok e -> In c (constructs e) ->
  (c = KBoxPin \/ c = KAsyncMove \/ c = KAwait \/ (exists p, c = KUseFutures p) \/ (exists p t, c = KJoinMac p t)
   \/ (exists p, c = KSpawnTokioFn p)) ->
  is_async cfg = true.
Proof.
  intros H Hc Hk. apply (gen_allowed_in _ _ _ _ H) in Hc.
  destruct Hk as [->|[->|[->|[(p & ->)|[(p & t & ->)|(p & ->)]]]]]; cbn [allowed] in Hc; tauto.
Qed.

(* (e) `move || ..` thunks only when the effective lazy_branches flag is on
       (default: exactly the synchronous thread kinds) *)
Theorem move_thunk_only_if_lazy cfg inp e :
  gen cfg inp = Ok e -> In KMoveThunk (constructs e) -> eff_lazy cfg inp = true.
Proof. exact (gen_allowed_in cfg inp e KMoveThunk). Qed.
Lemma eff_lazy_default cfg inp : i_lazy inp = None -> eff_lazy cfg inp = is_spawn cfg && negb (is_async cfg).
Proof. unfold eff_lazy. intros ->. reflexivity. Qed.

(* the thread-builder function belongs to the synchronous thread kinds, `__spawn_tokio` to the async ones *)
Theorem tb_fn_sync_spawn cfg inp e :
  gen cfg inp = Ok e -> In KTbFn (constructs e) -> is_async cfg = false /\ is_spawn cfg = true.
Proof. exact (gen_allowed_in cfg inp e KTbFn). Qed.

Print Assumptions gen_constructs_allowed.
Print Assumptions no_hidden_cost_constructs.
Print Assumptions glue_methods_closed.
Print Assumptions spawn_constructs_only_if_spawn.
Print Assumptions async_constructs_only_if_async.
Print Assumptions move_thunk_only_if_lazy.

(** * Non-vacuity (the 3-branch input of GenPropsA: wrappers, blocks, depths 3/1/2, custom joiner, handler) *)

Definition census (cfg : config) (inp : input) : list construct :=
  match gen cfg inp with Ok e => constructs e | _ => [] end.
Definition ex_input := GenPropsA.ex_input.
Definition ex_input_nojoiner : input :=
  mkInput (i_branches ex_input) (i_handler ex_input) None None None None.
Definition construct_eqb (a b : construct) : bool :=
  match a, b with
  | KBoxPin, KBoxPin | KAsyncMove, KAsyncMove | KAwait, KAwait | KMoveThunk, KMoveThunk | KTbFn, KTbFn
  | KIfLetSome, KIfLetSome | KMatchIdx, KMatchIdx | KMatchOk, KMatchOk | KJuxt, KJuxt => true
  | KSpawnTokioFn p, KSpawnTokioFn q | KUseFutures p, KUseFutures q => toks_eqb p q
  | KJoinMac p t, KJoinMac q u => toks_eqb p q && Bool.eqb t u
  | KGlue m, KGlue n => String.eqb m n
  | _, _ => false
  end.
Definition occurs (c : construct) (l : list construct) : bool := existsb (construct_eqb c) l.

(* the hypotheses of no_hidden_cost_constructs hold for try_join! on this input, the expansion exists, and the census
   is not empty (so the conclusion says something) *)
Example ex_sync_hyps :
  exists e, gen (mkConfig false true false) ex_input = Ok e /\ i_lazy ex_input <> Some true /\
            List.length (constructs e) = 32 /\ occurs KIfLetSome (constructs e) = true.
Proof. vm_compute. eexists. repeat split. discriminate. Qed.
(* the whole census of try_join! on this input is generator glue, `if let Some` and the index `match`: nothing that costs *)
Example ex_sync_census_glue_only :
  forallb (fun c => match c with KGlue _ | KIfLetSome | KMatchIdx => true | _ => false end)
          (census (mkConfig false true false) ex_input) = true.
Proof. vm_compute. reflexivity. Qed.
(* the restricted constructs DO occur where the theorems allow them: the "only if" statements are not vacuous *)
Example ex_spawn_census :
  let l := census (mkConfig false true true) ex_input in
  occurs KTbFn l && occurs KMoveThunk l && occurs (KGlue "spawn") l && occurs (KGlue "join") l &&
  occurs (KGlue "unwrap") l = true.
Proof. vm_compute. reflexivity. Qed.
Example ex_async_census :
  let l := census (mkConfig true true true) ex_input_nojoiner in
  occurs KBoxPin l && occurs KAsyncMove l && occurs KAwait l && occurs (KUseFutures default_futures_path) l &&
  occurs (KSpawnTokioFn default_futures_path) l && occurs (KJoinMac default_futures_path true) l &&
  negb (occurs KMoveThunk l) && negb (occurs KTbFn l) = true.
Proof. vm_compute. reflexivity. Qed.
(* lazy_branches(true) in a plain sync macro does emit thunks: the hypothesis `i_lazy inp <> Some true` is needed *)
Example ex_lazy_needed :
  occurs KMoveThunk (census (mkConfig false true false)
                            (mkInput (i_branches ex_input) None None None None (Some true))) = true.
Proof. vm_compute. reflexivity. Qed.
