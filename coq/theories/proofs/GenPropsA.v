(* GenPropsA - C15 `no_internal_bug`: on everything the parser can produce (`wf_parsed`), the generator
   never reaches one of its `expect/unwrap/panic!` sites, for all 8 configurations, all option settings,
   all handlers.  Stronger form `gen_total`: the generator returns `Ok` unless the configuration is
   rejected.  Converse (`unmatched_unwrap_is_internal_bug`): a `<<<` without a matching `>>>` in its own
   step makes the generator hit an internal error (the cross-step `<<<` defect of the pinned tree,
   DESIGN.md 11.4, F2). *)
From Coq Require Import Lia.
From Join Require Import Tok Names Ast Ir Gen.
From Join Require Spec Render.
From Join Require Import GenPropsBase GenPropsB.

(** * What the parser guarantees: wf_parsed (Prop) and wf_parsedb (bool) *)

(* number of operands a member holds, per combinator (Parse.arity; a `>>>` member of a wrapper combinator
   holds the one placeholder closure `|__v| __v`) *)
Definition ops_arity_ok (c : comb) (n : nat) : bool :=
  match c with
  | Flatten | Enumerate | UNWRAP => Nat.eqb n 0
  | Collect => Nat.leb n 1                       (* optional type *)
  | Unzip => Nat.eqb n 0 || Nat.eqb n 4          (* no or four types *)
  | Fold | TryFold => Nat.eqb n 2
  | _ => Nat.eqb n 1                             (* one expression; Dot: one token list; Initial: one expression *)
  end.

Definition mv_okb (a : action) : bool :=
  match a_mv a with
  | Wrap => can_be_wrapper (a_comb a)
  | Unwrap => comb_eqb (a_comb a) UNWRAP
  | NoMove => negb (comb_eqb (a_comb a) UNWRAP)
  end.
Definition act_okb (a : action) : bool := ops_arity_ok (a_comb a) (List.length (a_ops a)) && mv_okb a.

(* running Wrap/Unwrap balance of one step, starting from depth d: never negative *)
Fixpoint balancedb (d : nat) (acts : list action) : bool :=
  match acts with
  | [] => true
  | a :: r =>
      match a_mv a with
      | Wrap => balancedb (S d) r
      | Unwrap => match d with 0 => false | S d' => balancedb d' r end
      | NoMove => balancedb d r
      end
  end.

Definition branch_okb (b : branch) : bool :=
  match b_members b with
  | [] => false
  | m0 :: rest =>
      comb_eqb (a_comb m0) Initial && negb (a_deferred m0) && mv_eqb (a_mv m0) NoMove &&
      forallb (fun m => negb (comb_eqb (a_comb m) Initial)) rest &&
      forallb act_okb (b_members b) &&
      forallb (balancedb 0) (split_steps (b_members b))
  end.
Definition wf_parsedb (inp : input) : bool := forallb branch_okb (i_branches inp).

Definition act_ok (a : action) : Prop :=
  ops_arity_ok (a_comb a) (List.length (a_ops a)) = true /\
  (a_mv a = Wrap -> can_be_wrapper (a_comb a) = true) /\
  (a_mv a = Unwrap <-> a_comb a = UNWRAP).

Definition branch_wf (b : branch) : Prop :=
  exists m0 rest, b_members b = m0 :: rest /\
    a_comb m0 = Initial /\ a_deferred m0 = false /\ a_mv m0 = NoMove /\
    Forall (fun m => a_comb m <> Initial) rest /\
    Forall act_ok (b_members b) /\
    Forall (fun step => Spec.nest step <> None) (split_steps (b_members b)).

Definition wf_parsed (inp : input) : Prop := Forall branch_wf (i_branches inp).

Lemma comb_eqb_iff a b : comb_eqb a b = true <-> a = b.
Proof. split; [destruct a, b; cbn; intros H; try discriminate; reflexivity|intros ->; destruct b; reflexivity]. Qed.
Lemma mv_eqb_iff a b : mv_eqb a b = true <-> a = b.
Proof. split; [destruct a, b; cbn; intros H; try discriminate; reflexivity|intros ->; destruct b; reflexivity]. Qed.

Lemma comb_eqb_false a b : comb_eqb a b = false <-> a <> b.
Proof.
  destruct (comb_eqb a b) eqn:E.
  - apply comb_eqb_iff in E. split; [discriminate|congruence].
  - split; [|reflexivity]. intros _ H. apply comb_eqb_iff in H. congruence.
Qed.

Lemma act_okb_iff a : act_okb a = true <-> act_ok a.
Proof.
  unfold act_okb, act_ok, mv_okb. rewrite andb_true_iff.
  split.
  - intros [Ha Hm]. split; [exact Ha|].
    destruct (a_mv a) eqn:Em.
    + split; [auto|]. split; [discriminate|]. intros Hc. rewrite Hc in Hm. discriminate.
    + apply comb_eqb_iff in Hm. split; [discriminate|]. split; auto.
    + apply negb_true_iff, comb_eqb_false in Hm. split; [discriminate|]. split; [discriminate|]. intros Hc; congruence.
  - intros (Ha & Hw & Hu). split; [exact Ha|].
    destruct (a_mv a) eqn:Em.
    + auto.
    + apply comb_eqb_iff, Hu. reflexivity.
    + apply negb_true_iff, comb_eqb_false. intros Hc. apply Hu in Hc. discriminate.
Qed.

(* number of `<<<` of a step that no `>>>` of the step matches = levels of the bracket tree beyond one *)
Fixpoint unmatched (acts : list action) : nat :=
  match acts with
  | [] => 0
  | a :: r => match a_mv a with
              | Unwrap => S (unmatched r)
              | Wrap => pred (unmatched r)
              | NoMove => unmatched r
              end
  end.

Lemma nest_levels_length acts : forall e,
  List.length (fold_right Spec.nest_step [[]] (enum_from e acts)) = S (unmatched acts).
Proof.
  induction acts as [|a r IH]; intros e; cbn [enum_from fold_right unmatched]; [reflexivity|].
  specialize (IH (S e)). set (F := fold_right Spec.nest_step [[]] (enum_from (S e) r)) in *.
  unfold Spec.nest_step. cbn [fst snd].
  destruct (a_mv a); destruct F as [|cur [|outer rest]]; cbn [List.length] in *; try lia.
Qed.

Lemma balancedb_unmatched acts : forall d, balancedb d acts = true <-> unmatched acts <= d.
Proof.
  induction acts as [|a r IH]; intros d; cbn [balancedb unmatched].
  - split; [lia|reflexivity].
  - destruct (a_mv a).
    + rewrite IH. lia.
    + destruct d as [|d']; [split; [discriminate|lia]|]. rewrite IH. lia.
    + apply IH.
Qed.

Theorem nest_some_iff_balanced acts : Spec.nest acts <> None <-> balancedb 0 acts = true.
Proof.
  rewrite balancedb_unmatched. unfold Spec.nest, Spec.nest_levels.
  pose proof (nest_levels_length acts 0) as L.
  destruct (fold_right Spec.nest_step [[]] (enum_from 0 acts)) as [|t [|t' r]]; cbn [List.length] in L.
  - lia.
  - split; [lia|discriminate].
  - split; [congruence|lia].
Qed.

Lemma branch_okb_iff b : branch_okb b = true <-> branch_wf b.
Proof.
  unfold branch_okb, branch_wf. destruct (b_members b) as [|m0 rest] eqn:Em.
  - split; [discriminate|]. intros (m & r & H & _); discriminate.
  - rewrite !andb_true_iff, comb_eqb_iff, negb_true_iff, mv_eqb_iff, !forallb_forall.
    split.
    + intros (((((H1 & H2) & H3) & H4) & H5) & H6). exists m0, rest. split; [reflexivity|].
      repeat split; auto.
      * apply Forall_forall. intros m Hm. apply comb_eqb_false, negb_true_iff, H4, Hm.
      * apply Forall_forall. intros m Hm. apply act_okb_iff, H5, Hm.
      * apply Forall_forall. intros s Hs. apply nest_some_iff_balanced, H6, Hs.
    + intros (m & r & Heq & H1 & H2 & H3 & H4 & H5 & H6). inversion Heq; subst m r.
      rewrite Forall_forall in H4, H5, H6. repeat split; auto.
      * intros x Hx. apply negb_true_iff, comb_eqb_false, H4, Hx.
      * intros x Hx. apply act_okb_iff, H5, Hx.
      * intros s Hs. apply nest_some_iff_balanced, H6, Hs.
Qed.

Theorem wf_parsedb_iff inp : wf_parsedb inp = true <-> wf_parsed inp.
Proof.
  unfold wf_parsedb, wf_parsed. rewrite forallb_forall, Forall_forall.
  split; intros H b Hb; apply branch_okb_iff, H, Hb.
Qed.

Lemma branch_wf_initial_operand b m0 rest :
  branch_wf b -> b_members b = m0 :: rest -> exists o, a_ops m0 = [o].
Proof.
  intros (m & r & Heq & Hc & _ & _ & _ & Hok & _) E. rewrite E in Heq. inversion Heq; subst m r.
  rewrite E in Hok. inversion Hok as [|x l (Ha & _) _]; subst. rewrite Hc in Ha. cbn in Ha.
  destruct (a_ops m0) as [|o [|o' l']]; try discriminate. eauto.
Qed.

(** * Totality of the per-action functions *)

Definition pos_okb (p : pos) : bool :=
  match p_comb p with
  | UNWRAP => false
  | Dot => Nat.eqb (List.length (p_ops p)) 1
  | c => match inner_arity c with Some n => Nat.eqb (List.length (p_args p)) n | None => true end
  end.

Lemma hoist_shape b e args : forall i ds rs,
  hoist b e i args = (ds, rs) -> List.length rs = List.length args /\ (ds = [] -> rs = args).
Proof.
  induction args as [|a r IH]; intros i ds rs H; cbn [hoist] in H.
  - injection H as <- <-. auto.
  - destruct (hoist b e (S i) r) as [ds' rs'] eqn:E. destruct (IH _ _ _ E) as [Hl Hn].
    destruct (arg_is_block a); injection H as <- <-; cbn [List.length]; split; try congruence.
    intros Hd. now rewrite (Hn Hd).
Qed.

(* with the right number of operands, separating the block operands is exactly `hoist` *)
Lemma separate_block_expr_spec p :
  pos_okb p = true ->
  separate_block_expr p =
  if is_replaceable (p_comb p) && has_inner_exprs (p_comb p)
  then hoist (p_branch p) (p_expr p) 0 (p_args p) else ([], p_args p).
Proof.
  intros Hp. unfold separate_block_expr.
  destruct (is_replaceable (p_comb p) && has_inner_exprs (p_comb p)) eqn:Ef; [|reflexivity].
  destruct (hoist (p_branch p) (p_expr p) 0 (p_args p)) as [ds rs] eqn:Eh.
  destruct (hoist_shape _ _ _ _ _ _ Eh) as [Hl Hn].
  destruct ds as [|d ds]; [now rewrite Hn|].
  rewrite replace_inner_id; [reflexivity|]. rewrite Hl.
  unfold pos_okb in Hp. destruct (p_comb p); try discriminate; apply Nat.eqb_eq in Hp; now rewrite Hp.
Qed.

Lemma expand_total cfg prev p args :
  List.length args = List.length (p_args p) -> pos_okb p = true ->
  exists r, expand cfg prev (p_comb p) args (p_ops p) = Ok r.
Proof.
  unfold pos_okb, expand, meth1. intros <- Hp.
  destruct (p_comb p); try discriminate; eauto.
  all: try (destruct args as [|a1 [|a2 [|a3 r]]]; try discriminate; eauto; fail).
  destruct (p_ops p) as [|o [|o' r]]; try discriminate; eauto.
Qed.

Lemma gen_def_and_step_total cfg ds prev p :
  pos_okb p = true -> exists ds' s, gen_def_and_step cfg ds prev p = Ok (ds', s).
Proof.
  intros H. unfold gen_def_and_step. rewrite (separate_block_expr_spec p H).
  assert (Hh : exists d args, (if is_replaceable (p_comb p) && has_inner_exprs (p_comb p)
                               then hoist (p_branch p) (p_expr p) 0 (p_args p) else ([], p_args p)) = (d, args)
                              /\ List.length args = List.length (p_args p)).
  { destruct (is_replaceable (p_comb p) && has_inner_exprs (p_comb p)); [|eauto].
    destruct (hoist (p_branch p) (p_expr p) 0 (p_args p)) as [d args] eqn:Eh.
    exists d, args. split; [reflexivity|]. apply (hoist_shape _ _ _ _ _ _ Eh). }
  destruct Hh as (d & args & -> & Hl). destruct (expand_total cfg prev p args Hl H) as (r & ->).
  cbn [rbind]. eauto.
Qed.

Lemma can_be_wrapper_replace c (x : rexpr) : can_be_wrapper c = true -> replace_inner c [x] = Some [x].
Proof. intros H. apply replace_inner_id, can_be_wrapper_arity, H. Qed.

Lemma can_be_wrapper_pos_ok w x : can_be_wrapper (p_comb w) = true -> pos_okb (set_args w [x]) = true.
Proof. unfold pos_okb, set_args. cbn [p_comb p_args p_ops]. destruct (p_comb w); try discriminate; reflexivity. Qed.

Lemma act_ok_pos_ok a b e : act_okb a = true -> a_mv a = NoMove -> pos_okb (mk_pos a b e) = true.
Proof.
  unfold act_okb, mv_okb, pos_okb, mk_pos. cbn [p_comb p_args p_ops]. intros H Hm. rewrite Hm in H.
  apply andb_true_iff in H as [Ha Hc].
  destruct (a_comb a); cbn in *; try discriminate; rewrite ?map_length; auto.
Qed.

(** * A balanced, well-formed step cannot fail *)

Lemma render_nodes_total cfg b t :
  Forall (fun n => forall st, exists st', Render.render_node cfg b n st = Ok st') t ->
  forall st, exists st', Render.render_nodes cfg b t st = Ok st'.
Proof.
  induction 1 as [|n t Hn _ IH]; intros st.
  - eexists. apply Render.render_nodes_nil.
  - rewrite Render.render_nodes_cons. destruct (Hn st) as (st1 & ->). apply IH.
Qed.

(* every plain member has its operands, every `>>>` member is a wrapper combinator and gets its closure back *)
Theorem gen_branch_step_total j b prev acts :
  Forall (fun x => act_okb x = true) acts -> balancedb 0 acts = true ->
  exists r, gen_branch_step j b prev acts = Ok r.
Proof.
  intros Hok Hb. apply nest_some_iff_balanced in Hb. destruct (Spec.nest acts) as [t|] eqn:En; [clear Hb|congruence].
  rewrite (Render.gen_branch_step_is_render j b prev acts t En). apply render_nodes_total.
  revert Hok En. apply Render.nest_all.
  - intros e a Ha Hm [ds s].
    destruct (gen_def_and_step_total (j_cfg j) ds s _ (act_ok_pos_ok a b e Ha Hm)) as (ds' & s' & E). eauto.
  - intros e a inner Ha Hm Hin st. rewrite Render.render_node_NWrap.
    destruct (render_nodes_total _ _ _ Hin (fst st, RVar n_v)) as ([ds1 body] & ->). cbn [rbind fst snd].
    assert (Hw : can_be_wrapper (a_comb a) = true).
    { unfold act_okb, mv_okb in Ha. rewrite Hm in Ha. now apply andb_true_iff in Ha. }
    rewrite (can_be_wrapper_replace _ _ Hw).
    destruct (gen_def_and_step_total (j_cfg j) ds1 (snd st) _ (can_be_wrapper_pos_ok (mk_pos a b e) (wrapper_closure (j_cfg j) body) Hw))
      as (ds' & s' & E).
    eauto.
Qed.

(* what `wf_parsed` says of one step of a branch (`wf_chains_wf` below) *)
Definition step_wf (acts : list action) : Prop :=
  acts <> [] /\ Forall (fun x => act_okb x = true) acts /\ balancedb 0 acts = true /\
  Forall (fun x => a_comb x <> Initial) (tl acts).
Definition chains_wf (chains : list (list (list action))) : Prop :=
  Forall (fun ch => Forall step_wf ch) chains.

Lemma gen_branches_total j k vars chains : forall b,
  chains_wf chains -> exists r, gen_branches j k vars b chains = Ok r.
Proof.
  induction chains as [|ch rest IH]; intros b Hok; cbn [gen_branches]; [eauto|].
  inversion Hok as [|x l Hch Hrest]; subst.
  destruct (IH (S b) Hrest) as (tl & E). rewrite E. cbn [rbind].
  destruct (nth_error ch k) as [[|x acts]|] eqn:En; eauto.
  apply nth_error_In in En. rewrite Forall_forall in Hch. destruct (Hch _ En) as (_ & H1 & H2 & _).
  destruct (gen_branch_step_total j b (nth b vars "") (x :: acts) H1 H2) as (r & Er).
  rewrite Er. cbn [rbind]. eauto.
Qed.

Lemma gen_step_total j k vars sr :
  chains_wf (j_chains j) -> exists r, gen_step j k vars sr = Ok r.
Proof.
  intros Hok. unfold gen_step. destruct (gen_branches_total j k vars (j_chains j) 0 Hok) as ([defs chains] & E).
  rewrite E. cbn [rbind]. destruct (is_async (j_cfg j)); [eauto|].
  destruct (thread_builders j k sr). eauto.
Qed.

Lemma transposer_some vars ret : vars <> [] -> exists t, transposer vars ret = Some t.
Proof.
  induction vars as [|x r IH]; [congruence|]. intros _. cbn [transposer].
  destruct r as [|y r']; [eauto|]. destruct IH as (t & E); [discriminate|]. rewrite E. eauto.
Qed.

Lemma join_steps_total j k step next pats vars sr :
  vars <> [] -> (Nat.ltb k (j_max j - 1) = true -> next <> None) ->
  exists r, join_steps j k step next pats vars sr = Ok r.
Proof.
  intros Hv Hn. unfold join_steps.
  destruct (is_try (j_cfg j)) eqn:Et; cbn [andb].
  - destruct (Nat.ltb k (j_max j - 1)) eqn:Ek.
    + destruct next as [[nss ne]|]; [|exfalso; apply Hn; auto].
      destruct (j_transpose j); eauto.
    + destruct (j_transpose j); cbn [andb].
      * destruct (transposer_some vars (tuple_of vars) Hv) as (t & E). rewrite E. eauto.
      * destruct (Nat.ltb 1 (j_branch_count j)); [|eauto].
        destruct (map snd (filter (fun iv => negb (is_active j k (fst iv))) (enum_from 0 vars))) as [|x l] eqn:Er; [eauto|].
        destruct (transposer_some (x :: l) (tuple_of vars)) as (t & E); [discriminate|]. rewrite E. eauto.
  - rewrite andb_false_r. destruct next as [[nss ne]|]; eauto.
Qed.

Lemma gen_steps_total j pats vars : forall n k,
  chains_wf (j_chains j) -> vars <> [] -> k + n = j_max j ->
  exists r, gen_steps j pats vars k n = Ok r /\ (0 < n -> r <> None).
Proof.
  induction n as [|n IH]; intros k Hok Hv Hkn; cbn [gen_steps].
  - eexists. split; [reflexivity|lia].
  - destruct (IH (S k) Hok Hv) as (next & E & Hnext); [lia|]. rewrite E. cbn [rbind].
    destruct (gen_step_total j k vars (n_sr k) Hok) as (step & Es). rewrite Es. cbn [rbind].
    destruct (join_steps_total j k step next pats vars (n_sr k) Hv) as (bd & Eb).
    { intros Hlt. apply Nat.ltb_lt in Hlt. apply Hnext. lia. }
    rewrite Eb. cbn [rbind]. eexists. split; [reflexivity|discriminate].
Qed.

Lemma gen_output_total j :
  chains_wf (j_chains j) -> 0 < j_branch_count j -> 0 < j_max j -> exists e, gen_output j = Ok e.
Proof.
  intros Hok Hb Hm. unfold gen_output.
  destruct (gen_steps_total j (map (branch_pat j) (seq 0 (j_branch_count j)))
              (map (branch_name j) (seq 0 (j_branch_count j))) (j_max j) 0 Hok) as (r & E & Hr); [|reflexivity|].
  { destruct (j_branch_count j); [lia|]. discriminate. }
  rewrite E. cbn [rbind]. destruct r as [[sss se]|]; [|exfalso; apply Hr; auto].
  destruct (is_async (j_cfg j)); eauto.
Qed.

(** * From wf_parsed to the generator's invariants *)

Lemma wf_chains_wf cfg inp : wf_parsed inp -> chains_wf (j_chains (the_jout cfg inp)).
Proof.
  intros Hwf. unfold chains_wf. cbn [the_jout j_chains]. apply Forall_map.
  eapply Forall_impl; [|exact Hwf]. intros b (m0 & rest & Heq & _ & Hd & _ & Hni & Hok & Hnest).
  rewrite Forall_forall in Hni, Hok, Hnest. apply Forall_forall. intros s Hs. repeat split.
  - (* only the first step could be empty, and it holds the Initial member *)
    destruct (split_steps_shape (b_members b)) as (g & gs & E & Hgs & Hg). rewrite E in Hs.
    destruct Hs as [<-|Hs].
    + intros ->. specialize (Hg eq_refl). rewrite Heq in Hg. congruence.
    + rewrite Forall_forall in Hgs. destruct (Hgs _ Hs) as (m & s' & -> & _). discriminate.
  - apply Forall_forall. intros x Hx. apply act_okb_iff, Hok. eapply split_steps_members; eauto.
  - apply nest_some_iff_balanced. auto.
  - (* the members after the first of a step are members after the first of the branch *)
    rewrite Heq in Hs. cbn [split_steps] in Hs. rewrite Hd in Hs.
    apply Forall_forall. intros x Hx. apply Hni.
    destruct (split_steps rest) as [|g gs] eqn:Er; [exfalso; exact (split_steps_nonempty rest Er)|].
    destruct Hs as [<-|Hs].
    + cbn [tl] in Hx. apply (split_steps_members rest g x); [rewrite Er; now left|exact Hx].
    + apply (split_steps_members rest s x); [rewrite Er; now right|]. destruct s; [destruct Hx|now right].
Qed.

Lemma the_jout_max_pos cfg inp : i_branches inp <> [] -> 0 < j_max (the_jout cfg inp).
Proof.
  intros Hne. cbn [the_jout j_max]. destruct (i_branches inp) as [|b bs]; [congruence|].
  cbn [map]. unfold list_max. cbn [fold_right].
  pose proof (split_steps_nonempty (b_members b)) as H. destruct (split_steps (b_members b)); [congruence|].
  cbn [List.length]. lia.
Qed.

Lemma verdict_none_branches cfg inp : config_verdict cfg inp = None -> i_branches inp <> [].
Proof.
  unfold config_verdict. intros H E. rewrite E in H.
  destruct (_ && _); [discriminate|]. destruct (_ && _); [discriminate|]. destruct (_ && _); discriminate.
Qed.

Theorem gen_total cfg inp :
  wf_parsed inp -> config_verdict cfg inp = None -> exists e, gen cfg inp = Ok e.
Proof.
  intros Hwf Hv. rewrite gen_unfold, Hv.
  pose proof (verdict_none_branches cfg inp Hv) as Hne.
  apply gen_output_total.
  - apply wf_chains_wf. exact Hwf.
  - cbn [the_jout j_branch_count]. destruct (i_branches inp); [congruence|]. cbn. lia.
  - apply the_jout_max_pos. exact Hne.
Qed.

Theorem no_internal_bug cfg inp :
  wf_parsed inp -> forall n, gen cfg inp <> InternalBug n.
Proof.
  intros Hwf n H. destruct (config_verdict cfg inp) as [k|] eqn:Ev.
  - rewrite gen_unfold, Ev in H. discriminate.
  - destruct (gen_total cfg inp Hwf Ev) as (e & E). congruence.
Qed.

Corollary no_internal_bug_b cfg inp :
  wf_parsedb inp = true -> forall n, gen cfg inp <> InternalBug n.
Proof. intros H. apply no_internal_bug, wf_parsedb_iff, H. Qed.

(** * Converse: an unmatched `<<<` is an internal error *)

(* a failing branch-step makes everything above it fail *)
Lemma gen_branches_ok_steps j k vars chains : forall b r,
  gen_branches j k vars b chains = Ok r ->
  forall i ch acts, nth_error chains i = Some ch -> nth_error ch k = Some acts -> acts <> [] ->
  exists r', gen_branch_step j (b + i) (nth (b + i) vars "") acts = Ok r'.
Proof.
  induction chains as [|ch0 rest IH]; intros b r H i ch acts Hi Hk Hne.
  - destruct i; discriminate.
  - cbn [gen_branches] in H. inv_bind H.
    destruct i as [|i'].
    + cbn [nth_error] in Hi. inversion Hi; subst ch0. rewrite Hk in H.
      destruct acts as [|a acts']; [congruence|]. inv_bind H. rewrite Nat.add_0_r. eauto.
    + cbn [nth_error] in Hi. replace (b + S i') with (S b + i') by lia. eapply IH; eauto.
Qed.

Lemma gen_steps_ok_step j pats vars : forall n k r,
  gen_steps j pats vars k n = Ok r ->
  forall k', k <= k' < k + n -> exists s, gen_step j k' vars (n_sr k') = Ok s.
Proof.
  induction n as [|n IH]; intros k r H k' Hk'; [lia|].
  apply gen_steps_S_inv in H as (next & step & bd & E & Es & _).
  destruct (Nat.eq_dec k' k) as [->|Hne]; [eauto|].
  eapply IH; eauto. lia.
Qed.

Theorem gen_ok_steps_balanced cfg inp e :
  gen cfg inp = Ok e ->
  forall b step, In b (i_branches inp) -> In step (split_steps (b_members b)) -> Spec.nest step <> None.
Proof.
  intros H b step Hb Hs. apply gen_ok_unfold in H as [_ H].
  destruct (In_nth_error _ _ Hb) as (i & Hi). destruct (In_nth_error _ _ Hs) as (k & Hk).
  unfold gen_output in H. inv_bind H.
  assert (Hkmax : k < j_max (the_jout cfg inp)).
  { cbn [the_jout j_max]. apply Nat.lt_le_trans with (List.length (split_steps (b_members b))).
    - apply nth_error_Some. congruence.
    - apply list_max_ge. apply (in_map (fun c : list (list action) => List.length c)).
      apply (in_map (fun b => split_steps (b_members b))). exact Hb. }
  destruct (gen_steps_ok_step _ _ _ _ _ _ E k) as (s & Es); [lia|].
  unfold gen_step in Es. inv_bind Es.
  destruct step as [|a step']; [discriminate|].
  destruct (gen_branches_ok_steps _ _ _ _ _ _ E0 i (split_steps (b_members b)) (a :: step')) as (r' & Er);
    [|exact Hk|discriminate|].
  { cbn [the_jout j_chains]. rewrite nth_error_map, Hi. reflexivity. }
  intros Hn. exact (Render.gen_branch_step_unbalanced _ _ _ _ Hn _ Er).
Qed.

(* C15, refutation direction: a step with a `<<<` that no `>>>` of the same step matches *)
Theorem unmatched_unwrap_is_internal_bug cfg inp b step :
  config_verdict cfg inp = None ->
  In b (i_branches inp) -> In step (split_steps (b_members b)) -> balancedb 0 step = false ->
  exists n, gen cfg inp = InternalBug n.
Proof.
  intros Hv Hb Hs Hbal.
  assert (Hnc : no_cfg (gen cfg inp)).
  { rewrite gen_unfold, Hv. apply no_cfg_gen_output. }
  destruct (no_cfg_cases _ Hnc) as [(e & E)|Hbug]; [|exact Hbug].
  exfalso. pose proof (gen_ok_steps_balanced cfg inp e E b step Hb Hs) as Hn.
  apply nest_some_iff_balanced in Hn. congruence.
Qed.

Print Assumptions wf_parsedb_iff.
Print Assumptions gen_total.
Print Assumptions no_internal_bug.
Print Assumptions unmatched_unwrap_is_internal_bug.

(** * Non-vacuity *)

Definition T (s : string) : operand := [TI s].
Definition blk (s : string) : operand := [TG DBrace [TI s]].
Definition act (c : comb) (d : bool) (m : mv) (ops : list operand) : action := mkAction c d m ops.
Definition placeholder : operand := [TP "|" false; TI "__v"; TP "|" false; TI "__v"].

(* three branches, depths 3 / 1 / 2, wrappers (explicitly and implicitly closed, nested), block operands,
   a `let` name, fold with two operands, collect with and without a type, unzip with four types:
     let x = a |> >>> ?> >>> |> {g} <<< |> h ~=> {k} ~^@ {z}, f2 ,
     b => >>> .. len <<< =>[] <-> T1,T2,T3,T4 ,
     {c} ?|> >>> |n> ~=>[Vec<_>] ^^>                                   *)
Definition ex_b0 : branch :=
  mkBranch (Some (T "x", "x"))
    [ act Initial false NoMove [T "a"];
      act Map false Wrap [placeholder];
      act Filter false Wrap [placeholder];
      act Map false NoMove [blk "g"];
      act UNWRAP false Unwrap [];
      act Map false NoMove [T "h"];
      act AndThen true NoMove [blk "k"];
      act Fold true NoMove [blk "z"; T "f2"] ].
Definition ex_b1 : branch :=
  mkBranch None
    [ act Initial false NoMove [T "b"];
      act AndThen false Wrap [placeholder];
      act Dot false NoMove [T "len"];
      act UNWRAP false Unwrap [];
      act Collect false NoMove [];
      act Unzip false NoMove [T "T1"; T "T2"; T "T3"; T "T4"] ].
Definition ex_b2 : branch :=
  mkBranch None
    [ act Initial false NoMove [blk "c"];
      act FilterMap false Wrap [placeholder];
      act Enumerate false NoMove [];
      act Collect true NoMove [T "Vec"];
      act Flatten false NoMove [] ].
Definition ex_input : input :=
  mkInput [ex_b0; ex_b1; ex_b2] (Some (HMap, T "hd")) None (Some (T "my_joiner")) None None.

(* the hypothesis of no_internal_bug holds *)
Example ex_input_wf : wf_parsedb ex_input = true.
Proof. vm_compute. reflexivity. Qed.
Example ex_input_wf' : wf_parsed ex_input.
Proof. apply wf_parsedb_iff, ex_input_wf. Qed.
Example ex_input_depths : map (fun b => List.length (split_steps (b_members b))) (i_branches ex_input) = [3; 1; 2].
Proof. vm_compute. reflexivity. Qed.
Example ex_input_ok : exists e, gen (mkConfig false true true) ex_input = Ok e.
Proof. vm_compute. eexists. reflexivity. Qed.
(* ... and its conclusion is not due to a rejection *)
Example ex_input_all_try_kinds :
  forallb (fun cfg => match gen cfg ex_input with Ok _ => true | _ => false end)
          [mkConfig false true false; mkConfig false true true; mkConfig true true false; mkConfig true true true] = true.
Proof. vm_compute. reflexivity. Qed.

(* the cross-step `<<<` that the pinned tree accepted (DESIGN.md 11.4, F2): `a |> >>> |> f ~|> g <<< |> h` *)
Definition ex_f2 : input :=
  mkInput [ mkBranch None [ act Initial false NoMove [T "a"]; act Map false Wrap [placeholder];
                            act Map false NoMove [T "f"]; act Map true NoMove [T "g"];
                            act UNWRAP false Unwrap []; act Map false NoMove [T "h"] ] ]
          None None None None None.
Example ex_f2_not_wf : wf_parsedb ex_f2 = false.
Proof. vm_compute. reflexivity. Qed.
Example ex_f2_bug : gen (mkConfig false true false) ex_f2 = InternalBug 2.
Proof. vm_compute. reflexivity. Qed.
Example ex_f2_by_theorem : exists n, gen (mkConfig false true false) ex_f2 = InternalBug n.
Proof.
  eapply unmatched_unwrap_is_internal_bug with (b := nth 0 (i_branches ex_f2) (mkBranch None []))
                                               (step := nth 1 (split_steps (b_members (nth 0 (i_branches ex_f2) (mkBranch None [])))) []).
  - vm_compute. reflexivity.
  - vm_compute. left. reflexivity.
  - vm_compute. right. left. reflexivity.
  - vm_compute. reflexivity.
Qed.
