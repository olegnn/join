(* GenPropsC - C10 `operands_occur_once`: the user-written token lists that occur in the expansion are, as a
   multiset, exactly the user's operands of the input - nothing dropped, nothing duplicated.
   The census `atoms` tags every occurrence with HOW it occurs:
     UExpr o     an expression operand spliced in place (`RUser o`)
     UBound x o  an expression operand bound by `let x = o;` (hoisted block operands: x = __ewB_E_I; handler: x = __h)
     UType o     a type operand in a turbofish (`=>[T]`, `<-> A, B, C, D`)
     UDot o      the member tokens of `..` / `>.`
   Main theorem `atoms_exact` (under wf_parsed): Permutation (atoms e) (input_atoms inp).
   Its projections to plain traversals of the expansion (`leaves`, `tyfields`, `dotfields`) are `operands_occur_once`,
   `type_operands_occur_once`, `dot_operands_occur_once`; `bound_atoms_are_blocks`: what is `let`-bound is the handler
   or a block operand.  *)
From Coq Require Import Lia Permutation.
From Join Require Import Tok Names Ast Ir Gen GenPropsBase GenPropsB GenPropsA.
From Join Require Spec Render.

(** * The census of user tokens *)

Inductive uatom :=
| UExpr (o : operand)
| UBound (x : string) (o : operand)
| UType (o : operand)
| UDot (o : operand).

Fixpoint atoms (e : rexpr) : list uatom :=
  let es := fix go (l : list rexpr) : list uatom :=
              match l with [] => [] | x :: r => atoms x ++ go r end in
  let ss := fix go (l : list rstmt) : list uatom :=
              match l with [] => [] | s :: r => atoms_stmt s ++ go r end in
  match e with
  | RUser o => [UExpr o]
  | RVar _ | RUsize _ | RBool _ | RUnreachable | RJoinMac _ _ => []
  | RBlock s e | RAsyncMove s e => ss s ++ atoms e
  | RAwait e | RBoxPin e | RField e _ | RClosure _ e | RClosureMove _ e | RClosureIgn e | RMoveThunk e
  | RNot e | RRef e | ROk e => atoms e
  | RTuple l | RArray l | RJuxt l => es l
  | RMeth r _ tf args => atoms r ++ match tf with Some tys => map UType tys | None => [] end ++ es args
  | RGlue r _ args => atoms r ++ es args
  | RDot r o => atoms r ++ [UDot o]
  | RCall f args => atoms f ++ es args
  | RThenCall o arg => atoms o ++ atoms arg
  | RIfLetSome _ s t e => atoms s ++ atoms t ++ atoms e
  | RMatchIdx s arms =>
      atoms s ++ (fix go (l : list (nat * rexpr)) : list uatom :=
                    match l with [] => [] | ix :: r => atoms (snd ix) ++ go r end) arms
  | RMatchOk s _ a => atoms s ++ atoms a
  end
with atoms_stmt (s : rstmt) : list uatom :=
  match s with
  | SLet p e => match p, e with
                | PIdent x, RUser o => [UBound x o]
                | _, _ => atoms e
                end
  | SExpr e => atoms e
  | SFn _ _ _ body => atoms body
  | STbFn | SSpawnTokioFn _ | SUseFutures _ => []
  end.

Notation A_es := (flat_map atoms).
Notation A_ss := (flat_map atoms_stmt).

(* the local `fix`es of `atoms` are `flat_map` unfolded, so these equations hold by conversion; `asimp` and
   `gather_atoms` rewrite with them to fold the `fix`es back *)
Lemma at_list l :
  (fix go (l : list rexpr) : list uatom := match l with [] => [] | x :: r => atoms x ++ go r end) l = A_es l.
Proof. reflexivity. Qed.
Lemma at_stmts l :
  (fix go (l : list rstmt) : list uatom := match l with [] => [] | s :: r => atoms_stmt s ++ go r end) l = A_ss l.
Proof. reflexivity. Qed.
Lemma at_arms l :
  (fix go (l : list (nat * rexpr)) : list uatom := match l with [] => [] | ix :: r => atoms (snd ix) ++ go r end) l
  = flat_map (fun ix => atoms (snd ix)) l.
Proof. reflexivity. Qed.

Lemma a_RBlock ss e : atoms (RBlock ss e) = A_ss ss ++ atoms e.
Proof. reflexivity. Qed.
Lemma a_RAsyncMove ss e : atoms (RAsyncMove ss e) = A_ss ss ++ atoms e.
Proof. reflexivity. Qed.
Lemma a_RTuple l : atoms (RTuple l) = A_es l.
Proof. reflexivity. Qed.
Lemma a_RArray l : atoms (RArray l) = A_es l.
Proof. reflexivity. Qed.
Lemma a_RJuxt l : atoms (RJuxt l) = A_es l.
Proof. reflexivity. Qed.
Lemma a_RMeth r m tf args :
  atoms (RMeth r m tf args) = atoms r ++ match tf with Some tys => map UType tys | None => [] end ++ A_es args.
Proof. reflexivity. Qed.
Lemma a_RGlue r m args : atoms (RGlue r m args) = atoms r ++ A_es args.
Proof. reflexivity. Qed.
Lemma a_RCall f args : atoms (RCall f args) = atoms f ++ A_es args.
Proof. reflexivity. Qed.
Lemma a_RMatchIdx s arms : atoms (RMatchIdx s arms) = atoms s ++ flat_map (fun ix => atoms (snd ix)) arms.
Proof. reflexivity. Qed.

Definition not_user (e : rexpr) : Prop := match e with RUser _ => False | _ => True end.
Lemma a_SLet_tuple ps e : atoms_stmt (SLet (PTuple ps) e) = atoms e.
Proof. reflexivity. Qed.
Lemma a_SLet p e : not_user e -> atoms_stmt (SLet p e) = atoms e.
Proof. intros H. destruct p; try reflexivity. destruct e; try contradiction; reflexivity. Qed.

Ltac asimp :=
  repeat (rewrite ?a_RBlock, ?a_RAsyncMove, ?a_RTuple, ?a_RArray, ?a_RJuxt, ?a_RMeth, ?a_RGlue, ?a_RCall,
            ?a_RMatchIdx, ?a_SLet_tuple; cbn [atoms atoms_stmt flat_map map app]; rewrite ?at_list, ?at_stmts, ?at_arms).

(* a sample of the rearrangements the census proofs end in; nothing below depends on it *)
Lemma perm_test (a b c : list nat) x : Permutation (a ++ x :: b ++ c) (c ++ [x] ++ [] ++ b ++ a).
Proof.
  rewrite (Permutation_app_comm a), (Permutation_app_comm c). cbn [app]. constructor.
  rewrite <- !app_assoc. apply Permutation_app_head, Permutation_app_comm.
Qed.

Lemma flat_map_map_nil {A B C} (f : B -> list C) (k : A -> B) l : (forall x, f (k x) = []) -> flat_map f (map k l) = [].
Proof. intros H. induction l as [|x r IH]; cbn [map flat_map]; [reflexivity|]. now rewrite H, IH. Qed.
Lemma flat_map_nil {A B} (f : A -> list B) l : (forall x, In x l -> f x = []) -> flat_map f l = [].
Proof. induction l as [|x r IH]; intros H; cbn [flat_map]; [reflexivity|]. rewrite H, IH; auto; [intros; apply H; now right|now left]. Qed.

Lemma flat_map_app_perm {A B} (g h : A -> list B) l :
  Permutation (flat_map (fun x => g x ++ h x) l) (flat_map g l ++ flat_map h l).
Proof.
  induction l as [|x r IH]; cbn [flat_map]; [constructor|].
  eapply Permutation_trans; [apply Permutation_app_head, IH|].
  rewrite <- !app_assoc. apply Permutation_app_head, Permutation_app_swap_app.
Qed.

Lemma flat_map_perm_ext {A B} (f g : A -> list B) l :
  (forall x, In x l -> Permutation (f x) (g x)) -> Permutation (flat_map f l) (flat_map g l).
Proof.
  induction l as [|x r IH]; intros H; cbn [flat_map]; [constructor|].
  apply Permutation_app; [apply H; now left|apply IH; intros; apply H; now right].
Qed.

(** * What each member of a chain contributes *)

Definition tag_expr (b e : nat) (io : nat * operand) : uatom :=
  if is_block (snd io) then UBound (n_ew b e (fst io)) (snd io) else UExpr (snd io).

(* member a, at position e of its step, in branch b *)
Definition action_atoms (b e : nat) (a : action) : list uatom :=
  match a_mv a with
  | NoMove =>
      match a_comb a with
      | Dot => map UDot (a_ops a)
      | Collect | Unzip => map UType (a_ops a)
      | c => if has_inner_exprs c then map (tag_expr b e) (enum_from 0 (a_ops a)) else []
      end
  | Wrap | Unwrap => []        (* `>>>`: the placeholder closure is replaced by the generated one; `<<<`: no operand *)
  end.
Definition step_atoms (b e : nat) (acts : list action) : list uatom :=
  flat_map (fun ea => action_atoms b (fst ea) (snd ea)) (enum_from e acts).

Lemma hoist_atoms b e ops : forall i ds rs,
  hoist b e i (map RUser ops) = (ds, rs) ->
  Permutation (A_ss ds ++ A_es rs) (map (tag_expr b e) (enum_from i ops)).
Proof.
  induction ops as [|o r IH]; intros i ds rs H; cbn [map hoist arg_is_block] in H.
  - injection H as <- <-. constructor.
  - destruct (hoist b e (S i) (map RUser r)) as [ds' rs'] eqn:E. specialize (IH _ _ _ E).
    cbn [enum_from map]. unfold tag_expr at 1. cbn [fst snd].
    destruct (is_block o); injection H as <- <-; cbn [flat_map atoms_stmt atoms app].
    + constructor. exact IH.
    + symmetry. apply Permutation_cons_app. symmetry. exact IH.
Qed.

(* exactly one `let __ewB_E_I = {block};` per block operand, holding the block, and the operand replaced by the
   binding - everything else untouched *)
Theorem hoist_spec b e args : forall i,
  hoist b e i args =
  (map (fun ia => SLet (PIdent (n_ew b e (fst ia))) (snd ia))
       (filter (fun ia => arg_is_block (snd ia)) (enum_from i args)),
   map (fun ia => if arg_is_block (snd ia) then RVar (n_ew b e (fst ia)) else snd ia) (enum_from i args)).
Proof.
  induction args as [|a r IH]; intros i; cbn [hoist enum_from filter map]; [reflexivity|].
  rewrite IH. cbn [snd fst]. destruct (arg_is_block a); reflexivity.
Qed.

Lemma enum_from_map {A B} (f : A -> B) l : forall i, enum_from i (map f l) = map (fun ix => (fst ix, f (snd ix))) (enum_from i l).
Proof. induction l as [|x r IH]; intros i; cbn [map enum_from]; [reflexivity|]. now rewrite IH. Qed.

Definition expand_expected (c : comb) (prev : rexpr) (args : list rexpr) (ops : list operand) : list uatom :=
  match c with
  | Initial => A_es args
  | Dot => atoms prev ++ map UDot ops
  | Collect | Unzip => atoms prev ++ map UType ops
  | Flatten | Enumerate | UNWRAP => atoms prev
  | _ => atoms prev ++ A_es args
  end.

Lemma meth1_atoms prev m args r : meth1 prev m args = Ok r -> atoms r = atoms prev ++ A_es args.
Proof. unfold meth1. destruct args as [|f [|g l]]; try discriminate. intros [= <-]. apply a_RMeth. Qed.

(* only `Then` and the synchronous `Inspect` put the operand before the chain *)
Lemma expand_atoms cfg prev c args ops r :
  expand cfg prev c args ops = Ok r -> Permutation (atoms r) (expand_expected c prev args ops).
Proof.
  unfold expand, expand_expected. intros H.
  destruct c; try discriminate; try (apply meth1_atoms in H as ->; reflexivity).
  - (* Dot *) destruct ops as [|o [|o' l]]; try discriminate. injection H as <-. reflexivity.
  - (* Inspect *) destruct args as [|f [|g l]]; try discriminate. injection H as <-.
    destruct (is_async cfg); [rewrite a_RMeth; reflexivity|]. rewrite a_RCall. cbn. rewrite !app_nil_r. apply Permutation_app_comm.
  - (* Then *) destruct args as [|f [|g l]]; try discriminate. injection H as <-. cbn. rewrite app_nil_r. apply Permutation_app_comm.
  - (* Initial *) destruct args as [|x [|y l]]; try discriminate. injection H as <-. cbn. now rewrite app_nil_r.
  - (* Flatten *) injection H as <-. rewrite a_RMeth. cbn. now rewrite app_nil_r.
  - (* Collect *) injection H as <-. rewrite a_RMeth. destruct ops; cbn; now rewrite ?app_nil_r.
  - (* Enumerate *) injection H as <-. rewrite a_RMeth. cbn. now rewrite app_nil_r.
  - (* Fold *) destruct args as [|i [|f [|g l]]]; try discriminate. injection H as <-. now rewrite a_RMeth.
  - (* TryFold *) destruct args as [|i [|f [|g l]]]; try discriminate. injection H as <-. now rewrite a_RMeth.
  - (* Unzip *) injection H as <-. rewrite a_RMeth. destruct ops; cbn; now rewrite ?app_nil_r.
Qed.

Definition ops_atoms (c : comb) (ops : list operand) : list uatom :=
  match c with Dot => map UDot ops | Collect | Unzip => map UType ops | _ => [] end.

Lemma action_atoms_hoistable b e x :
  a_mv x = NoMove -> is_replaceable (a_comb x) && has_inner_exprs (a_comb x) = true ->
  has_inner_exprs (a_comb x) = true /\
  action_atoms b e x = map (tag_expr b e) (enum_from 0 (a_ops x)) /\
  forall prev rs ops, expand_expected (a_comb x) prev rs ops =
                      (if comb_eqb (a_comb x) Initial then [] else atoms prev) ++ A_es rs.
Proof.
  intros Hm Hf. unfold action_atoms. rewrite Hm.
  destruct (a_comb x); cbn in *; try discriminate; repeat split; reflexivity.
Qed.

Lemma action_atoms_plain b e x :
  a_mv x = NoMove -> act_okb x = true ->
  is_replaceable (a_comb x) && has_inner_exprs (a_comb x) = false ->
  comb_eqb (a_comb x) Initial = false /\
  action_atoms b e x = ops_atoms (a_comb x) (a_ops x) /\
  forall prev args, expand_expected (a_comb x) prev args (a_ops x) = atoms prev ++ ops_atoms (a_comb x) (a_ops x).
Proof.
  intros Hm Hok Hf. unfold action_atoms, act_okb, mv_okb in *. rewrite Hm in *.
  apply andb_true_iff in Hok as [_ Hok].
  destruct (a_comb x); cbn in *; try discriminate; repeat split; intros; rewrite ?app_nil_r; reflexivity.
Qed.

Lemma gen_def_and_step_atoms cfg defs prev x b e ds' s :
  act_okb x = true -> a_mv x = NoMove ->
  gen_def_and_step cfg defs prev (mk_pos x b e) = Ok (ds', s) ->
  exists ds, ds' = defs ++ ds /\
    Permutation (A_ss ds ++ atoms s)
                ((if comb_eqb (a_comb x) Initial then [] else atoms prev) ++ action_atoms b e x).
Proof.
  intros Hok Hm H. pose proof (act_ok_pos_ok x b e Hok Hm) as Hp.
  unfold gen_def_and_step in H. rewrite (separate_block_expr_spec _ Hp) in H.
  unfold mk_pos in H; cbn [p_comb p_args p_ops p_branch p_expr] in H.
  destruct (is_replaceable (a_comb x) && has_inner_exprs (a_comb x)) eqn:Ef.
  - destruct (action_atoms_hoistable b e x Hm Ef) as (Hin & Hact & Hexp). rewrite Hin in H.
    destruct (hoist b e 0 (map RUser (a_ops x))) as [ds rs] eqn:Eh.
    inv_bind H. inversion H; subst. exists ds. split; [reflexivity|].
    pose proof (hoist_atoms _ _ _ _ _ _ Eh) as Hh.
    pose proof (expand_atoms _ _ _ _ _ _ E) as He. rewrite Hexp in He. rewrite Hact.
    eapply Permutation_trans; [apply Permutation_app_head, He|].
    eapply Permutation_trans; [|apply Permutation_app_head, Hh]. apply Permutation_app_swap_app.
  - destruct (action_atoms_plain b e x Hm Hok Ef) as (Hni & Hact & Hexp). rewrite Hni, Hact.
    inv_bind H. inversion H; subst. exists []. split; [reflexivity|]. cbn [flat_map app].
    pose proof (expand_atoms _ _ _ _ _ _ E) as He. rewrite Hexp in He. exact He.
Qed.

(* the wrapper closure, in either form (`|__v| e` / `move |__v| e`), holds exactly the atoms of its body *)
Lemma atoms_wrapper_closure cfg e : atoms (wrapper_closure cfg e) = atoms e.
Proof. unfold wrapper_closure. destruct (is_async cfg && is_spawn cfg); reflexivity. Qed.

(* a wrapper combinator receiving its closure *)
Lemma wrapper_step_atoms cfg defs cur w prev ds' s :
  can_be_wrapper (p_comb w) = true ->
  gen_def_and_step cfg defs cur (set_args w [wrapper_closure cfg prev]) = Ok (ds', s) ->
  ds' = defs /\ Permutation (atoms s) (atoms cur ++ atoms prev).
Proof.
  intros Hc H. unfold gen_def_and_step in H.
  rewrite (separate_block_expr_spec _ (can_be_wrapper_pos_ok w _ Hc)) in H.
  unfold set_args in H; cbn [p_comb p_args p_ops p_branch p_expr] in H.
  assert (Hh : (if is_replaceable (p_comb w) && has_inner_exprs (p_comb w)
                then hoist (p_branch w) (p_expr w) 0 [wrapper_closure cfg prev] else ([], [wrapper_closure cfg prev]))
               = ([], [wrapper_closure cfg prev])).
  { unfold wrapper_closure.
    destruct (is_replaceable (p_comb w) && has_inner_exprs (p_comb w)), (is_async cfg && is_spawn cfg); reflexivity. }
  rewrite Hh in H. inv_bind H. inversion H; subst. split; [apply app_nil_r|].
  pose proof (expand_atoms _ _ _ _ _ _ E) as He.
  eapply Permutation_trans; [exact He|].
  destruct (p_comb w); cbn in Hc; try discriminate; cbn [expand_expected flat_map]; rewrite atoms_wrapper_closure, app_nil_r; reflexivity.
Qed.

(** * The wrapper stack machine neither drops nor duplicates *)

Lemma A_ss_app l l' : A_ss (l ++ l') = A_ss l ++ A_ss l'.
Proof. apply flat_map_app. Qed.

Definition state_atoms (st : Render.rstate) : list uatom := A_ss (fst st) ++ atoms (snd st).
Definition nodes_atoms (b : nat) (t : list Spec.node) : list uatom := flat_map (Render.node_flat (action_atoms b)) t.

(* rendering a tree none of whose members is `Initial` adds the operands of its members to what is there *)
Lemma render_atoms cfg b acts :
  Forall (fun x => act_okb x = true /\ a_comb x <> Initial) acts ->
  forall e, Forall (fun t => forall st st', Render.render_nodes cfg b t st = Ok st' ->
                             Permutation (state_atoms st') (state_atoms st ++ nodes_atoms b t))
                   (fold_right Spec.nest_step [[]] (enum_from e acts)).
Proof.
  apply (Render.nest_fold_run cfg b _
           (fun n st st' => Permutation (state_atoms st') (state_atoms st ++ Render.node_flat (action_atoms b) n))).
  - intros st. cbn. now rewrite app_nil_r.
  - intros n t st1 st2 st3 H1 H2. unfold nodes_atoms. cbn [flat_map]. rewrite H2, H1. now rewrite app_assoc.
  - intros e a [ds s] [ds' s'] [Hok Hni] Hm H.
    destruct (gen_def_and_step_atoms _ _ _ _ _ _ _ _ Hok Hm H) as (d & -> & Hp).
    apply comb_eqb_false in Hni. rewrite Hni in Hp.
    unfold state_atoms. cbn [fst snd Render.node_flat]. rewrite A_ss_app, <- !app_assoc. now apply Permutation_app_head.
  - intros e a inner [ds s] [ds1 body] args [ds' s'] [Hok _] Hm Hin Er H.
    assert (Hw : can_be_wrapper (a_comb a) = true).
    { unfold act_okb, mv_okb in Hok. rewrite Hm in Hok. now apply andb_true_iff in Hok. }
    rewrite (can_be_wrapper_replace _ _ Hw) in Er. injection Er as <-.
    destruct (wrapper_step_atoms _ _ _ (mk_pos a b e) _ _ _ Hw H) as [-> Hp].
    unfold state_atoms, nodes_atoms in *. cbn [fst snd Render.node_flat atoms] in *.
    unfold action_atoms at 1. rewrite Hm, Hp. cbn [app]. rewrite app_nil_r in Hin.
    rewrite (Permutation_app_comm (atoms s)), app_assoc, Hin. rewrite <- !app_assoc. apply Permutation_app_head, Permutation_app_comm.
Qed.

Lemma wrap_into_block_atoms j x : atoms (wrap_into_block j (RVar x)) = [].
Proof. unfold wrap_into_block. destruct (is_async (j_cfg j)); reflexivity. Qed.

(* One step of one branch: every operand of its members, tagged, exactly once.
   An `Initial` member replaces what it is given; it is the first member of a step if it is there at all, and there
   it is given the block `{ prev }`, which holds no operand. *)
Theorem gen_branch_step_atoms j b prev acts ds s :
  step_wf acts -> gen_branch_step j b prev acts = Ok (ds, s) ->
  Permutation (A_ss ds ++ atoms s) (step_atoms b 0 acts).
Proof.
  intros (_ & Hok & _ & Hni) H. apply Render.gen_branch_step_ok in H as (t & Hn & H).
  assert (Hf : forall e a, a_mv a = Unwrap -> action_atoms b e a = []) by (unfold action_atoms; now intros e a ->).
  unfold step_atoms. rewrite <- (Render.nest_flat _ _ _ Hf Hn).
  assert (Hwf : Forall (fun x => act_okb x = true /\ a_comb x <> Initial) (tl acts)).
  { apply Forall_and; [destruct acts; [constructor|now inversion Hok]|exact Hni]. }
  change (Permutation (state_atoms (ds, s)) (nodes_atoms b t)).
  assert (H0 : state_atoms ([], wrap_into_block j (RVar prev)) = []) by apply wrap_into_block_atoms.
  unfold Spec.nest, Spec.nest_levels in Hn.
  destruct acts as [|x r]; [injection Hn as <-; injection H as <- <-; now rewrite H0|].
  inversion Hok as [|? ? Hx _]; subst. cbn [tl] in Hwf.
  destruct (comb_eqb (a_comb x) Initial) eqn:Ei.
  - (* the head is rendered on its own, the rest from what it left *)
    assert (Hm : a_mv x = NoMove).
    { apply comb_eqb_iff in Ei. unfold act_okb, mv_okb in Hx. rewrite Ei in Hx.
      destruct (a_mv x); [| |reflexivity]; now rewrite andb_false_r in Hx. }
    cbn [enum_from fold_right] in Hn. pose proof (render_atoms (j_cfg j) b r Hwf 1) as Hr.
    unfold Spec.nest_step at 1 in Hn. cbn [fst snd] in Hn. rewrite Hm in Hn.
    destruct (fold_right Spec.nest_step [[]] (enum_from 1 r)) as [|cur [|]]; try discriminate.
    injection Hn as <-. inversion Hr as [|? ? Hcur _]; subst.
    rewrite Render.render_nodes_cons in H. inv_bind H. destruct x0 as [d1 s1].
    destruct (gen_def_and_step_atoms _ _ _ _ _ _ _ _ Hx Hm E) as (d & -> & Hp). rewrite Ei in Hp.
    rewrite (Hcur _ _ H). unfold nodes_atoms. cbn [flat_map Render.node_flat].
    apply Permutation_app_tail. exact Hp.
  - apply comb_eqb_false in Ei. pose proof (render_atoms (j_cfg j) b (x :: r) (Forall_cons _ (conj Hx Ei) Hwf) 0) as Hr.
    destruct (fold_right Spec.nest_step [[]] (enum_from 0 (x :: r))) as [|t0 [|]]; try discriminate.
    injection Hn as <-. inversion Hr as [|? ? Ht _]; subst. rewrite (Ht _ _ H), H0. reflexivity.
Qed.

(** * The atoms of one step *)

Lemma wrap_branch_atoms j k b c : atoms (wrap_branch j k b c) = atoms c.
Proof.
  unfold wrap_branch. destruct (Nat.ltb 1 (active_count j k)); [|reflexivity].
  assert (Hc : atoms (if j_lazy j then RMoveThunk c else c) = atoms c) by (destruct (j_lazy j); reflexivity).
  destruct (is_spawn (j_cfg j)); [|exact Hc].
  destruct (is_async (j_cfg j)); asimp; rewrite Hc; now rewrite !app_nil_r.
Qed.

(* what the branches contribute to step k (branch indices from b) *)
Definition branches_step_atoms (k b : nat) (chs : list (list (list action))) : list uatom :=
  flat_map (fun ic => step_atoms (fst ic) 0 (nth k (snd ic) [])) (enum_from b chs).

Lemma gen_branches_atoms j k vars chs b defs cs :
  chains_wf chs -> gen_branches j k vars b chs = Ok (defs, cs) ->
  Permutation (A_ss defs ++ A_es cs) (branches_step_atoms k b chs).
Proof.
  intros Hwf H. revert Hwf. revert H.
  apply (gen_branches_run j k vars (fun b chs defs cs =>
           chains_wf chs -> Permutation (A_ss defs ++ A_es cs) (branches_step_atoms k b chs)));
    unfold branches_step_atoms; cbn [enum_from flat_map fst snd].
  - constructor.
  - intros b0 ch rest d0 c0 Hn IH Hwf. inversion Hwf; subst.
    replace (nth k ch []) with (@nil action); [auto|].
    destruct Hn as [Hn|Hn]; [now rewrite nth_overflow by apply nth_error_None, Hn|now rewrite (nth_error_nth _ _ _ Hn)].
  - intros b0 ch rest d0 c0 acts ds s Hn _ Hs IH Hwf. inversion Hwf as [|? ? Hch Hrest]; subst.
    rewrite (nth_error_nth _ _ _ Hn), A_ss_app, wrap_branch_atoms.
    assert (Hp : Permutation (A_ss ds ++ atoms s) (step_atoms b0 0 acts)).
    { apply (gen_branch_step_atoms _ _ _ _ _ _ (proj1 (Forall_forall _ _) Hch _ (nth_error_In _ _ Hn)) Hs). }
    rewrite <- Hp, <- (IH Hrest), <- !app_assoc. apply Permutation_app_head, Permutation_app_swap_app.
Qed.

Definition joiner_atoms_at (j : jout) (k : nat) : list uatom :=
  if Nat.ltb 1 (active_count j k)
  then match j_joiner j with Some jt => [UExpr jt] | None => [] end
  else [].

Lemma indexed_sr_atoms j sr k i : atoms (indexed_sr j sr k i) = [].
Proof. unfold indexed_sr. destruct (Nat.ltb 1 (active_count j k)); reflexivity. Qed.

Lemma thread_builders_atoms j k sr tbs sjs :
  thread_builders j k sr = (tbs, sjs) -> A_ss tbs = [] /\ A_ss sjs = [].
Proof.
  unfold thread_builders.
  destruct (is_async (j_cfg j) || negb (is_spawn (j_cfg j)) || Nat.ltb (active_count j k) 2);
    intros H; inversion H; subst; [split; reflexivity|]. split.
  - apply flat_map_map_nil. reflexivity.
  - cbn [flat_map]. rewrite app_nil_r. rewrite a_SLet by exact I. rewrite a_RTuple.
    apply flat_map_map_nil. intros ib. asimp. rewrite indexed_sr_atoms. reflexivity.
Qed.

Lemma gen_step_atoms j k vars sr stmts :
  chains_wf (j_chains j) -> gen_step j k vars sr = Ok stmts ->
  Permutation (A_ss stmts) (joiner_atoms_at j k ++ branches_step_atoms k 0 (j_chains j)).
Proof.
  intros Hwf H. unfold gen_step in H. inv_bind H. destruct x as [defs chains].
  pose proof (gen_branches_atoms _ _ _ _ _ _ _ Hwf E) as Hp. unfold joiner_atoms_at.
  destruct (is_async (j_cfg j)) eqn:Ea.
  - inversion H; subst. rewrite A_ss_app. cbn [flat_map]. rewrite app_nil_r.
    destruct (Nat.ltb 1 (active_count j k)).
    + destruct (j_joiner j) as [jt|]; rewrite a_SLet by exact I; asimp.
      * rewrite <- Hp. symmetry. apply Permutation_middle.
      * exact Hp.
    + rewrite a_SLet by exact I. cbn [atoms app].
      destruct chains as [|c [|c' l]]; rewrite ?a_RJuxt; cbn [flat_map] in *; rewrite ?app_nil_r in *; exact Hp.
  - destruct (thread_builders j k sr) as [tbs sjs] eqn:Et.
    destruct (thread_builders_atoms _ _ _ _ _ Et) as [H1 H2].
    inversion H; subst. rewrite !A_ss_app. cbn [flat_map]. rewrite H1, H2. cbn [app]. rewrite ?app_nil_r.
    destruct (Nat.ltb 1 (active_count j k)); [destruct (j_joiner j) as [jt|]|]; rewrite a_SLet by exact I; asimp.
    + rewrite <- Hp. symmetry. apply Permutation_middle.
    + exact Hp.
    + exact Hp.
Qed.

(* the glue between steps contains no user tokens *)
Lemma tuple_of_atoms vars : atoms (tuple_of vars) = [].
Proof. unfold tuple_of. rewrite a_RTuple. apply flat_map_map_nil. reflexivity. Qed.
Lemma extract_step_atoms j sr pats k : atoms_stmt (extract_step j sr pats k) = [].
Proof. unfold extract_step. rewrite a_SLet_tuple. reflexivity. Qed.
Lemma transposer_atoms vars ret : forall t, transposer vars ret = Some t -> atoms t = atoms ret.
Proof.
  induction vars as [|x r IH]; intros t H; cbn [transposer] in H; [discriminate|].
  destruct r as [|y r'].
  - inversion H; subst. asimp. now rewrite app_nil_r.
  - destruct (transposer (y :: r') ret) as [acc|] eqn:E; [|discriminate]. inversion H; subst.
    asimp. rewrite app_nil_r. apply IH. reflexivity.
Qed.

Definition next_atoms (next : option body) : list uatom :=
  match next with Some (nss, ne) => A_ss nss ++ atoms ne | None => [] end.

Lemma join_steps_atoms j k step next pats vars sr ss e :
  (is_try (j_cfg j) = true -> Nat.ltb k (j_max j - 1) = false -> next = None) ->
  join_steps j k step next pats vars sr = Ok (ss, e) ->
  A_ss ss ++ atoms e = A_ss step ++ next_atoms next.
Proof.
  intros Hn. unfold join_steps, next_atoms.
  pose proof (extract_step_atoms j sr pats k) as Hx.
  destruct (is_try (j_cfg j)) eqn:Et; cbn [andb].
  - destruct (Nat.ltb k (j_max j - 1)) eqn:Ek.
    + destruct next as [[nss ne]|]; [|destruct (j_transpose j); discriminate].
      destruct (j_transpose j).
      * intros H; inversion H; subst. rewrite A_ss_app. cbn [flat_map]. rewrite Hx. asimp.
        rewrite flat_map_map_nil by reflexivity.
        rewrite (flat_map_nil (fun ix : nat * rexpr => atoms (snd ix))).
        2:{ intros ix Hix. apply in_map_iff in Hix as (nv & <- & _). reflexivity. }
        cbn [app]. now rewrite ?app_nil_r, <- ?app_assoc.
      * intros H; inversion H; subst. asimp. rewrite A_ss_app.
        assert (Hc : A_ss (if is_async (j_cfg j)
                           then [SLet (PIdent sr) (RTuple (map (fun ib => ROk (indexed_sr j sr k (fst ib)))
                                                               (enum_from 0 (active_branches j k))));
                                 extract_step j sr pats k]
                           else [extract_step j sr pats k]) = []).
        { destruct (is_async (j_cfg j)); cbn [flat_map]; rewrite Hx; [|reflexivity].
          rewrite a_SLet by exact I. rewrite a_RTuple. rewrite flat_map_map_nil; [reflexivity|].
          intros ib. cbn [atoms]. apply indexed_sr_atoms. }
        rewrite Hc. cbn [app]. now rewrite ?app_nil_r, <- ?app_assoc.
    + rewrite (Hn eq_refl eq_refl). rewrite app_nil_r.
      destruct (j_transpose j); cbn [andb].
      * destruct (transposer vars (tuple_of vars)) as [t|] eqn:E; [|discriminate].
        intros H; inversion H; subst. rewrite A_ss_app. cbn [flat_map]. rewrite Hx.
        rewrite (transposer_atoms _ _ _ E), tuple_of_atoms. cbn [app]. now rewrite ?app_nil_r, <- ?app_assoc.
      * destruct (Nat.ltb 1 (j_branch_count j)).
        -- destruct (map snd (filter (fun iv => negb (is_active j k (fst iv))) (enum_from 0 vars))) as [|r0 rs].
           ++ intros H; inversion H; subst. asimp. rewrite Hx, tuple_of_atoms. cbn [app]. now rewrite ?app_nil_r, <- ?app_assoc.
           ++ destruct (transposer (r0 :: rs) (tuple_of vars)) as [t|] eqn:E; [|discriminate].
              intros H; inversion H; subst. asimp. rewrite Hx, (transposer_atoms _ _ _ E), tuple_of_atoms. cbn [app]. now rewrite ?app_nil_r, <- ?app_assoc.
        -- intros H; inversion H; subst. asimp. cbn [app]. now rewrite ?app_nil_r, <- ?app_assoc.
  - rewrite andb_false_r. destruct next as [[nss ne]|]; intros H; inversion H; subst.
    + rewrite !A_ss_app. cbn [flat_map]. rewrite Hx. cbn [app]. now rewrite ?app_nil_r, <- ?app_assoc.
    + rewrite A_ss_app. cbn [flat_map]. rewrite Hx, tuple_of_atoms. cbn [app]. now rewrite ?app_nil_r, <- ?app_assoc.
Qed.

Definition step_total_atoms (j : jout) (k : nat) : list uatom :=
  joiner_atoms_at j k ++ branches_step_atoms k 0 (j_chains j).

Lemma gen_steps_atoms j pats vars : forall n k r,
  chains_wf (j_chains j) -> k + n = j_max j ->
  gen_steps j pats vars k n = Ok r ->
  Permutation (next_atoms r) (flat_map (step_total_atoms j) (seq k n)).
Proof.
  induction n as [|n IH]; intros k r Hwf Hk H.
  - injection H as <-. constructor.
  - apply gen_steps_S_inv in H as (next & step & [ss e] & E & Es & Ej & ->).
    cbn [next_atoms seq flat_map].
    erewrite join_steps_atoms; [|intros _ Hlt|exact Ej].
    + apply Permutation_app; [exact (gen_step_atoms _ _ _ _ _ Hwf Es)|]. apply (IH (S k)); auto. lia.
    + apply Nat.ltb_ge in Hlt. replace n with 0 in E by lia. now injection E as <-.
Qed.

Definition handler_atoms (h : option (hkind * operand)) : list uatom :=
  match h with Some (_, o) => [UBound n_h o] | None => [] end.

Lemma gen_handle_atoms j : atoms (gen_handle j) = [].
Proof.
  unfold gen_handle. cbv beta zeta.
  assert (Hcall : atoms (RBlock [SLet (PTuple (map PIdent (map n_r (seq 0 (j_branch_count j))))) (RVar n_rs)]
                                (RCall (RVar n_h) (map RVar (map n_r (seq 0 (j_branch_count j)))))) = []).
  { asimp. apply flat_map_map_nil. reflexivity. }
  assert (Haw : forall e, atoms (if is_async (j_cfg j) then RAwait e else e) = atoms e).
  { intros e. destruct (is_async (j_cfg j)); reflexivity. }
  assert (Hg : forall r m x body, atoms (RGlue r m [RClosure x body]) = atoms r ++ atoms body).
  { intros. rewrite a_RGlue. cbn [flat_map]. now rewrite app_nil_r. }
  destruct (j_handler j) as [[[| |] h]|]; rewrite ?Haw, ?Hg, ?wrap_into_block_atoms, ?a_RBlock.
  - destruct (is_async (j_cfg j)); [rewrite Hg|]; exact Hcall.
  - exact Hcall.
  - exact Hcall.
  - reflexivity.
Qed.

Theorem gen_output_atoms j e :
  chains_wf (j_chains j) -> gen_output j = Ok e ->
  Permutation (atoms e) (handler_atoms (j_handler j) ++ flat_map (step_total_atoms j) (seq 0 (j_max j))).
Proof.
  intros Hwf H. unfold gen_output in H. inv_bind H.
  pose proof (gen_steps_atoms _ _ _ _ _ _ Hwf (Nat.add_0_l _) E) as Hp.
  destruct x as [[sss se]|]; [|discriminate]. cbn [next_atoms] in Hp.
  assert (Htail : Permutation
            (A_ss (match j_handler j with Some (_, h) => [SLet (PIdent n_h) (RUser h)] | None => [] end
                   ++ [SLet (PIdent n_rs) (RBlock sss se)]))
            (handler_atoms (j_handler j) ++ flat_map (step_total_atoms j) (seq 0 (j_max j)))).
  { rewrite A_ss_app. cbn [flat_map]. rewrite a_SLet by exact I. rewrite a_RBlock, app_nil_r.
    apply Permutation_app; [|exact Hp]. destruct (j_handler j) as [[hk h]|]; reflexivity. }
  destruct (is_async (j_cfg j)); inversion H; subst; asimp; rewrite gen_handle_atoms, app_nil_r.
  - destruct (is_spawn (j_cfg j)); cbn [app flat_map atoms_stmt]; exact Htail.
  - destruct (is_spawn (j_cfg j)); cbn [app flat_map atoms_stmt]; exact Htail.
Qed.

(** * From "per step, per branch" to "per branch, per step" *)

Lemma flat_map_map' {A B C} (f : B -> list C) (g : A -> B) l : flat_map f (map g l) = flat_map (fun x => f (g x)) l.
Proof. induction l as [|x r IH]; cbn [map flat_map]; [reflexivity|]. now rewrite IH. Qed.

Lemma flat_map_swap {A B C} (F : A -> B -> list C) ks l :
  Permutation (flat_map (fun k => flat_map (fun x => F k x) l) ks)
              (flat_map (fun x => flat_map (fun k => F k x) ks) l).
Proof.
  induction l as [|x r IH]; cbn [flat_map].
  - rewrite flat_map_nil; [constructor|reflexivity].
  - eapply Permutation_trans; [apply flat_map_app_perm|]. apply Permutation_app_head, IH.
Qed.

Lemma flat_map_steps {B} (f : list action -> list B) (ch : list (list action)) : forall m,
  f [] = [] -> List.length ch <= m ->
  flat_map (fun k => f (nth k ch [])) (seq 0 m) = flat_map f ch.
Proof.
  induction ch as [|s r IH]; intros m Hf Hm.
  - cbn [flat_map]. apply flat_map_nil. intros k _. now destruct k.
  - destruct m as [|m']; [cbn in Hm; lia|]. cbn [seq flat_map nth]. f_equal.
    rewrite <- seq_shift, flat_map_map'. cbn [nth]. apply IH; [exact Hf|cbn in Hm; lia].
Qed.

Lemma joiner_total j : forall ks,
  flat_map (joiner_atoms_at j) ks =
  match j_joiner j with
  | Some jt => repeat (UExpr jt) (List.length (filter (fun k => Nat.ltb 1 (active_count j k)) ks))
  | None => []
  end.
Proof.
  induction ks as [|k r IH]; cbn [flat_map filter].
  - destruct (j_joiner j); reflexivity.
  - rewrite IH. unfold joiner_atoms_at. destruct (Nat.ltb 1 (active_count j k)); destruct (j_joiner j); reflexivity.
Qed.

(** * The atoms of the whole expansion *)

Definition depths (inp : input) : list nat :=
  map (fun c : list (list action) => List.length c) (map (fun b => split_steps (b_members b)) (i_branches inp)).
(* step k is a multi-branch step: more than one branch is still active *)
Definition multi_step (inp : input) (k : nat) : bool :=
  Nat.ltb 1 (List.length (filter (fun d => Nat.ltb k d) (depths inp))).
Definition multi_steps (inp : input) : nat :=
  List.length (filter (multi_step inp) (seq 0 (list_max (depths inp)))).

Definition branch_atoms (bi : nat) (b : branch) : list uatom :=
  flat_map (step_atoms bi 0) (split_steps (b_members b)).

Definition input_atoms (inp : input) : list uatom :=
  handler_atoms (i_handler inp) ++
  match i_joiner inp with Some jt => repeat (UExpr jt) (multi_steps inp) | None => [] end ++
  flat_map (fun ib => branch_atoms (fst ib) (snd ib)) (enum_from 0 (i_branches inp)).

Lemma steps_rearranged (chs : list (list (list action))) m b0 :
  (forall ch, In ch chs -> List.length ch <= m) ->
  Permutation (flat_map (fun k => branches_step_atoms k b0 chs) (seq 0 m))
              (flat_map (fun ic => flat_map (step_atoms (fst ic) 0) (snd ic)) (enum_from b0 chs)).
Proof.
  intros Hm. unfold branches_step_atoms.
  eapply Permutation_trans; [apply (flat_map_swap (fun k ic => step_atoms (fst ic) 0 (nth k (snd ic) [])))|].
  apply flat_map_perm_ext. intros [bi ch] Hin. cbn [fst snd].
  rewrite (flat_map_steps (step_atoms bi 0)); [reflexivity|reflexivity|].
  apply Hm. clear Hm. revert b0 Hin. induction chs as [|c r IH]; intros b0 Hin; [destruct Hin|].
  cbn [enum_from] in Hin. destruct Hin as [Heq|Hin]; [inversion Heq; now left|right; eapply IH; eauto].
Qed.

Theorem atoms_exact cfg inp e :
  wf_parsed inp -> gen cfg inp = Ok e -> Permutation (atoms e) (input_atoms inp).
Proof.
  intros Hwf H. apply gen_ok_unfold in H as [_ H].
  pose proof (gen_output_atoms _ _ (wf_chains_wf cfg inp Hwf) H) as Hp.
  eapply Permutation_trans; [exact Hp|]. unfold input_atoms. cbn [the_jout j_handler].
  apply Permutation_app_head. unfold step_total_atoms.
  eapply Permutation_trans; [apply flat_map_app_perm|]. apply Permutation_app.
  - rewrite joiner_total. cbn [the_jout j_joiner j_max]. reflexivity.
  - cbn [the_jout j_chains j_max].
    eapply Permutation_trans; [apply steps_rearranged|].
    + intros ch Hch. apply list_max_ge. apply (in_map (fun c : list (list action) => List.length c)). exact Hch.
    + rewrite enum_from_map, flat_map_map'. reflexivity.
Qed.

Print Assumptions atoms_exact.

(** * Projections: the plain multisets of expression / type / member operands *)

(* the `RUser` leaves of a term, by a plain traversal *)
Fixpoint leaves (e : rexpr) : list operand :=
  let es := fix go (l : list rexpr) : list operand :=
              match l with [] => [] | x :: r => leaves x ++ go r end in
  let ss := fix go (l : list rstmt) : list operand :=
              match l with [] => [] | s :: r => leaves_stmt s ++ go r end in
  match e with
  | RUser o => [o]
  | RVar _ | RUsize _ | RBool _ | RUnreachable | RJoinMac _ _ => []
  | RBlock s e | RAsyncMove s e => ss s ++ leaves e
  | RAwait e | RBoxPin e | RField e _ | RClosure _ e | RClosureMove _ e | RClosureIgn e | RMoveThunk e
  | RNot e | RRef e | ROk e => leaves e
  | RTuple l | RArray l | RJuxt l => es l
  | RMeth r _ _ args | RGlue r _ args => leaves r ++ es args
  | RDot r _ => leaves r
  | RCall f args => leaves f ++ es args
  | RThenCall o arg => leaves o ++ leaves arg
  | RIfLetSome _ s t e => leaves s ++ leaves t ++ leaves e
  | RMatchIdx s arms =>
      leaves s ++ (fix go (l : list (nat * rexpr)) : list operand :=
                     match l with [] => [] | ix :: r => leaves (snd ix) ++ go r end) arms
  | RMatchOk s _ a => leaves s ++ leaves a
  end
with leaves_stmt (s : rstmt) : list operand :=
  match s with
  | SLet _ e | SExpr e => leaves e
  | SFn _ _ _ body => leaves body
  | STbFn | SSpawnTokioFn _ | SUseFutures _ => []
  end.

(* the type operands (turbofish fields of the user's methods) and the member-access operands *)
Fixpoint tyfields (e : rexpr) : list operand :=
  let es := fix go (l : list rexpr) : list operand :=
              match l with [] => [] | x :: r => tyfields x ++ go r end in
  let ss := fix go (l : list rstmt) : list operand :=
              match l with [] => [] | s :: r => tyfields_stmt s ++ go r end in
  match e with
  | RUser _ | RVar _ | RUsize _ | RBool _ | RUnreachable | RJoinMac _ _ => []
  | RBlock s e | RAsyncMove s e => ss s ++ tyfields e
  | RAwait e | RBoxPin e | RField e _ | RClosure _ e | RClosureMove _ e | RClosureIgn e | RMoveThunk e
  | RNot e | RRef e | ROk e => tyfields e
  | RTuple l | RArray l | RJuxt l => es l
  | RMeth r _ tf args => tyfields r ++ match tf with Some tys => tys | None => [] end ++ es args
  | RGlue r _ args => tyfields r ++ es args
  | RDot r _ => tyfields r
  | RCall f args => tyfields f ++ es args
  | RThenCall o arg => tyfields o ++ tyfields arg
  | RIfLetSome _ s t e => tyfields s ++ tyfields t ++ tyfields e
  | RMatchIdx s arms =>
      tyfields s ++ (fix go (l : list (nat * rexpr)) : list operand :=
                       match l with [] => [] | ix :: r => tyfields (snd ix) ++ go r end) arms
  | RMatchOk s _ a => tyfields s ++ tyfields a
  end
with tyfields_stmt (s : rstmt) : list operand :=
  match s with
  | SLet _ e | SExpr e => tyfields e
  | SFn _ _ _ body => tyfields body
  | STbFn | SSpawnTokioFn _ | SUseFutures _ => []
  end.

Fixpoint dotfields (e : rexpr) : list operand :=
  let es := fix go (l : list rexpr) : list operand :=
              match l with [] => [] | x :: r => dotfields x ++ go r end in
  let ss := fix go (l : list rstmt) : list operand :=
              match l with [] => [] | s :: r => dotfields_stmt s ++ go r end in
  match e with
  | RUser _ | RVar _ | RUsize _ | RBool _ | RUnreachable | RJoinMac _ _ => []
  | RBlock s e | RAsyncMove s e => ss s ++ dotfields e
  | RAwait e | RBoxPin e | RField e _ | RClosure _ e | RClosureMove _ e | RClosureIgn e | RMoveThunk e
  | RNot e | RRef e | ROk e => dotfields e
  | RTuple l | RArray l | RJuxt l => es l
  | RMeth r _ _ args | RGlue r _ args => dotfields r ++ es args
  | RDot r o => dotfields r ++ [o]
  | RCall f args => dotfields f ++ es args
  | RThenCall o arg => dotfields o ++ dotfields arg
  | RIfLetSome _ s t e => dotfields s ++ dotfields t ++ dotfields e
  | RMatchIdx s arms =>
      dotfields s ++ (fix go (l : list (nat * rexpr)) : list operand :=
                        match l with [] => [] | ix :: r => dotfields (snd ix) ++ go r end) arms
  | RMatchOk s _ a => dotfields s ++ dotfields a
  end
with dotfields_stmt (s : rstmt) : list operand :=
  match s with
  | SLet _ e | SExpr e => dotfields e
  | SFn _ _ _ body => dotfields body
  | STbFn | SSpawnTokioFn _ | SUseFutures _ => []
  end.

Definition expr_of (a : uatom) : list operand := match a with UExpr o | UBound _ o => [o] | _ => [] end.
Definition type_of (a : uatom) : list operand := match a with UType o => [o] | _ => [] end.
Definition dot_of (a : uatom) : list operand := match a with UDot o => [o] | _ => [] end.

Lemma flat_map_map_unit {A B C} (f : B -> list C) (k : A -> B) (g : A -> C) l :
  (forall x, f (k x) = [g x]) -> flat_map f (map k l) = map g l.
Proof. intros H. induction l as [|x r IH]; cbn [map flat_map]; [reflexivity|]. now rewrite H, IH. Qed.

(* The three traversals are one traversal: what a user expression, a turbofish and a member access contribute are
   parameters.  The last two are given what stands after resp. before them, so that a traversal to which they
   contribute nothing is an instance as it is written, with no `++ []`.  `leaves`, `tyfields` and `dotfields` above
   are convertible with the three instances, which is how `gather_atoms` is applied to them in `leaves_atoms`,
   `tyfields_atoms` and `dotfields_atoms` below. *)
Section Gather.
  Variables (leaf : operand -> list operand) (ty : option (list operand) -> list operand -> list operand)
            (dot : operand -> list operand -> list operand).

  Fixpoint gather (e : rexpr) : list operand :=
    let es := fix go (l : list rexpr) : list operand :=
                match l with [] => [] | x :: r => gather x ++ go r end in
    let ss := fix go (l : list rstmt) : list operand :=
                match l with [] => [] | s :: r => gather_stmt s ++ go r end in
    match e with
    | RUser o => leaf o
    | RVar _ | RUsize _ | RBool _ | RUnreachable | RJoinMac _ _ => []
    | RBlock s e | RAsyncMove s e => ss s ++ gather e
    | RAwait e | RBoxPin e | RField e _ | RClosure _ e | RClosureMove _ e | RClosureIgn e | RMoveThunk e
    | RNot e | RRef e | ROk e => gather e
    | RTuple l | RArray l | RJuxt l => es l
    | RMeth r _ tf args => gather r ++ ty tf (es args)
    | RGlue r _ args => gather r ++ es args
    | RDot r o => dot o (gather r)
    | RCall f args => gather f ++ es args
    | RThenCall o arg => gather o ++ gather arg
    | RIfLetSome _ s t e => gather s ++ gather t ++ gather e
    | RMatchIdx s arms =>
        gather s ++ (fix go (l : list (nat * rexpr)) : list operand :=
                       match l with [] => [] | ix :: r => gather (snd ix) ++ go r end) arms
    | RMatchOk s _ a => gather s ++ gather a
    end
  with gather_stmt (s : rstmt) : list operand :=
    match s with
    | SLet _ e | SExpr e => gather e
    | SFn _ _ _ body => gather body
    | STbFn | SSpawnTokioFn _ | SUseFutures _ => []
    end.

  (* it is the projection of the census that treats the four kinds of atoms in the same way *)
  Variable pr : uatom -> list operand.
  Hypothesis Hexpr : forall o, pr (UExpr o) = leaf o.
  Hypothesis Hbound : forall x o, pr (UBound x o) = leaf o.
  Hypothesis Hty : forall tf l,
    ty tf l = flat_map pr (match tf with Some tys => map UType tys | None => [] end) ++ l.
  Hypothesis Hdot : forall o l, dot o l = l ++ pr (UDot o).

  Lemma SLet_proj p e : flat_map pr (atoms_stmt (SLet p e)) = flat_map pr (atoms e).
  Proof.
    destruct e; try (now rewrite a_SLet). destruct p; try reflexivity.
    cbn [atoms_stmt atoms flat_map]. now rewrite Hbound, Hexpr.
  Qed.

  Fixpoint gather_atoms (e : rexpr) : gather e = flat_map pr (atoms e)
  with gather_atoms_stmt (s : rstmt) : gather_stmt s = flat_map pr (atoms_stmt s).
  Proof.
    - assert (Hes : forall l, (fix go (l : list rexpr) : list operand :=
                                 match l with [] => [] | x :: r => gather x ++ go r end) l
                              = flat_map pr (A_es l)).
      { intros l. induction l as [|x r IH]; cbn [flat_map]; [reflexivity|].
        rewrite flat_map_app, IH, (gather_atoms x). reflexivity. }
      assert (Hss : forall l, (fix go (l : list rstmt) : list operand :=
                                 match l with [] => [] | s :: r => gather_stmt s ++ go r end) l
                              = flat_map pr (A_ss l)).
      { intros l. induction l as [|x r IH]; cbn [flat_map]; [reflexivity|].
        rewrite flat_map_app, IH, (gather_atoms_stmt x). reflexivity. }
      destruct e; cbn [gather]; rewrite ?Hes, ?Hss, ?Hty, ?Hdot;
        rewrite ?a_RBlock, ?a_RAsyncMove, ?a_RTuple, ?a_RArray, ?a_RJuxt, ?a_RMeth, ?a_RGlue, ?a_RCall;
        cbn [atoms]; rewrite ?flat_map_app; cbn [flat_map]; rewrite ?app_nil_r;
        repeat match goal with |- context [gather ?x] => rewrite (gather_atoms x) end; try reflexivity.
      + symmetry. apply Hexpr.
      + rewrite at_arms. f_equal.
        induction arms as [|ix r IH]; cbn [flat_map]; [reflexivity|].
        rewrite flat_map_app, IH, (gather_atoms (snd ix)). reflexivity.
    - destruct s; cbn [gather_stmt]; rewrite ?SLet_proj; cbn [atoms_stmt]; try apply gather_atoms; reflexivity.
  Qed.
End Gather.

Lemma leaves_atoms e : leaves e = flat_map expr_of (atoms e).
Proof.
  apply (gather_atoms (fun o => [o]) (fun _ l => l) (fun _ l => l) expr_of); try reflexivity.
  - intros [tys|] l; [rewrite flat_map_map_nil|]; reflexivity.
  - intros o l. symmetry. apply app_nil_r.
Qed.

Lemma tyfields_atoms e : tyfields e = flat_map type_of (atoms e).
Proof.
  apply (gather_atoms (fun _ => []) (fun tf l => match tf with Some tys => tys | None => [] end ++ l) (fun _ l => l) type_of);
    try reflexivity.
  - intros [tys|] l; [rewrite (flat_map_map_unit _ _ (fun o => o)), map_id|]; reflexivity.
  - intros o l. symmetry. apply app_nil_r.
Qed.

Lemma dotfields_atoms e : dotfields e = flat_map dot_of (atoms e).
Proof.
  apply (gather_atoms (fun _ => []) (fun _ l => l) (fun o l => l ++ [o]) dot_of); try reflexivity.
  intros [tys|] l; [rewrite flat_map_map_nil|]; reflexivity.
Qed.

(** * C10 in plain terms *)

Definition expr_operands (a : action) : list operand :=
  match a_mv a with
  | NoMove => if has_inner_exprs (a_comb a) && negb (comb_eqb (a_comb a) Dot) then a_ops a else []
  | Wrap | Unwrap => []
  end.
Definition type_operands (a : action) : list operand :=
  match a_mv a with
  | NoMove => match a_comb a with Collect | Unzip => a_ops a | _ => [] end
  | Wrap | Unwrap => []
  end.
Definition dot_operands (a : action) : list operand :=
  match a_mv a with
  | NoMove => match a_comb a with Dot => a_ops a | _ => [] end
  | Wrap | Unwrap => []
  end.

(* on parser output these are ALL operands of a member - except the generated placeholder closure `|__v| __v` that
   a `>>>` member holds, which the generator replaces by the closure it builds; a `<<<` member has no operand *)
Lemma operands_partition a :
  act_ok a -> a_mv a = NoMove -> a_ops a = expr_operands a ++ type_operands a ++ dot_operands a.
Proof.
  intros (Har & _ & Hu) Hm. unfold expr_operands, type_operands, dot_operands. rewrite Hm.
  destruct (a_comb a) eqn:Ec; cbn [has_inner_exprs comb_eqb negb andb app]; rewrite ?app_nil_r; try reflexivity;
    cbn in Har; destruct (a_ops a) as [|o l]; try reflexivity; try discriminate.
Qed.
Lemma unwrap_no_operands a : act_ok a -> a_mv a = Unwrap -> a_ops a = [].
Proof.
  intros (Har & _ & Hu) Hm. apply Hu in Hm. rewrite Hm in Har. cbn in Har.
  destruct (a_ops a); [reflexivity|discriminate].
Qed.

Lemma flat_map_flat_map {A B C} (f : A -> list B) (g : B -> list C) l :
  flat_map g (flat_map f l) = flat_map (fun x => flat_map g (f x)) l.
Proof. induction l as [|x r IH]; cbn [flat_map]; [reflexivity|]. now rewrite flat_map_app, IH. Qed.

Lemma flat_map_concat' {A B} (f : A -> list B) (l : list (list A)) :
  flat_map (flat_map f) l = flat_map f (List.concat l).
Proof. induction l as [|x r IH]; cbn [flat_map List.concat]; [reflexivity|]. now rewrite flat_map_app, IH. Qed.

Lemma flat_map_enum_snd {A B} (f : A -> list B) l : forall i,
  flat_map (fun ix => f (snd ix)) (enum_from i l) = flat_map f l.
Proof. induction l as [|x r IH]; intros i; cbn [enum_from flat_map snd]; [reflexivity|]. now rewrite IH. Qed.

Lemma enum_from_snd {A} (l : list A) : forall i, map snd (enum_from i l) = l.
Proof. induction l as [|x r IH]; intros i; cbn [enum_from map snd]; [reflexivity|]. now rewrite IH. Qed.

Lemma tag_expr_proj b e io :
  expr_of (tag_expr b e io) = [snd io] /\ type_of (tag_expr b e io) = [] /\ dot_of (tag_expr b e io) = [].
Proof. unfold tag_expr. destruct (is_block (snd io)); repeat split; reflexivity. Qed.

(* of a member's atoms, `map UDot ops`, `map UType ops` or the tagged `ops`, a projection keeps all or nothing *)
Lemma action_expr_of b e a : flat_map expr_of (action_atoms b e a) = expr_operands a.
Proof.
  unfold action_atoms, expr_operands. destruct (a_mv a); try reflexivity.
  destruct (a_comb a); cbn [has_inner_exprs comb_eqb negb andb]; try reflexivity.
  all: try (apply flat_map_map_nil; reflexivity).
  all: rewrite (flat_map_map_unit _ _ snd) by apply tag_expr_proj; apply enum_from_snd.
Qed.
Lemma action_type_of b e a : flat_map type_of (action_atoms b e a) = type_operands a.
Proof.
  unfold action_atoms, type_operands. destruct (a_mv a); try reflexivity.
  destruct (a_comb a); cbn [has_inner_exprs]; try reflexivity.
  all: try (apply flat_map_map_nil; first [reflexivity | apply tag_expr_proj]).
  all: rewrite (flat_map_map_unit _ _ (fun o => o)) by reflexivity; apply map_id.
Qed.
Lemma action_dot_of b e a : flat_map dot_of (action_atoms b e a) = dot_operands a.
Proof.
  unfold action_atoms, dot_operands. destruct (a_mv a); try reflexivity.
  destruct (a_comb a); cbn [has_inner_exprs]; try reflexivity.
  all: try (apply flat_map_map_nil; first [reflexivity | apply tag_expr_proj]).
  all: rewrite (flat_map_map_unit _ _ (fun o => o)) by reflexivity; apply map_id.
Qed.

Definition handler_operand (inp : input) : list operand :=
  match i_handler inp with Some (_, h) => [h] | None => [] end.
Definition joiner_copies (inp : input) : list operand :=
  match i_joiner inp with Some jt => repeat jt (multi_steps inp) | None => [] end.

(* a projection `pr` of the census that selects the operands `sel` of each member *)
Section ProjBranch.
  Variable pr : uatom -> list operand.
  Variable sel : action -> list operand.
  Hypothesis Hact : forall b e a, flat_map pr (action_atoms b e a) = sel a.

  Lemma step_proj b acts : forall e, flat_map pr (step_atoms b e acts) = flat_map sel acts.
  Proof.
    unfold step_atoms. induction acts as [|a r IH]; intros e; cbn [enum_from flat_map fst snd]; [reflexivity|].
    now rewrite flat_map_app, Hact, IH.
  Qed.
  Lemma branch_proj bi b : flat_map pr (branch_atoms bi b) = flat_map sel (b_members b).
  Proof.
    unfold branch_atoms. rewrite flat_map_flat_map.
    rewrite (flat_map_ext _ (flat_map sel)) by (intros s; apply step_proj).
    rewrite flat_map_concat', split_steps_concat. reflexivity.
  Qed.
  Lemma branches_proj bs : forall i,
    flat_map pr (flat_map (fun ib => branch_atoms (fst ib) (snd ib)) (enum_from i bs))
    = flat_map (fun b => flat_map sel (b_members b)) bs.
  Proof.
    intros i. rewrite flat_map_flat_map.
    rewrite (flat_map_ext _ (fun ib => flat_map sel (b_members (snd ib)))) by (intros ib; apply branch_proj).
    apply (flat_map_enum_snd (fun b => flat_map sel (b_members b))).
  Qed.

  Lemma expansion_proj cfg inp e :
    wf_parsed inp -> gen cfg inp = Ok e ->
    Permutation (flat_map pr (atoms e))
                (flat_map pr (handler_atoms (i_handler inp)) ++
                 flat_map pr match i_joiner inp with Some jt => repeat (UExpr jt) (multi_steps inp) | None => [] end ++
                 flat_map (fun b => flat_map sel (b_members b)) (i_branches inp)).
  Proof.
    intros Hwf H. rewrite (Permutation_flat_map pr (atoms_exact cfg inp e Hwf H)).
    unfold input_atoms. now rewrite !flat_map_app, branches_proj.
  Qed.

  (* a projection that sees no expression sees neither the handler nor the joiner *)
  Lemma expansion_proj_members cfg inp e :
    (forall o, pr (UExpr o) = []) -> (forall x o, pr (UBound x o) = []) ->
    wf_parsed inp -> gen cfg inp = Ok e ->
    Permutation (flat_map pr (atoms e)) (flat_map (fun b => flat_map sel (b_members b)) (i_branches inp)).
  Proof.
    intros He Hb Hwf H. rewrite (expansion_proj cfg inp e Hwf H).
    assert (Hh : flat_map pr (handler_atoms (i_handler inp)) = []).
    { destruct (i_handler inp) as [[hk h]|]; [|reflexivity]. cbn. now rewrite Hb. }
    assert (Hj : flat_map pr match i_joiner inp with Some jt => repeat (UExpr jt) (multi_steps inp) | None => [] end = []).
    { destruct (i_joiner inp) as [jt|]; [|reflexivity].
      apply flat_map_nil. intros a Ha. apply repeat_spec in Ha as ->. apply He. }
    now rewrite Hh, Hj.
  Qed.
End ProjBranch.

(* C10(1): the user expressions in the expansion = the expression operands of all members + the handler
   expression + the custom joiner once per multi-branch step; as multisets *)
Theorem operands_occur_once cfg inp e :
  wf_parsed inp -> gen cfg inp = Ok e ->
  Permutation (leaves e)
              (handler_operand inp ++ joiner_copies inp ++
               flat_map (fun b => flat_map expr_operands (b_members b)) (i_branches inp)).
Proof.
  intros Hwf H. rewrite leaves_atoms, (expansion_proj expr_of expr_operands action_expr_of cfg inp e Hwf H).
  apply Permutation_app; [|apply Permutation_app; [|reflexivity]].
  - unfold handler_atoms, handler_operand. destruct (i_handler inp) as [[hk h]|]; reflexivity.
  - unfold joiner_copies. destruct (i_joiner inp) as [jt|]; [|reflexivity].
    induction (multi_steps inp) as [|n IH]; cbn [repeat flat_map expr_of app]; [reflexivity|]. now constructor.
Qed.

Theorem type_operands_occur_once cfg inp e :
  wf_parsed inp -> gen cfg inp = Ok e ->
  Permutation (tyfields e) (flat_map (fun b => flat_map type_operands (b_members b)) (i_branches inp)).
Proof. rewrite tyfields_atoms. now apply (expansion_proj_members type_of type_operands action_type_of). Qed.

Theorem dot_operands_occur_once cfg inp e :
  wf_parsed inp -> gen cfg inp = Ok e ->
  Permutation (dotfields e) (flat_map (fun b => flat_map dot_operands (b_members b)) (i_branches inp)).
Proof. rewrite dotfields_atoms. now apply (expansion_proj_members dot_of dot_operands action_dot_of). Qed.

(* hoisting: a `let x = <user expr>;` in the expansion is the handler binding or the binding of a BLOCK operand
   under its own name __ew<branch>_<position>_<operand index> *)
Theorem bound_atoms_are_blocks cfg inp e x o :
  wf_parsed inp -> gen cfg inp = Ok e -> In (UBound x o) (atoms e) ->
  (x = n_h /\ exists hk, i_handler inp = Some (hk, o)) \/
  (exists b k i, x = n_ew b k i /\ is_block o = true).
Proof.
  intros Hwf H Hin. apply (Permutation_in _ (atoms_exact cfg inp e Hwf H)) in Hin.
  unfold input_atoms in Hin. apply in_app_or in Hin as [Hin|Hin].
  - left. unfold handler_atoms in Hin. destruct (i_handler inp) as [[hk h]|]; [|destruct Hin].
    destruct Hin as [Heq|[]]. inversion Heq; subst. eauto.
  - right. apply in_app_or in Hin as [Hin|Hin].
    + destruct (i_joiner inp); [|destruct Hin]. apply repeat_spec in Hin. discriminate.
    + apply in_flat_map in Hin as ([bi b] & _ & Hin). unfold branch_atoms in Hin. cbn [fst snd] in Hin.
      apply in_flat_map in Hin as (s & _ & Hin). unfold step_atoms in Hin.
      apply in_flat_map in Hin as ([k a] & _ & Hin). cbn [fst snd] in Hin. unfold action_atoms in Hin.
      destruct (a_mv a); try (destruct Hin; fail).
      assert (Htag : In (UBound x o) (map (tag_expr bi k) (enum_from 0 (a_ops a))) ->
                     exists b k i, x = n_ew b k i /\ is_block o = true).
      { intros Ht. apply in_map_iff in Ht as ([i o'] & Ht & _). unfold tag_expr in Ht. cbn [fst snd] in Ht.
        destruct (is_block o') eqn:Eb; inversion Ht; subst. eauto. }
      destruct (a_comb a); cbn [has_inner_exprs] in Hin; try (apply Htag, Hin); try (destruct Hin; fail);
        apply in_map_iff in Hin as (o' & Ht & _); discriminate.
Qed.

Print Assumptions operands_occur_once.
Print Assumptions type_operands_occur_once.
Print Assumptions dot_operands_occur_once.
Print Assumptions bound_atoms_are_blocks.

(** * Non-vacuity (the 3-branch input of GenPropsA: wrappers, block operands, depths 3/1/2, joiner, handler) *)

Definition ex_cfg := mkConfig false true true.      (* try_join_spawn! *)

Example ex_atoms_concrete :
  exists e, gen ex_cfg ex_input = Ok e /\
    atoms e =
    [UBound "__h" (T "hd"); UBound "__ew0_3_0" (blk "g"); UBound "__ew2_0_0" (blk "c"); UExpr (T "my_joiner");
     UExpr (T "a"); UExpr (T "h"); UExpr (T "b"); UDot (T "len");
     UType (T "T1"); UType (T "T2"); UType (T "T3"); UType (T "T4");
     UBound "__ew0_0_0" (blk "k"); UExpr (T "my_joiner"); UType (T "Vec"); UBound "__ew0_0_0" (blk "z"); UExpr (T "f2")].
Proof. eexists. split; vm_compute; reflexivity. Qed.

(* the theorem applied: hypotheses hold, and the right-hand side is the explicit list of the user's operands;
   the joiner occurs twice (steps 0 and 1 have 3 resp. 2 active branches, step 2 has one) *)
Example ex_operands_once :
  exists e, gen ex_cfg ex_input = Ok e /\
    Permutation (leaves e)
      [T "hd"; T "my_joiner"; T "my_joiner"; T "a"; blk "g"; T "h"; blk "k"; blk "z"; T "f2"; T "b"; blk "c"] /\
    Permutation (tyfields e) [T "T1"; T "T2"; T "T3"; T "T4"; T "Vec"] /\
    Permutation (dotfields e) [T "len"].
Proof.
  destruct (gen ex_cfg ex_input) as [e| |] eqn:E; try (vm_compute in E; discriminate).
  exists e. split; [reflexivity|].
  pose proof (operands_occur_once ex_cfg ex_input e ex_input_wf' E) as H1.
  pose proof (type_operands_occur_once ex_cfg ex_input e ex_input_wf' E) as H2.
  pose proof (dot_operands_occur_once ex_cfg ex_input e ex_input_wf' E) as H3.
  vm_compute in H1, H2, H3. auto.
Qed.
Example ex_multi_steps : multi_steps ex_input = 2.
Proof. vm_compute. reflexivity. Qed.

(* why wf_parsed is needed (none of these can come out of the parser): an `Initial` member that is not first
   discards everything before it; an operand on `^^>` is ignored *)
Example ex_not_wf_drops :
  let inp := mkInput [mkBranch None [act Initial false NoMove [T "a"]; act Map false NoMove [T "f"];
                                     act Initial false NoMove [T "b"]; act Flatten false NoMove [T "junk"]]]
                     None None None None None in
  wf_parsedb inp = false /\
  exists e, gen (mkConfig false false false) inp = Ok e /\ leaves e = [T "b"].
Proof. split; [vm_compute; reflexivity|]. eexists. split; vm_compute; reflexivity. Qed.
