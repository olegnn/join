(* Corollaries of the refinement theorem: facts proved on the reference semantics (SpecProps.v)
   transported to the meaning of the GENERATED code, `den (gen cfg inp)`. *)
From Coq Require Import Lia.
From Join Require Import Tok Ast Ir Gen Comp Denote Spec CompLaws.
From Join Require Import RefineProg RefineTop.

Lemma prepare_fields cfg inp sp : prepare cfg inp = Some sp ->
  sp_cfg sp = cfg /\ sp_handler sp = i_handler inp /\
  Forall2 (fun br tr => Forall2 (fun acts t => nest acts = Some t) (split_steps (b_members br)) tr)
          (i_branches inp) (sp_trees sp).
Proof.
  unfold prepare.
  destruct (all_some (map (fun b => all_some (map nest (split_at_deferred (b_members b)))) (i_branches inp)))
    as [trees|] eqn:Et; [|discriminate].
  intros H; inversion H; subst sp; clear H. cbn [sp_cfg sp_handler sp_trees]. repeat split.
  apply all_some_Forall2 in Et. eapply Forall2_impl; [|exact Et]. cbn beta. intros br tr Hs.
  apply all_some_Forall2 in Hs. rewrite split_at_deferred_eq in Hs. exact Hs.
Qed.

Lemma prepare_depth_pos cfg inp sp : prepare cfg inp = Some sp ->
  forall b, b < List.length (sp_trees sp) -> 1 <= depth sp b.
Proof.
  intros Hp b Hb. destruct (prepare_fields cfg inp sp Hp) as (_ & _ & HF).
  unfold depth.
  assert (Hlen : List.length (i_branches inp) = List.length (sp_trees sp)) by (eapply SpecProps.Forall2_length; eauto).
  pose proof (Forall2_nth _ _ _ (mkBranch None []) [] HF b) as H. rewrite Hlen in H. specialize (H Hb).
  apply SpecProps.Forall2_length in H. rewrite <- H.
  destruct (GenPropsBase.split_steps_shape (b_members (nth b (i_branches inp) (mkBranch None [])))) as (g & gs & E & _).
  rewrite E. cbn. lia.
Qed.

Lemma max_depth_pos cfg inp e sp : wf_opts inp -> gen cfg inp = Ok e -> prepare cfg inp = Some sp ->
  1 <= max_depth sp.
Proof.
  intros Hwf Hg Hp. destruct (gen_rel cfg inp e sp Hwf Hg Hp) as (j & HR & _).
  pose proof (rel_n_pos _ _ _ HR) as Hpos. rewrite <- (rel_n_trees _ _ _ HR) in Hpos.
  pose proof (prepare_depth_pos cfg inp sp Hp 0 Hpos) as Hd.
  pose proof (SpecProps.depth_le_max sp 0 Hpos). lia.
Qed.

Section Corollaries.
  Variable msem : string -> option (list operand) -> dval -> list dval -> comp dval.
  Variable dotsem : operand -> list (string * option val) -> dval -> comp dval.
  Variable callsem : val -> list dval -> comp dval.
  Variable awaitsem : val -> comp val.

  Notation steps := (steps msem dotsem callsem awaitsem).
  Definition init_state (sp : sprog) : state := map (fun _ => None) (sp_trees sp).

  Lemma spec_no_handler_sync sp :
    is_async (sp_cfg sp) = false -> sp_handler sp = None ->
    spec msem dotsem callsem awaitsem sp = steps sp (max_depth sp) 0 (init_state sp).
  Proof.
    intros Ha Hh. rewrite (SpecProps.spec_no_handler msem dotsem callsem awaitsem sp Hh), Ha. reflexivity.
  Qed.

  (* the generated code of a sync macro without handler denotes the steps of the reference semantics *)
  Theorem den_gen_is_steps cfg inp e sp :
    is_async cfg = false -> i_handler inp = None ->
    wf inp -> gen cfg inp = Ok e -> prepare cfg inp = Some sp ->
    den (user_names inp) msem dotsem callsem awaitsem e empty_env = steps sp (max_depth sp) 0 (init_state sp).
  Proof.
    intros Ha Hh Hwf Hg Hp. destruct (prepare_fields cfg inp sp Hp) as (Hc & Hhs & _).
    rewrite (gen_refines_spec msem dotsem callsem awaitsem cfg inp e sp Hwf Hg Hp).
    apply spec_no_handler_sync; congruence.
  Qed.

  (* C04 on the generated code: join! - element b of the result is a value of branch b's last step
     (T is an arbitrary description of what branch b's chain produces in step k) *)
  Theorem den_gen_result_positions inp e sp (T : nat -> nat -> dval -> Prop) :
    let cfg := {| is_async := false; is_try := false; is_spawn := false |} in
    i_handler inp = None ->
    wf inp -> gen cfg inp = Ok e -> prepare cfg inp = Some sp ->
    (forall sn cp k st b, Leaves.leaves (chain msem dotsem callsem sp sn cp k st b) (T b k)) ->
    Leaves.leaves (den (user_names inp) msem dotsem callsem awaitsem e empty_env) (SpecProps.ResultOK sp T).
  Proof.
    intros cfg Hh Hwf Hg Hp HT. destruct (prepare_fields cfg inp sp Hp) as (Hc & _ & _).
    rewrite (den_gen_is_steps cfg inp e sp eq_refl Hh Hwf Hg Hp).
    apply (SpecProps.result_positions_join msem dotsem callsem awaitsem sp T HT (prepare_depth_pos cfg inp sp Hp));
      try (rewrite Hc; reflexivity).
    - lia.
    - split; [unfold init_state; apply map_length|]. intros b _ H0. lia.
  Qed.

  (* C05/C06 on the generated code: try_join! / try_join_spawn! - the shape of the first step (and, through
     SpecProps.try_steps_sync again, of every later one) *)
  Theorem den_gen_try_first_step cfg inp e sp :
    is_async cfg = false -> is_try cfg = true -> i_handler inp = None ->
    wf inp -> gen cfg inp = Ok e -> prepare cfg inp = Some sp ->
    den (user_names inp) msem dotsem callsem awaitsem e empty_env =
    (let! sr := step_result msem dotsem callsem awaitsem sp 0 (init_state sp) in
     let! ds := extract (actives sp 0) sr in
     let st' := set_all (init_state sp) (actives sp 0) ds in
     if Nat.eqb (max_depth sp - 1) 0 then transpose awaitsem sp (seq 0 (List.length (sp_trees sp))) st'
     else if SpecProps.all_classified ds
          then match SpecProps.first_fail_list ds with
               | Some d => Ret d
               | None => steps sp (max_depth sp - 1) 1 st'
               end
          else Panic P_ILLTYPED).
  Proof.
    intros Ha Ht Hh Hwf Hg Hp. destruct (prepare_fields cfg inp sp Hp) as (Hc & _ & HF).
    rewrite (den_gen_is_steps cfg inp e sp Ha Hh Hwf Hg Hp).
    pose proof (max_depth_pos cfg inp e sp (wf_wf_opts inp Hwf) Hg Hp) as Hmax.
    replace (max_depth sp) with (S (max_depth sp - 1)) at 1 by lia.
    apply SpecProps.try_steps_sync; rewrite Hc; assumption.
  Qed.
End Corollaries.

Print Assumptions den_gen_is_steps.
Print Assumptions den_gen_result_positions.
Print Assumptions den_gen_try_first_step.
