(* C16 on the GENERATED code: the facts proved on the reference semantics with options (SpecOptsProps.v)
   transported to `den (gen cfg inp)` through RefineOpts.gen_refines_spec_opts - for every option setting. *)
From Coq Require Import Lia.
From Join Require Import Tok Ast Ir Gen Comp Denote Spec SpecOpts CompLaws.
From Join Require Import SpecOptsProps.
From Join Require Import RefineProg RefineCorollaries RefineOpts.

Section CorollariesOpts.
  Variable msem : string -> option (list operand) -> dval -> list dval -> comp dval.
  Variable dotsem : operand -> list (string * option val) -> dval -> comp dval.
  Variable callsem : val -> list dval -> comp dval.
  Variable awaitsem : val -> comp val.

  Notation steps_opts := (steps_opts msem dotsem callsem awaitsem).
  Notation step_result_opts := (step_result_opts msem dotsem callsem awaitsem).
  Notation after_step := (after_step msem dotsem callsem awaitsem).
  Notation joiner_input := (joiner_input msem dotsem callsem).
  Notation D inp := (den (user_names inp) msem dotsem callsem awaitsem).

  (* an async macro is the future of its body *)
  Definition as_kind (cfg : config) (c : comp dval) : comp dval :=
    if is_async cfg then Ret (DFut (let! d := c in to_val d)) else c.

  Lemma spec_opts_no_handler so sp : sp_handler sp = None ->
    spec_opts msem dotsem callsem awaitsem so sp =
    as_kind (sp_cfg sp) (steps_opts so sp (max_depth sp) 0 (init_state sp)).
  Proof.
    intros Hh. unfold spec_opts, run_body_opts. rewrite Hh. cbn [bind]. unfold handle_results.
    fold (init_state sp). rewrite bind_ret_r. reflexivity.
  Qed.

  (* the generated code of a macro without handler denotes the steps of the reference semantics with the
     resolved options, in every kind *)
  Lemma den_gen_is_steps_opts_all cfg inp e sp :
    i_handler inp = None -> wf_opts inp -> gen cfg inp = Ok e -> prepare cfg inp = Some sp ->
    D inp e empty_env = as_kind cfg (steps_opts (resolve cfg inp) sp (max_depth sp) 0 (init_state sp)).
  Proof.
    intros Hh Hwf Hg Hp. destruct (prepare_fields cfg inp sp Hp) as (Hc & Hhs & _).
    rewrite (gen_refines_spec_opts msem dotsem callsem awaitsem cfg inp e sp Hwf Hg Hp).
    rewrite spec_opts_no_handler by congruence. rewrite Hc. reflexivity.
  Qed.

  Theorem den_gen_is_steps_opts cfg inp e sp :
    is_async cfg = false -> i_handler inp = None ->
    wf_opts inp -> gen cfg inp = Ok e -> prepare cfg inp = Some sp ->
    D inp e empty_env = steps_opts (resolve cfg inp) sp (max_depth sp) 0 (init_state sp).
  Proof.
    intros Ha Hh Hwf Hg Hp. rewrite (den_gen_is_steps_opts_all cfg inp e sp Hh Hwf Hg Hp). unfold as_kind.
    rewrite Ha. reflexivity.
  Qed.

  Theorem den_gen_is_steps_opts_async cfg inp e sp :
    is_async cfg = true -> i_handler inp = None ->
    wf_opts inp -> gen cfg inp = Ok e -> prepare cfg inp = Some sp ->
    D inp e empty_env =
    Ret (DFut (let! d := steps_opts (resolve cfg inp) sp (max_depth sp) 0 (init_state sp) in to_val d)).
  Proof.
    intros Ha Hh Hwf Hg Hp. rewrite (den_gen_is_steps_opts_all cfg inp e sp Hh Hwf Hg Hp). unfold as_kind.
    rewrite Ha. reflexivity.
  Qed.

  (* `den_gen_is_steps_opts_all` with the first step split off: the rest is a function of the step result only *)
  Lemma den_gen_first_step_all cfg inp e sp :
    i_handler inp = None -> wf_opts inp -> gen cfg inp = Ok e -> prepare cfg inp = Some sp ->
    D inp e empty_env =
    as_kind cfg (let! sr := step_result_opts (resolve cfg inp) sp 0 (init_state sp) in
                 after_step (resolve cfg inp) sp (max_depth sp - 1) 0 (init_state sp) sr).
  Proof.
    intros Hh Hwf Hg Hp. rewrite (den_gen_is_steps_opts_all cfg inp e sp Hh Hwf Hg Hp).
    pose proof (max_depth_pos cfg inp e sp Hwf Hg Hp) as Hmax.
    replace (max_depth sp) with (S (max_depth sp - 1)) at 1 by lia.
    rewrite steps_opts_step. reflexivity.
  Qed.

  Theorem den_gen_first_step cfg inp e sp :
    is_async cfg = false -> i_handler inp = None ->
    wf_opts inp -> gen cfg inp = Ok e -> prepare cfg inp = Some sp ->
    D inp e empty_env =
    (let! sr := step_result_opts (resolve cfg inp) sp 0 (init_state sp) in
     after_step (resolve cfg inp) sp (max_depth sp - 1) 0 (init_state sp) sr).
  Proof.
    intros Ha Hh Hwf Hg Hp. rewrite (den_gen_first_step_all cfg inp e sp Hh Hwf Hg Hp). unfold as_kind.
    rewrite Ha. reflexivity.
  Qed.

  (* C16 on the generated code: a custom joiner, first step with several active branches - the joiner is applied
     ONCE to one argument per active branch, in branch order; its output (thread kinds: after the joins) is the
     step result *)
  Theorem den_gen_joiner_once cfg inp e sp jt :
    is_async cfg = false -> i_handler inp = None ->
    wf_opts inp -> gen cfg inp = Ok e -> prepare cfg inp = Some sp ->
    i_joiner inp = Some jt -> 1 < List.length (actives sp 0) ->
    D inp e empty_env =
    (let! jd := joiner_input (resolve cfg inp) sp jt 0 (init_state sp) in
     let! r := apply callsem (fst jd) (snd jd) in
     let! sr := joiner_post sp 0 r in
     after_step (resolve cfg inp) sp (max_depth sp - 1) 0 (init_state sp) sr).
  Proof.
    intros Ha Hh Hwf Hg Hp Hj Hm. rewrite (den_gen_first_step cfg inp e sp Ha Hh Hwf Hg Hp), <- steps_opts_step.
    apply joiner_output_is_step_result; [exact Hj|exact Hm].
  Qed.

  Theorem den_gen_joiner_argument_count cfg inp sp jt :
    Leaves.leaves (joiner_input (resolve cfg inp) sp jt 0 (init_state sp))
                  (fun jd => List.length (snd jd) = List.length (actives sp 0)).
  Proof. apply joiner_receives_one_argument_per_active_branch. Qed.

  (* C16 on the generated code: a first step with one active branch is the step of the macro without options *)
  Theorem den_gen_single_branch_no_joiner cfg inp e sp :
    is_async cfg = false -> i_handler inp = None ->
    wf_opts inp -> gen cfg inp = Ok e -> prepare cfg inp = Some sp ->
    List.length (actives sp 0) <= 1 ->
    D inp e empty_env =
    (let! sr := step_result msem dotsem callsem awaitsem sp 0 (init_state sp) in
     after_step (resolve cfg inp) sp (max_depth sp - 1) 0 (init_state sp) sr).
  Proof.
    intros Ha Hh Hwf Hg Hp Hl. rewrite (den_gen_first_step cfg inp e sp Ha Hh Hwf Hg Hp).
    rewrite single_branch_step_ignores_joiner by exact Hl. reflexivity.
  Qed.

  (* C16 on the generated code: lazy_branches(true) - the chains of the first step occur only inside the closures
     handed to the joiner (sequential kinds) *)
  Theorem den_gen_lazy_thunks cfg inp e sp jt :
    is_async cfg = false -> is_spawn cfg = false -> i_handler inp = None ->
    wf_opts inp -> gen cfg inp = Ok e -> prepare cfg inp = Some sp ->
    i_joiner inp = Some jt -> i_lazy inp = Some true -> 1 < List.length (actives sp 0) ->
    D inp e empty_env =
    (let sn := snap_of sp (init_state sp) in
     let! cp := captures sp sn 0 (actives sp 0) in
     let! jv := Vis (EEval jt sn) (fun v => Ret (DV v)) in
     let! sr := apply callsem jv (map (fun b => thunk_of (chain msem dotsem callsem sp sn cp 0 (init_state sp) b))
                                      (actives sp 0)) in
     after_step (resolve cfg inp) sp (max_depth sp - 1) 0 (init_state sp) sr).
  Proof.
    intros Ha Hs Hh Hwf Hg Hp Hj Hl Hm. destruct (prepare_fields cfg inp sp Hp) as (Hc & _ & _).
    rewrite (den_gen_first_step cfg inp e sp Ha Hh Hwf Hg Hp).
    rewrite (lazy_branches_are_thunks msem dotsem callsem awaitsem (resolve cfg inp) sp 0 (init_state sp) jt);
      try assumption.
    - cbv zeta. rewrite !bind_assoc. apply bind_ext. intros cp. rewrite !bind_assoc. reflexivity.
    - unfold resolve. cbn [so_lazy]. rewrite Hl. reflexivity.
    - rewrite Hc. exact Hs.
  Qed.

  (* C16 on the generated code: transpose_results(false) in a try macro - the first step's result is matched as a
     whole (and, through SpecOptsProps.transpose_off_step_flow again, every later one) *)
  Theorem den_gen_transpose_off cfg inp e sp :
    is_async cfg = false -> is_try cfg = true -> i_handler inp = None ->
    wf_opts inp -> gen cfg inp = Ok e -> prepare cfg inp = Some sp ->
    i_transpose inp = Some false ->
    D inp e empty_env =
    (let! sr := step_result_opts (resolve cfg inp) sp 0 (init_state sp) in
     match sr with
     | DV (VErr err) => Ret (DV (VErr err))
     | DV (VOk w) =>
         if Nat.eqb (max_depth sp - 1) 0 then last_result_no_transpose awaitsem sp 0 (init_state sp) w
         else
           let! ds := extract (actives sp 0) (DV w) in
           steps_opts (resolve cfg inp) sp (max_depth sp - 1) 1 (set_all (init_state sp) (actives sp 0) ds)
     | _ => Panic P_ILLTYPED
     end).
  Proof.
    intros Ha Ht Hh Hwf Hg Hp HT. destruct (prepare_fields cfg inp sp Hp) as (Hc & _ & _).
    rewrite (den_gen_first_step cfg inp e sp Ha Hh Hwf Hg Hp), <- steps_opts_step, transpose_off_step_flow.
    - rewrite Hc, Ha. apply bind_ext. intros sr. destruct sr as [[]| | | | | |]; reflexivity.
    - rewrite Hc. exact Ht.
    - unfold resolve. cbn [so_transpose]. rewrite HT. reflexivity.
  Qed.
End CorollariesOpts.

Print Assumptions den_gen_is_steps_opts.
Print Assumptions den_gen_joiner_once.
Print Assumptions den_gen_single_branch_no_joiner.
Print Assumptions den_gen_lazy_thunks.
Print Assumptions den_gen_transpose_off.
