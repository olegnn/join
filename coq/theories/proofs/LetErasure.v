(* C12, second half: "writing `let [mut] name =` in front of a branch does not change the macro's result".

   In the reference semantics (Spec.v) the `let` names of a program are used in exactly one way: they
   decide what the *snapshot* `snap_of st` contains, and a snapshot is (a) attached to every
   user-expression event `EEval o sn` and (b) handed to `dotsem o sn r`.  This file proves that nothing
   else depends on them: after erasing the snapshots carried by events, the computation of a program
   is THE SAME TREE whatever its names are (same events, same order, same callback arguments, same
   spawned threads, same final result, whatever the world answers).

   The walk (`ceq deq`, "the same tree up to snapshots, results equal up to the snapshots inside closures and
   futures") climbs Spec.v rung by rung under three parametricity hypotheses on the user-code semantics; the
   theorems are `names_irrelevant`, `let_erasure` and their forms as equations and with `leaves`; the concrete
   world of Concrete.v satisfies the hypotheses, and `hypothesis_needed` shows that the one on `msem` cannot be dropped.
   Axioms: functional_extensionality_dep only (continuations are functions). *)
From Coq Require Import ZArith FunctionalExtensionality.
From Join Require Import Tok Ast Comp Std Denote Spec DocTable Leaves SpecProps.

Definition erase_ev (e : ev) : ev :=
  match e with EEval o _ => EEval o [] | ECall f args => ECall f args | EThreadName => EThreadName end.

(* `comp` has the non-uniform constructor `Spawn name (t : comp val) k`: polymorphic recursion *)
Fixpoint erase {A} (c : comp A) : comp A :=
  match c with
  | Ret a => Ret a
  | Panic n => Panic n
  | Vis e k => Vis (erase_ev e) (fun v => erase (k v))
  | Spawn name t k => Spawn name (erase t) (fun h => erase (k h))
  | Join h k => Join h (fun r => erase (k r))
  end.

Lemma erase_ev_idem e : erase_ev (erase_ev e) = erase_ev e.
Proof. destruct e; reflexivity. Qed.

Lemma erase_bind {A B} (c : comp A) (f : A -> comp B) :
  erase (bind c f) = bind (erase c) (fun x => erase (f x)).
Proof.
  revert B f. induction c as [A a|A n|A e k IH|A name t IHt k IH|A h k IH]; intros B f; cbn; try reflexivity;
    f_equal; extensionality x; apply IH.
Qed.

Definition strip (sp : sprog) : sprog :=
  {| sp_cfg := sp_cfg sp; sp_names := map (fun _ => None) (sp_names sp);
     sp_trees := sp_trees sp; sp_handler := sp_handler sp |}.

(* `ceq R c c'`: c and c' are the same tree up to the snapshots carried by `EEval` events (also inside
   spawned threads), and the results at corresponding leaves are related by R. *)
Fixpoint ceq {A B} (R : A -> B -> Prop) (c : comp A) (c' : comp B) {struct c} : Prop :=
  match c, c' with
  | Ret a, Ret b => R a b
  | Panic n, Panic m => n = m
  | Vis e k, Vis e' k' => erase_ev e = erase_ev e' /\ forall v, ceq R (k v) (k' v)
  | Spawn name t k, Spawn name' t' k' => name = name' /\ ceq (@eq val) t t' /\ forall h, ceq R (k h) (k' h)
  | Join h k, Join h' k' => h = h' /\ forall r, ceq R (k r) (k' r)
  | _, _ => False
  end.

(* Induction over two computations related by `ceq`: the five ways they can have the same shape.
   (The thread of a `Spawn` is related at `eq`, whatever R is.) *)
Section CeqInd.
  Variable P : forall A B, (A -> B -> Prop) -> comp A -> comp B -> Prop.
  Hypothesis PRet : forall A B (R : A -> B -> Prop) a b, R a b -> P A B R (Ret a) (Ret b).
  Hypothesis PPanic : forall A B (R : A -> B -> Prop) n, P A B R (Panic n) (Panic n).
  Hypothesis PVis : forall A B (R : A -> B -> Prop) e e' k k', erase_ev e = erase_ev e' ->
    (forall v, P A B R (k v) (k' v)) -> P A B R (Vis e k) (Vis e' k').
  Hypothesis PSpawn : forall A B (R : A -> B -> Prop) name t t' k k', ceq eq t t' -> P val val eq t t' ->
    (forall h, P A B R (k h) (k' h)) -> P A B R (Spawn name t k) (Spawn name t' k').
  Hypothesis PJoin : forall A B (R : A -> B -> Prop) h k k',
    (forall r, P A B R (k r) (k' r)) -> P A B R (Join h k) (Join h k').

  Lemma ceq_ind2 A B (R : A -> B -> Prop) c c' : ceq R c c' -> P A B R c c'.
  Proof.
    revert B R c'. induction c as [A a|A n|A e k IH|A name t IHt k IH|A h k IH]; intros B R c' H;
      destruct c' as [a'|n'|e' k'|name' t' k'|h' k']; cbn in H; try contradiction.
    - apply PRet, H.
    - subst. apply PPanic.
    - destruct H as [He Hk]. apply PVis; [exact He|]. intros v. apply IH, Hk.
    - destruct H as (-> & Ht & Hk). apply PSpawn; [exact Ht|apply IHt, Ht|]. intros v. apply IH, Hk.
    - destruct H as [-> Hk]. apply PJoin. intros v. apply IH, Hk.
  Qed.
End CeqInd.

Lemma ceq_bind {A B A' B'} (R : A -> A' -> Prop) (S : B -> B' -> Prop) (c : comp A) (c' : comp A')
      (f : A -> comp B) (g : A' -> comp B') :
  ceq R c c' -> (forall a a', R a a' -> ceq S (f a) (g a')) -> ceq S (bind c f) (bind c' g).
Proof.
  intros H Hf.
  induction H as [A A' R a a' H|A A' R n|A A' R e e' k k' He IH|A A' R name t t' k k' Ht _ IH|A A' R h k k' IH]
    using ceq_ind2; cbn [bind].
  - apply Hf, H.
  - reflexivity.
  - split; [exact He|]. intros v. apply IH, Hf.
  - repeat split; [exact Ht|]. intros v. apply IH, Hf.
  - split; [reflexivity|]. intros v. apply IH, Hf.
Qed.

Lemma ceq_flip {A B} (R : A -> B -> Prop) (R' : B -> A -> Prop) (c : comp A) (c' : comp B) :
  (forall a b, R a b -> R' b a) -> ceq R c c' -> ceq R' c' c.
Proof.
  intros HR H.
  induction H as [A B R a b H|A B R n|A B R e e' k k' He IH|A B R name t t' k k' _ IHt IH|A B R h k k' IH]
    using ceq_ind2; cbn [ceq].
  - apply HR, H.
  - reflexivity.
  - split; [symmetry; exact He|]. intros v. apply IH, HR.
  - split; [reflexivity|split; [apply IHt; intros a b E; symmetry; exact E|]]. intros v. apply IH, HR.
  - split; [reflexivity|]. intros v. apply IH, HR.
Qed.

Lemma ceq_sym {A B} (R : A -> B -> Prop) (c : comp A) (c' : comp B) :
  ceq R c c' -> ceq (fun b a => R a b) c' c.
Proof. apply ceq_flip. intros a b H. exact H. Qed.

Lemma ceq_mono {A B} (R R' : A -> B -> Prop) (c : comp A) (c' : comp B) :
  (forall a b, R a b -> R' a b) -> ceq R c c' -> ceq R' c c'.
Proof. intros HR H. apply ceq_sym in H. revert H. apply ceq_flip. intros b a. apply HR. Qed.

Lemma ceq_refl {A} (R : A -> A -> Prop) (c : comp A) : (forall a, R a a) -> ceq R c c.
Proof.
  induction c as [A a|A n|A e k IH|A name t IHt k IH|A h k IH]; intros HR; cbn; auto.
Qed.

Lemma ceq_trans {A B C} (R : A -> B -> Prop) (S : B -> C -> Prop) (c1 : comp A) (c2 : comp B) (c3 : comp C) :
  ceq R c1 c2 -> ceq S c2 c3 -> ceq (fun a c => exists b, R a b /\ S b c) c1 c3.
Proof.
  intros H1. revert C S c3.
  induction H1 as [A B R a b H|A B R n|A B R e e' k k' He IH|A B R name t t' k k' _ IHt IH|A B R h k k' IH]
    using ceq_ind2; intros C S c3 H2;
    destruct c3 as [a3|n3|e3 k3|name3 t3 k3|h3 k3]; cbn in H2 |- *; try contradiction.
  - eauto.
  - exact H2.
  - destruct H2 as [He2 Hk2]. split; [congruence|]. intros v. apply IH, Hk2.
  - destruct H2 as (Hn2 & Ht2 & Hk2). split; [exact Hn2|split; [|intros v; apply IH, Hk2]].
    eapply ceq_mono; [|apply IHt, Ht2]. cbn. intros a b (x & -> & ->). reflexivity.
  - destruct H2 as [Hh2 Hk2]. split; [exact Hh2|]. intros v. apply IH, Hk2.
Qed.

(* at result type with equality, `ceq` IS equality after erasure (functional extensionality) *)
Lemma ceq_erase {A} (c c' : comp A) : ceq eq c c' -> erase c = erase c'.
Proof.
  revert c'. induction c as [A a|A n|A e k IH|A name t IHt k IH|A h k IH]; intros c' H;
    destruct c' as [a'|n'|e' k'|name' t' k'|h' k']; cbn in H; try contradiction; cbn [erase].
  - congruence.
  - congruence.
  - destruct H as [He Hk]. rewrite He. f_equal. extensionality v. apply IH, Hk.
  - destruct H as (Hn & Ht & Hk). rewrite Hn, (IHt _ Ht). f_equal. extensionality v. apply IH, Hk.
  - destruct H as [Hh Hk]. rewrite Hh. f_equal. extensionality v. apply IH, Hk.
Qed.

Lemma ceq_eq_refl {A} (c : comp A) : ceq eq c c.
Proof. apply ceq_refl. reflexivity. Qed.

Lemma ceq_erase_l {A} (c : comp A) : ceq eq (erase c) c.
Proof.
  induction c as [A a|A n|A e k IH|A name t IHt k IH|A h k IH]; cbn [erase ceq]; try reflexivity.
  - split; [apply erase_ev_idem|exact IH].
  - split; [reflexivity|split; [exact IHt|exact IH]].
  - split; [reflexivity|exact IH].
Qed.

Lemma erase_idem {A} (c : comp A) : erase (erase c) = erase c.
Proof. apply ceq_erase, ceq_erase_l. Qed.

(* the converse of `ceq_erase`: c and c' are each related to their erasure (`ceq_erase_l`) *)
Lemma erase_ceq {A} (c c' : comp A) : erase c = erase c' -> ceq eq c c'.
Proof.
  intros E. assert (H' : ceq eq (erase c) c') by (rewrite E; apply ceq_erase_l).
  pose proof (ceq_trans _ _ _ _ _ (ceq_sym _ _ _ (ceq_erase_l c)) H') as H.
  revert H. apply ceq_mono. intros a b (x & <- & <-). reflexivity.
Qed.

Lemma ceq_bind_eq {A B B'} (S : B -> B' -> Prop) (c c' : comp A) (f : A -> comp B) (g : A -> comp B') :
  ceq eq c c' -> (forall a, ceq S (f a) (g a)) -> ceq S (bind c f) (bind c' g).
Proof. intros H Hf. eapply ceq_bind; [exact H|]. intros a a' <-. apply Hf. Qed.

(* Denotable values contain computations (closures, fn items, futures), hence events, hence snapshots.
   `deq d d'`: the same value, and the computations inside are equal after erasure.  `dval` is not
   recursive (closures return plain `val`s), so this is a plain case distinction; for fn items, whose
   parameters may themselves be closures, it is the usual "related arguments to related results". *)
Inductive carg_eq : carg -> carg -> Prop :=
| carg_eq_V v : carg_eq (CV v) (CV v)
| carg_eq_F f g : (forall vs, erase (f vs) = erase (g vs)) -> carg_eq (CF f) (CF g).

Inductive deq : dval -> dval -> Prop :=
| deq_V v : deq (DV v) (DV v)
| deq_F f g : (forall vs, erase (f vs) = erase (g vs)) -> deq (DF f) (DF g)
| deq_Fn f g : (forall cs cs', Forall2 carg_eq cs cs' -> erase (f cs) = erase (g cs')) -> deq (DFn f) (DFn g)
| deq_Fut c c' : erase c = erase c' -> deq (DFut c) (DFut c')
| deq_Builder n : deq (DBuilder n) (DBuilder n)
| deq_Tb : deq DTb DTb
| deq_SpawnTokio : deq DSpawnTokio DSpawnTokio.

Inductive orel {A B} (R : A -> B -> Prop) : option A -> option B -> Prop :=
| orel_None : orel R None None
| orel_Some a b : R a b -> orel R (Some a) (Some b).

Lemma deq_F_ceq f g : (forall vs, ceq eq (f vs) (g vs)) -> deq (DF f) (DF g).
Proof. intros H. constructor. intros vs. apply ceq_erase, H. Qed.
Lemma deq_Fut_ceq c c' : ceq eq c c' -> deq (DFut c) (DFut c').
Proof. intros H. constructor. apply ceq_erase, H. Qed.

Lemma Fut_bind_ceq {A} (c c' : comp A) (k k' : A -> comp val) : ceq eq c c' -> (forall v, ceq eq (k v) (k' v)) ->
  ceq deq (Ret (DFut (bind c k))) (Ret (DFut (bind c' k'))).
Proof. intros Hc Hk. apply deq_Fut_ceq, ceq_bind_eq; assumption. Qed.

Lemma to_val_ceq d d' : deq d d' -> ceq eq (to_val d) (to_val d').
Proof. intros H; destruct H; cbn; reflexivity. Qed.

Lemma to_val_bind_ceq c c' : ceq deq c c' -> ceq eq (let! d := c in to_val d) (let! d := c' in to_val d).
Proof. intros H. apply (ceq_bind deq eq _ _ _ _ H to_val_ceq). Qed.

Lemma clo1_ceq (f g : val -> comp dval) : (forall v, ceq deq (f v) (g v)) -> forall vs,
  ceq eq (match vs with [v] => let! d := f v in to_val d | _ => Panic P_ILLTYPED end)
         (match vs with [v] => let! d := g v in to_val d | _ => Panic P_ILLTYPED end).
Proof. intros H [|v [|]]; try reflexivity. apply to_val_bind_ceq, H. Qed.

Lemma DV_ceq {A} (c c' : comp A) (g : A -> val) :
  ceq eq c c' -> ceq deq (let! x := c in Ret (DV (g x))) (let! x := c' in Ret (DV (g x))).
Proof. intros H. apply ceq_bind_eq; [exact H|]. intros x. cbn. constructor. Qed.

Lemma all_vals_deq ds ds' : Forall2 deq ds ds' -> all_vals ds = all_vals ds'.
Proof.
  induction 1 as [|d d' ds ds' H _ IH]; cbn; [reflexivity|]. destruct H; try reflexivity. rewrite IH. reflexivity.
Qed.

Lemma all_cargs_deq ds ds' : Forall2 deq ds ds' -> orel (Forall2 carg_eq) (all_cargs ds) (all_cargs ds').
Proof.
  induction 1 as [|d d' ds ds' H _ IH]; cbn [all_cargs]; [repeat constructor|].
  destruct H as [v|f g Hfg| | | | |]; try constructor.
  - destruct IH as [|cs cs' Hcs]; constructor. constructor; [constructor|exact Hcs].
  - destruct IH as [|cs cs' Hcs]; constructor. constructor; [constructor; exact Hfg|exact Hcs].
Qed.

Lemma mapM_ceq {A A' B B'} (R : A -> A' -> Prop) (S : B -> B' -> Prop) (f : A -> comp B) (g : A' -> comp B') l l' :
  Forall2 R l l' -> (forall x x', R x x' -> ceq S (f x) (g x')) -> ceq (Forall2 S) (mapM f l) (mapM g l').
Proof.
  intros H Hf. induction H as [|x x' l l' Hx _ IH]; cbn [mapM].
  - cbn. constructor.
  - eapply ceq_bind; [apply Hf, Hx|]. intros y y' Hy.
    eapply ceq_bind; [exact IH|]. intros ys ys' Hys. cbn. constructor; assumption.
Qed.

Lemma Forall2_eq_refl {A} (l : list A) : Forall2 eq l l.
Proof. induction l; constructor; auto. Qed.
Lemma Forall2_eq {A} (l l' : list A) : Forall2 eq l l' -> l = l'.
Proof. induction 1; congruence. Qed.

Lemma mapM_ceq_same {A B B'} (S : B -> B' -> Prop) (f : A -> comp B) (g : A -> comp B') l :
  (forall x, ceq S (f x) (g x)) -> ceq (Forall2 S) (mapM f l) (mapM g l).
Proof. intros H. apply (mapM_ceq eq S); [apply Forall2_eq_refl|]. intros x x' <-. apply H. Qed.

Lemma mapM_ceq_eq {A B} (f g : A -> comp B) l :
  (forall x, ceq eq (f x) (g x)) -> ceq eq (mapM f l) (mapM g l).
Proof. intros H. eapply ceq_mono; [exact Forall2_eq|apply mapM_ceq_same, H]. Qed.

Section StdErase.
  Variable awaitsem : val -> comp val.

  Lemma await_d_ceq d d' : deq d d' -> ceq eq (await_d awaitsem d) (await_d awaitsem d').
  Proof. intros H; destruct H; cbn [await_d]; try reflexivity; try apply ceq_eq_refl. apply erase_ceq; assumption. Qed.

  Lemma join_seq_ceq ds ds' : Forall2 deq ds ds' -> ceq eq (join_seq awaitsem ds) (join_seq awaitsem ds').
  Proof.
    intros H. unfold join_seq. eapply ceq_bind; [eapply mapM_ceq with (S := eq); [exact H|apply await_d_ceq]|].
    intros vs vs' Hvs. apply Forall2_eq in Hvs. subst. reflexivity.
  Qed.

  Lemma try_join_seq_ceq ds ds' : Forall2 deq ds ds' ->
    forall acc, ceq eq (try_join_seq awaitsem ds acc) (try_join_seq awaitsem ds' acc).
  Proof.
    induction 1 as [|d d' ds ds' H _ IH]; intros acc; cbn [try_join_seq]; [reflexivity|].
    apply ceq_bind_eq; [apply await_d_ceq, H|]. intros v. destruct v; try reflexivity. apply IH.
  Qed.

  Lemma std_map_ceq r r' f g : deq r r' -> (forall vs, ceq eq (f vs) (g vs)) ->
    ceq deq (std_map r f) (std_map r' g).
  Proof.
    intros H Hf. destruct H; cbn [std_map]; try reflexivity.
    - destruct v; try reflexivity; try (cbn; constructor); apply DV_ceq, Hf.
    - apply Fut_bind_ceq; [apply erase_ceq; assumption|]. intros v. apply Hf.
  Qed.

  Lemma std_and_then_ceq r r' f g : deq r r' -> (forall vs, ceq eq (f vs) (g vs)) ->
    ceq deq (std_and_then awaitsem r f) (std_and_then awaitsem r' g).
  Proof.
    intros H Hf. destruct H; cbn [std_and_then]; try reflexivity.
    - destruct v; try reflexivity; try (cbn; constructor); apply DV_ceq, Hf.
    - apply Fut_bind_ceq; [apply erase_ceq; assumption|]. intros v.
      destruct v; try reflexivity. apply ceq_bind_eq; [apply Hf|]. intros w. apply ceq_eq_refl.
  Qed.

  Lemma std_unwrap_ceq r r' : deq r r' -> ceq deq (std_unwrap r) (std_unwrap r').
  Proof. intros H. destruct H; cbn [std_unwrap]; try reflexivity. destruct v; try reflexivity; cbn; constructor. Qed.
End StdErase.

Lemma thread_builder_ceq i : ceq deq (thread_builder i) (thread_builder i).
Proof. cbn. split; [reflexivity|]. intros v. destruct (tb_name v i); cbn; [constructor|reflexivity]. Qed.

Lemma Forall2_deq_DV vs : Forall2 deq (map DV vs) (map DV vs).
Proof. induction vs; cbn; constructor; auto. constructor. Qed.

(* `leaves c Q` quantifies over every answer of the world to every event, whatever the event carries:
   it is blind to snapshots by construction, so a postcondition transfers along `ceq`. *)
Lemma ceq_leaves {A B} (R : A -> B -> Prop) (Q : A -> Prop) (Q' : B -> Prop) (c : comp A) (c' : comp B) :
  ceq R c c' -> (forall a b, R a b -> Q' b -> Q a) -> leaves c' Q' -> leaves c Q.
Proof.
  intros H HQ HL.
  induction H as [A B R a b H|A B R n|A B R e e' k k' He IH|A B R name t t' k k' Ht _ IH|A B R h k k' IH]
    using ceq_ind2; cbn in HL |- *.
  - exact (HQ a b H HL).
  - exact I.
  - intros v. apply (IH v Q Q' HQ), HL.
  - intros v. apply (IH v Q Q' HQ), HL.
  - intros v. apply (IH v Q Q' HQ), HL.
Qed.

Lemma leaves_erase {A} (c : comp A) (Q : A -> Prop) : leaves (erase c) Q <-> leaves c Q.
Proof.
  split; apply ceq_leaves with (R := eq); try (intros a b <-; exact (fun H => H)).
  - apply erase_ceq. symmetry. apply erase_idem.
  - apply ceq_erase_l.
Qed.

(* a method given other than one argument is stuck on both sides *)
Ltac one_arg H := destruct H as [|? ? ? ? ?Hd [|]]; try reflexivity.

Section LetErasure.
  Variable msem : string -> option (list operand) -> dval -> list dval -> comp dval.
  Variable dotsem : operand -> list (string * option val) -> dval -> comp dval.
  Variable callsem : val -> list dval -> comp dval.
  Variable awaitsem : val -> comp val.

  (* HYPOTHESES on the user-code semantics.  Each of them says: user code cannot observe HOW a value it
     is given is implemented - in particular not which snapshot the events inside a callback / future
     would carry - only what it does.  They are parametricity statements: related inputs (`deq`: equal
     up to snapshots inside closures and futures) give related computations (`ceq deq`: the same events
     in the same order, related results).

     msem_param: a user method `recv.m::<tf>(args)` (Option::map, Iterator::fold, a user trait method..)
       treats the macro-generated closures among its arguments - the wrapper closures `|v| v >>> .. <<<`
       - and a macro-generated future as receiver as black boxes: it can call / poll them, whenever and
       as often as it likes, but the only thing it learns is what they return.  Rust closures and
       futures are opaque, so every method has this property.  The receiver has to be related, not
       equal, because an async chain's receiver is the future built by the previous method from a
       wrapper closure.
     dotsem_param: `recv.<tokens>` where the tokens are opaque to the model.  The snapshot is there so
       that blocks inside the tokens can read `let` names: that is modelled by the EVENTS the dot
       expression emits (they may carry the snapshot), not by its control flow - the world's answer to
       an event is what can depend on a name.  For sn = sn' this is parametricity in the receiver as
       above; for r = r' it is the statement that the snapshot is only forwarded to events.
     callsem_param: calling a user value with generated closures / futures among the arguments (`|> f`
       after a wrapper, a handler): as for msem.
     awaitsem needs no hypothesis: it only ever receives plain values.
     The three hypotheses are satisfied by the concrete world of Concrete.v (`let_erasure_concrete`), and the one on
     msem cannot be dropped (`hypothesis_needed`).  They are stated with the relation `deq` on both
     sides (inputs related => outputs related), which is the weakest form that composes: the result of
     one method is the receiver of the next, so "equal outputs" could not even be stated (outputs
     contain closures and futures), and "equal inputs" would not cover the second method of a chain. *)
  Hypothesis msem_param : forall m tf r r' ds ds',
    deq r r' -> Forall2 deq ds ds' -> ceq deq (msem m tf r ds) (msem m tf r' ds').
  Hypothesis dotsem_param : forall o sn sn' r r',
    deq r r' -> ceq deq (dotsem o sn r) (dotsem o sn' r').
  Hypothesis callsem_param : forall f ds ds',
    Forall2 deq ds ds' -> ceq deq (callsem f ds) (callsem f ds').

  Notation snapshot := (list (string * option val)).

  Lemma capture_ops_ceq (sn sn' : snapshot) b e c ops :
    forall i, ceq eq (capture_ops sn b e i c ops) (capture_ops sn' b e i c ops).
  Proof.
    induction ops as [|o r IH]; intros i; cbn [capture_ops]; [reflexivity|].
    destruct (hoistable c o); [|apply IH].
    cbn [ceq]. split; [reflexivity|]. intros v. apply ceq_bind_eq; [apply IH|]. intros; apply ceq_eq_refl.
  Qed.

  Lemma capture_nodes_ceq (sn sn' : snapshot) b ns :
    ceq eq (capture_nodes sn b ns) (capture_nodes sn' b ns).
  Proof.
    induction ns as [e a|e a inner IH| |x r IHx IHr] using nodes_ind2
      with (P := fun n => ceq eq (capture_node sn b n) (capture_node sn' b n)).
    - apply capture_ops_ceq.
    - rewrite !capture_node_wrap. exact IH.
    - reflexivity.
    - cbn [capture_nodes]. apply ceq_bind_eq; [exact IHx|]. intros c1.
      apply ceq_bind_eq; [exact IHr|]. intros; apply ceq_eq_refl.
  Qed.

  Lemma eval_args_ceq (sn sn' : snapshot) cp b e c ops :
    forall i, ceq (Forall2 deq) (eval_args sn cp b e i c ops) (eval_args sn' cp b e i c ops).
  Proof.
    induction ops as [|o r IH]; intros i; cbn [eval_args]; [cbn; constructor|].
    eapply ceq_bind with (R := deq).
    - destruct (hoistable c o).
      + destruct (lookup_cap cp (b, e, i)); cbn; [constructor|reflexivity].
      + cbn. split; [reflexivity|]. intros v. constructor.
    - intros d d' Hd. eapply ceq_bind; [apply IH|]. intros ds ds' Hds. cbn. constructor; assumption.
  Qed.

  Lemma apply_ceq f f' ds ds' :
    deq f f' -> Forall2 deq ds ds' -> ceq deq (apply callsem f ds) (apply callsem f' ds').
  Proof.
    intros Hf Hds. destruct Hf; cbn [apply]; try reflexivity.
    - (* a user value: an `ECall` event on plain values, else `callsem` *)
      rewrite <- (all_vals_deq _ _ Hds). destruct (all_vals ds).
      + cbn. split; [reflexivity|]. intros; constructor.
      + apply callsem_param, Hds.
    - (* a closure *)
      rewrite <- (all_vals_deq _ _ Hds). destruct (all_vals ds); [|reflexivity].
      apply DV_ceq, erase_ceq, H.
    - (* a fn item *)
      destruct (all_cargs_deq _ _ Hds) as [|cs cs' Hcs]; [reflexivity|].
      apply DV_ceq, erase_ceq, H, Hcs.
    - (* the thread builder *)
      destruct Hds as [|d d' ds ds' Hd Hds]; [reflexivity|].
      destruct Hd; try reflexivity. destruct v; try reflexivity. destruct Hds; [apply thread_builder_ceq|reflexivity].
    - (* `tokio::spawn` *)
      destruct Hds as [|d d' ds ds' Hd Hds]; [reflexivity|].
      destruct Hd; try reflexivity; (destruct Hds; [cbn; constructor; assumption|reflexivity]).
  Qed.

  Lemma inspect_sem_ceq f f' r r' :
    deq f f' -> deq r r' -> ceq deq (inspect_sem callsem f r) (inspect_sem callsem f' r').
  Proof.
    (* only a value or a closure is a callback, and only a value or a closure is shown to it *)
    intros Hf Hr. destruct Hf; cbn [inspect_sem]; try reflexivity; destruct Hr; try reflexivity;
      (eapply ceq_bind; [apply apply_ceq; repeat constructor; assumption|]; intros; cbn; try constructor; reflexivity).
  Qed.

  Lemma sem_nodes_ceq async (sn sn' : snapshot) cp b l :
    forall recv recv', ceq deq recv recv' ->
      ceq deq (sem_nodes msem dotsem callsem async sn cp b l recv) (sem_nodes msem dotsem callsem async sn' cp b l recv').
  Proof.
    induction l as [e a|e a inner IHinner| |x t IHx IHt] using nodes_ind2
      with (P := fun n => forall recv recv', ceq deq recv recv' ->
                   ceq deq (sem_node msem dotsem callsem async sn cp b n recv)
                           (sem_node msem dotsem callsem async sn' cp b n recv'));
      intros recv recv' Hrecv.
    - (* the left side by cases on the operator; in each case the right side has the same shape *)
      apply (sem_act_cases msem dotsem callsem
               (fun c => ceq deq c (sem_node msem dotsem callsem async sn' cp b (NAct e a) recv'))); intros Hc.
      + rewrite method_operator_means_documented_method by exact Hc.
        eapply ceq_bind; [exact Hrecv|]. intros r r' Hr. eapply ceq_bind; [apply eval_args_ceq|].
        intros ds ds' Hds. apply msem_param; assumption.
      + cbn [sem_node]. rewrite Hc. destruct (a_ops a) as [|o [|]]; try reflexivity.
        eapply ceq_bind; [exact Hrecv|]. intros r r' Hr. apply dotsem_param, Hr.
      + cbn [sem_node]. rewrite Hc. destruct async.
        * eapply ceq_bind; [exact Hrecv|]. intros r r' Hr. eapply ceq_bind; [apply eval_args_ceq|].
          intros ds ds' Hds. one_arg Hds. apply msem_param; repeat constructor; assumption.
        * eapply ceq_bind; [apply eval_args_ceq|]. intros ds ds' Hds. one_arg Hds.
          eapply ceq_bind; [exact Hrecv|]. intros r r' Hr. apply inspect_sem_ceq; assumption.
      + rewrite then_operator_calls_with_value, Hc by exact Hc.
        eapply ceq_bind; [apply eval_args_ceq|]. intros ds ds' Hds. one_arg Hds.
        eapply ceq_bind; [exact Hrecv|]. intros r r' Hr. apply apply_ceq; repeat constructor; assumption.
      + cbn [sem_node]. rewrite Hc. eapply ceq_bind; [apply eval_args_ceq|]. intros ds ds' Hds. one_arg Hds. exact Hd.
      + cbn [sem_node]. rewrite Hc. reflexivity.
    - assert (Hclo : deq (wrap_closure msem dotsem callsem async sn cp b inner)
                         (wrap_closure msem dotsem callsem async sn' cp b inner)).
      { apply deq_F_ceq, clo1_ceq. intros v. apply IHinner. cbn. constructor. }
      apply (sem_wrap_cases msem dotsem callsem
               (fun c => ceq deq c (sem_node msem dotsem callsem async sn' cp b (NWrap e a inner) recv'))); intros Hc.
      + rewrite sem_node_wrap, Hc. destruct async; (eapply ceq_bind; [exact Hrecv|]; intros r r' Hr).
        * apply msem_param; [exact Hr|constructor; [exact Hclo|constructor]].
        * apply inspect_sem_ceq; assumption.
      + rewrite wrapper_means_method_over_closure by exact Hc.
        eapply ceq_bind; [exact Hrecv|]. intros r r' Hr.
        apply msem_param; [exact Hr|constructor; [exact Hclo|constructor]].
    - exact Hrecv.
    - cbn [sem_nodes]. apply IHt. apply IHx, Hrecv.
  Qed.

  Definition steq : state -> state -> Prop := Forall2 (orel deq).

  Lemma steq_nth st st' b : steq st st' -> orel deq (nth b st None) (nth b st' None).
  Proof.
    intros H. revert b. induction H as [|x x' st st' Hx _ IH]; intros [|b]; cbn; try constructor; auto.
  Qed.

  Lemma get_ceq st st' b : steq st st' -> ceq deq (get st b) (get st' b).
  Proof. intros H. unfold get. destruct (steq_nth _ _ b H); cbn; auto. Qed.

  Lemma set1_steq st st' b d d' : steq st st' -> deq d d' -> steq (set1 st b d) (set1 st' b d').
  Proof.
    intros H Hd. revert b. induction H as [|x x' st st' Hx Hst IH]; intros b; cbn [set1]; [constructor|].
    destruct b; constructor; auto. constructor; assumption. apply IH.
  Qed.

  Lemma set_all_steq bs : forall st st' ds ds',
    steq st st' -> Forall2 deq ds ds' -> steq (set_all st bs ds) (set_all st' bs ds').
  Proof.
    induction bs as [|b bs IH]; intros st st' ds ds' H Hds; cbn [set_all]; [exact H|].
    destruct Hds as [|d d' ds ds' Hd Hds]; [exact H|]. apply IH; [apply set1_steq; assumption|exact Hds].
  Qed.

  Lemma vals_tuple_ceq ds ds' : Forall2 deq ds ds' -> ceq deq (vals_tuple ds) (vals_tuple ds').
  Proof.
    intros H. unfold vals_tuple. rewrite <- (all_vals_deq _ _ H). destruct (all_vals ds); cbn; [constructor|reflexivity].
  Qed.

  Lemma extract_ceq acts sr sr' : deq sr sr' -> ceq (Forall2 deq) (extract acts sr) (extract acts sr').
  Proof.
    intros H. destruct (Nat.eq_dec (List.length acts) 1) as [E|E].
    - destruct acts as [|b [|]]; try discriminate E. cbn. repeat constructor. exact H.
    - rewrite !extract_multi by exact E. destruct H; try reflexivity. destruct v; try reflexivity.
      destruct (Nat.eqb _ _); [|reflexivity]. cbn. apply Forall2_deq_DV.
  Qed.

  Lemma classify_deq d d' : deq d d' -> classify d = classify d'.
  Proof. intros H; destruct H; reflexivity. Qed.

  Lemma mapM_classify_deq ds ds' : Forall2 deq ds ds' -> mapM classify ds = mapM classify ds'.
  Proof. induction 1 as [|d d' ds ds' H _ IH]; cbn [mapM]; [reflexivity|]. rewrite (classify_deq _ _ H), IH. reflexivity. Qed.

  Lemma first_false_deq bs : forall ds ds', Forall2 deq ds ds' -> orel deq (first_false bs ds) (first_false bs ds').
  Proof.
    induction bs as [|[|] bs IH]; intros ds ds' H; cbn [first_false]; [constructor| |];
      destruct H; try constructor; auto.
  Qed.

  Lemma rewrap_ceq acts w : ceq (Forall2 deq) (rewrap acts w) (rewrap acts w).
  Proof.
    destruct (Nat.eq_dec (List.length acts) 1) as [E|E].
    - destruct acts as [|b [|]]; try discriminate E. cbn. repeat constructor.
    - rewrite !rewrap_multi by exact E. destruct w; try reflexivity.
      apply mapM_ceq_same. intros i. destruct (nth_error vs i); cbn; [constructor|reflexivity].
  Qed.

  Lemma call_handler_ceq p h h' rs rs' : deq h h' -> deq rs rs' ->
    ceq deq (call_handler callsem p h rs) (call_handler callsem p h' rs').
  Proof.
    intros Hh Hrs. rewrite !call_handler_extract.
    eapply ceq_bind; [apply extract_ceq, Hrs|]. intros ds ds' Hds. apply apply_ceq; assumption.
  Qed.

  Lemma handle_results_ceq p k hv hv' rs rs' : deq hv hv' -> deq rs rs' ->
    ceq deq (handle_results callsem awaitsem p (Some (k, hv)) rs) (handle_results callsem awaitsem p (Some (k, hv')) rs').
  Proof.
    intros Hh Hrs. unfold handle_results.
    assert (Hclo : forall v, ceq deq (call_handler callsem p hv (DV v)) (call_handler callsem p hv' (DV v)))
      by (intros v; apply call_handler_ceq; [exact Hh|constructor]).
    destruct k.
    - (* HMap *) destruct (is_async (sp_cfg p)).
      + apply ceq_bind_eq; [apply to_val_ceq, Hrs|]. intros v.
        eapply ceq_bind with (R := deq).
        * apply std_map_ceq; [apply deq_Fut_ceq; reflexivity|]. apply clo1_ceq. intros r.
          apply std_map_ceq; [constructor|apply clo1_ceq, Hclo].
        * intros d d' Hd. apply DV_ceq, await_d_ceq, Hd.
      + apply std_map_ceq; [exact Hrs|apply clo1_ceq, Hclo].
    - (* HThen *) eapply ceq_bind; [apply call_handler_ceq; assumption|]. intros d d' Hd.
      destruct (is_async (sp_cfg p)); [|exact Hd].
      apply DV_ceq, await_d_ceq, Hd.
    - (* HAndThen *) destruct (is_async (sp_cfg p)).
      + apply ceq_bind_eq; [apply to_val_ceq, Hrs|]. intros v.
        eapply ceq_bind with (R := deq).
        * apply std_and_then_ceq; [apply deq_Fut_ceq; reflexivity|apply clo1_ceq, Hclo].
        * intros d d' Hd. apply DV_ceq, await_d_ceq, Hd.
      + apply std_and_then_ceq; [exact Hrs|apply clo1_ceq, Hclo].
  Qed.

  Lemma Forall2_combine_l {A A' B} (R : A -> A' -> Prop) (l : list A) (l' : list A') (m : list B) :
    Forall2 R l l' -> Forall2 (fun x y => R (fst x) (fst y) /\ snd x = snd y) (combine l m) (combine l' m).
  Proof.
    intros H. revert m. induction H as [|x x' l l' Hx _ IH]; intros [|y m]; cbn; constructor; auto.
  Qed.

  Section TwoPrograms.
    Variable p : sprog.
    Variable names' : list (option string).
    (* whatever does not read `sp_names` is convertible between p and p' *)
    Let p' : sprog :=
      {| sp_cfg := sp_cfg p; sp_names := names'; sp_trees := sp_trees p; sp_handler := sp_handler p |}.

    Lemma start_ceq st st' b : steq st st' -> ceq deq (start p st b) (start p' st' b).
    Proof.
      intros H. unfold start. change (sp_cfg p') with (sp_cfg p).
      destruct (is_async (sp_cfg p)); [|apply get_ceq, H].
      cbn. apply deq_Fut_ceq, to_val_bind_ceq, get_ceq, H.
    Qed.

    Lemma chain_ceq (sn sn' : snapshot) cp k st st' b : steq st st' ->
      ceq deq (chain msem dotsem callsem p sn cp k st b) (chain msem dotsem callsem p' sn' cp k st' b).
    Proof. intros H. unfold chain. apply sem_nodes_ceq, start_ceq, H. Qed.

    Lemma captures_ceq (sn sn' : snapshot) k acts : ceq eq (captures p sn k acts) (captures p' sn' k acts).
    Proof.
      induction acts as [|b r IH]; cbn [captures]; [reflexivity|].
      apply ceq_bind_eq; [apply capture_nodes_ceq|]. intros c1. apply ceq_bind_eq; [apply IH|]. intros; apply ceq_eq_refl.
    Qed.

    Lemma step_result_ceq k st st' : steq st st' ->
      ceq deq (step_result msem dotsem callsem awaitsem p k st) (step_result msem dotsem callsem awaitsem p' k st').
    Proof.
      intros H. unfold step_result. change (sp_cfg p') with (sp_cfg p). change (actives p' k) with (actives p k).
      generalize (snap_of p st) (snap_of p' st'). intros sn sn'.
      destruct (is_async (sp_cfg p)).
      - apply ceq_bind_eq; [apply captures_ceq|]. intros cp.
        destruct (Nat.ltb 1 (List.length (actives p k))).
        + eapply ceq_bind with (R := Forall2 deq).
          * apply mapM_ceq_same. intros b.
            eapply ceq_bind; [apply chain_ceq, H|]. intros d d' Hd.
            destruct (is_spawn (sp_cfg p)); [|exact Hd]. destruct Hd; try reflexivity; cbn; constructor; assumption.
          * intros futs futs' Hf. apply DV_ceq.
            destruct (is_try (sp_cfg p)); [apply try_join_seq_ceq|apply join_seq_ceq]; exact Hf.
        + destruct (actives p k) as [|b [|]]; try reflexivity.
          eapply ceq_bind; [apply chain_ceq, H|]. intros d d' Hd.
          apply DV_ceq, await_d_ceq, Hd.
      - destruct (is_spawn (sp_cfg p) && Nat.ltb 1 (List.length (actives p k))).
        + eapply ceq_bind with (R := Forall2 deq).
          { apply mapM_ceq_same. intros b. apply thread_builder_ceq. }
          intros bs bs' Hbs. apply ceq_bind_eq; [apply captures_ceq|]. intros cp.
          eapply ceq_bind with (R := Forall2 deq).
          { eapply mapM_ceq; [apply Forall2_combine_l, Hbs|]. intros [d b] [d' b'] [Hd Hb]. cbn in Hd, Hb. subst b'. cbn [fst snd].
            destruct Hd; try reflexivity. eapply ceq_bind with (R := deq); [|intros; apply std_unwrap_ceq; assumption].
            cbn. repeat split.
            - apply to_val_bind_ceq, chain_ceq, H.
            - constructor. }
          intros hs hs' Hhs. eapply ceq_bind; [apply vals_tuple_ceq, Hhs|]. intros t t' Ht.
          apply DV_ceq.
          assert (match t with DV (VTuple l) => l | _ => [] end = match t' with DV (VTuple l) => l | _ => [] end) as ->
            by (destruct Ht; reflexivity).
          apply ceq_eq_refl.
        + apply ceq_bind_eq; [apply captures_ceq|]. intros cp.
          destruct (Nat.ltb 1 (List.length (actives p k))).
          * eapply ceq_bind; [|intros ? ? Hds; apply vals_tuple_ceq, Hds].
            apply mapM_ceq_same. intros b. apply chain_ceq, H.
          * destruct (actives p k) as [|b [|]]; try reflexivity. apply chain_ceq, H.
    Qed.

    Lemma final_tuple_ceq st st' : steq st st' -> ceq deq (final_tuple p st) (final_tuple p' st').
    Proof.
      intros H. unfold final_tuple. change (sp_trees p') with (sp_trees p). eapply ceq_bind with (R := Forall2 deq).
      - apply mapM_ceq_same. intros b. apply get_ceq, H.
      - intros ds ds' Hds. pose proof (vals_tuple_ceq _ _ Hds) as Hv.
        destruct Hds as [|d d' ds ds' Hd Hds]; [exact Hv|]. destruct Hds; [exact Hd|exact Hv].
    Qed.

    Lemma transpose_ceq bs : forall st st', steq st st' ->
      ceq deq (transpose awaitsem p bs st) (transpose awaitsem p' bs st').
    Proof.
      induction bs as [|b r IH]; intros st st' H; [reflexivity|]. cbn [transpose].
      destruct r as [|b2 r].
      - eapply ceq_bind; [apply get_ceq, H|]. intros d d' Hd. apply std_map_ceq; [exact Hd|].
        apply clo1_ceq. intros v. apply final_tuple_ceq, set1_steq; [exact H|constructor].
      - eapply ceq_bind; [apply get_ceq, H|]. intros d d' Hd. apply std_and_then_ceq; [exact Hd|].
        apply clo1_ceq. intros v. apply IH, set1_steq; [exact H|constructor].
    Qed.

    Lemma steps_ceq fuel : forall k st st', steq st st' ->
      ceq deq (steps msem dotsem callsem awaitsem p fuel k st) (steps msem dotsem callsem awaitsem p' fuel k st').
    Proof.
      (* arm by arm along the definition of `steps`: after the step, the non-try kinds; the async try kinds
         (`Ok`: the last step, or re-wrap and go on; `Err`); the sync try kinds (the last step transposes,
         any other classifies and goes on or stops at the first failure) *)
      induction fuel as [|fuel IH]; intros k st st' H; [reflexivity|]. cbn [steps].
      change (sp_cfg p') with (sp_cfg p). change (actives p' k) with (actives p k).
      change (active p' k) with (active p k). change (sp_trees p') with (sp_trees p).
      eapply ceq_bind; [apply step_result_ceq, H|]. intros sr sr' Hsr.
      destruct (is_try (sp_cfg p)); cbn [negb].
      2:{ eapply ceq_bind; [apply extract_ceq, Hsr|]. intros ds ds' Hds.
          destruct (Nat.eqb fuel 0); [apply final_tuple_ceq|apply IH]; apply set_all_steq; assumption. }
      destruct (is_async (sp_cfg p)); cbn [negb].
      - destruct Hsr; try reflexivity. destruct v; try reflexivity.
        + (* Ok *) destruct (Nat.eqb fuel 0).
          * destruct (Nat.ltb 1 _); [|cbn; constructor].
            eapply ceq_bind; [apply extract_ceq; constructor|]. intros ds ds' Hds.
            destruct (filter _ _).
            -- eapply ceq_bind; [apply final_tuple_ceq, set_all_steq; assumption|]. intros t t' Ht.
               apply DV_ceq, to_val_ceq, Ht.
            -- apply transpose_ceq, set_all_steq; assumption.
          * eapply ceq_bind; [apply rewrap_ceq|]. intros rew rew' Hrew.
            eapply ceq_bind.
            { apply extract_ceq. pose proof (all_vals_deq _ _ Hrew) as Hav.
              destruct Hrew as [|d d' rew rew' Hd Hrew]; [constructor|].
              destruct Hrew; [exact Hd|]. rewrite Hav. constructor. }
            intros ds ds' Hds. apply IH, set_all_steq; assumption.
        + (* Err *) cbn. constructor.
      - eapply ceq_bind; [apply extract_ceq, Hsr|]. intros ds ds' Hds.
        destruct (Nat.eqb fuel 0); [apply transpose_ceq, set_all_steq; assumption|].
        rewrite <- (mapM_classify_deq _ _ Hds). apply ceq_bind_eq; [apply ceq_eq_refl|]. intros oks.
        destruct (first_false_deq oks _ _ Hds) as [|d d' Hd].
        + apply IH, set_all_steq; assumption.
        + apply std_map_ceq; [exact Hd|]. intros; reflexivity.
    Qed.

    Lemma run_body_ceq :
      ceq deq (run_body msem dotsem callsem awaitsem p) (run_body msem dotsem callsem awaitsem p').
    Proof.
      unfold run_body. change (max_depth p') with (max_depth p). change (sp_handler p') with (sp_handler p).
      change (sp_trees p') with (sp_trees p).
      change (handle_results callsem awaitsem p') with (handle_results callsem awaitsem p).
      assert (Hst0 : steq (map (fun _ => None) (sp_trees p)) (map (fun _ => None) (sp_trees p))).
      { generalize (sp_trees p). intros l. induction l; cbn; constructor; auto. constructor. }
      generalize (sp_handler p). intros [[k o]|].
      - cbn [bind ceq]. split; [reflexivity|]. intros v.
        eapply ceq_bind; [apply steps_ceq, Hst0|]. intros rs rs' Hrs.
        apply handle_results_ceq; [constructor|exact Hrs].
      - cbn [bind]. eapply ceq_bind; [apply steps_ceq, Hst0|]. intros rs rs' Hrs. exact Hrs.
    Qed.

    Lemma spec_ceq :
      ceq deq (spec msem dotsem callsem awaitsem p) (spec msem dotsem callsem awaitsem p').
    Proof.
      unfold spec. change (sp_cfg p') with (sp_cfg p). destruct (is_async (sp_cfg p)); [|apply run_body_ceq].
      cbn. apply deq_Fut_ceq, to_val_bind_ceq, run_body_ceq.
    Qed.
  End TwoPrograms.

  (* The names of a program do not matter at all (renaming included): two programs with the same
     configuration, the same branches and the same handler denote the same computation up to snapshots. *)
  Theorem names_irrelevant (p p' : sprog) :
    sp_cfg p' = sp_cfg p -> sp_trees p' = sp_trees p -> sp_handler p' = sp_handler p ->
    ceq deq (spec msem dotsem callsem awaitsem p) (spec msem dotsem callsem awaitsem p').
  Proof. destruct p' as [c' n' t' h']. cbn. intros -> -> ->. apply spec_ceq. Qed.

  (* `let name =` in front of branches: all 8 configurations, every program *)
  Theorem let_erasure (sp : sprog) :
    ceq deq (spec msem dotsem callsem awaitsem sp) (spec msem dotsem callsem awaitsem (strip sp)).
  Proof. apply names_irrelevant; reflexivity. Qed.

  (* The same as an EQUATION between erased trees, on completed computations (as in Check.run_top: a sync macro's
     value is used, an async macro's future is polled to completion). *)
  Definition complete (sp : sprog) : comp val :=
    let! d := spec msem dotsem callsem awaitsem sp in
    if is_async (sp_cfg sp) then await_d awaitsem d else to_val d.

  Theorem let_erasure_completed (sp : sprog) : erase (complete sp) = erase (complete (strip sp)).
  Proof.
    apply ceq_erase. unfold complete. eapply ceq_bind; [apply let_erasure|]. intros d d' Hd.
    cbn [strip sp_cfg]. destruct (is_async (sp_cfg sp)); [apply await_d_ceq|apply to_val_ceq]; exact Hd.
  Qed.

  (* sync kinds: the macro is an expression *)
  Theorem let_erasure_sync (sp : sprog) : is_async (sp_cfg sp) = false ->
    erase (let! d := spec msem dotsem callsem awaitsem sp in to_val d) =
    erase (let! d := spec msem dotsem callsem awaitsem (strip sp) in to_val d).
  Proof.
    intros _. apply ceq_erase, to_val_bind_ceq, let_erasure.
  Qed.

  (* async kinds: the macro is a future; nothing happens before it is polled, and polling it does the same *)
  Theorem let_erasure_async (sp : sprog) : is_async (sp_cfg sp) = true ->
    exists c c', spec msem dotsem callsem awaitsem sp = Ret (DFut c) /\
                 spec msem dotsem callsem awaitsem (strip sp) = Ret (DFut c') /\
                 erase c = erase c'.
  Proof.
    intros Ha. pose proof (let_erasure sp) as H. unfold spec in *. cbn [strip sp_cfg] in *. rewrite Ha in *.
    eexists; eexists; split; [reflexivity|split; [reflexivity|]]. cbn in H. inversion H. assumption.
  Qed.

  (* `erase_d` erases the events of the computation AND, through `derase`, inside the closure / future it results in.
     (A fn item as the result of a macro is excluded: fn items have closure parameters, so "equal up to
     snapshots" is a relation on them, `deq`, not a normal form.) *)
  Definition derase (d : dval) : dval :=
    match d with DF f => DF (fun vs => erase (f vs)) | DFut c => DFut (erase c) | d => d end.
  Definition erase_d (c : comp dval) : comp dval := erase (let! d := c in Ret (derase d)).

  Lemma ceq_leaves_l {A B} (R : A -> B -> Prop) (Q : A -> Prop) (c : comp A) (c' : comp B) :
    ceq R c c' -> leaves c Q -> ceq (fun a b => R a b /\ Q a) c c'.
  Proof.
    intros H HQ.
    induction H as [A B R a b H|A B R n|A B R e e' k k' He IH|A B R name t t' k k' Ht _ IH|A B R h k k' IH]
      using ceq_ind2; cbn in HQ |- *.
    - split; [exact H|exact HQ].
    - reflexivity.
    - split; [exact He|]. intros v. apply IH, HQ.
    - repeat split; [exact Ht|]. intros v. apply IH, HQ.
    - split; [reflexivity|]. intros v. apply IH, HQ.
  Qed.

  Theorem let_erasure_erase_d (sp : sprog) :
    leaves (spec msem dotsem callsem awaitsem sp) (fun d => forall f, d <> DFn f) ->
    erase_d (spec msem dotsem callsem awaitsem sp) = erase_d (spec msem dotsem callsem awaitsem (strip sp)).
  Proof.
    intros Hno. apply ceq_erase. eapply ceq_bind; [exact (ceq_leaves_l _ _ _ _ (let_erasure sp) Hno)|].
    intros d d' [Hd Hn]. cbn. destruct Hd; cbn [derase]; try reflexivity.
    - f_equal. extensionality vs. auto.
    - exfalso. eapply Hn. reflexivity.
    - f_equal. assumption.
  Qed.

  (* whatever holds of every way the program WITHOUT names can end holds of the program with names
     (Q must not look inside closures / futures further than `deq` allows; every Q on plain values does) *)
  Theorem let_erasure_leaves (sp : sprog) (Q : dval -> Prop) :
    (forall d d', deq d d' -> Q d' -> Q d) ->
    leaves (spec msem dotsem callsem awaitsem (strip sp)) Q -> leaves (spec msem dotsem callsem awaitsem sp) Q.
  Proof. intros HQ. apply ceq_leaves with (R := deq); [apply let_erasure|exact HQ]. Qed.

  Theorem let_erasure_leaves_completed (sp : sprog) (Q : val -> Prop) :
    leaves (complete (strip sp)) Q <-> leaves (complete sp) Q.
  Proof.
    rewrite <- (leaves_erase (complete (strip sp))), <- (leaves_erase (complete sp)), (let_erasure_completed sp).
    reflexivity.
  Qed.
End LetErasure.

(* The hypotheses are satisfiable: the concrete world of Concrete.v meets them. *)
From Join Require Import Concrete Check.

Lemma call1_ceq f f' args : deq f f' -> ceq eq (call1 f args) (call1 f' args).
Proof. intros H; destruct H; cbn [call1]; try reflexivity; try apply ceq_eq_refl. apply erase_ceq. auto. Qed.

Lemma ceq_if {A B} (R : A -> B -> Prop) (b : bool) c1 c2 c1' c2' :
  ceq R c1 c1' -> ceq R c2 c2' -> ceq R (if b then c1 else c2) (if b then c1' else c2').
Proof. intros H1 H2. destruct b; assumption. Qed.

(* the receiver is a future: FutureExt / TryFutureExt *)
Lemma c_msem_fut_param m tf r r' c c' ds ds' :
  as_fut r = Some c -> as_fut r' = Some c' -> ceq eq c c' -> Forall2 deq ds ds' ->
  ceq deq (c_msem m tf r ds) (c_msem m tf r' ds').
Proof.
  intros E E' Hc Hds. unfold c_msem. rewrite E, E'.
  apply ceq_if. (* map *)
  { one_arg Hds. apply Fut_bind_ceq; [exact Hc|]. intros v. apply call1_ceq, Hd. }
  apply ceq_if. (* and_then *)
  { one_arg Hds. apply Fut_bind_ceq; [exact Hc|]. intros v. destruct v; try reflexivity.
    apply ceq_bind_eq; [apply call1_ceq, Hd|]. intros fut. apply ceq_eq_refl. }
  apply ceq_if. (* inspect *)
  { one_arg Hds. apply Fut_bind_ceq; [exact Hc|]. intros v.
    apply ceq_bind_eq; [apply call1_ceq, Hd|]. intros _. reflexivity. }
  apply ceq_if. (* or_else *)
  { one_arg Hds. apply Fut_bind_ceq; [exact Hc|]. intros v. destruct v; try reflexivity.
    apply ceq_bind_eq; [apply call1_ceq, Hd|]. intros fut. apply ceq_eq_refl. }
  apply ceq_if; [|reflexivity]. (* map_err *)
  one_arg Hds. apply Fut_bind_ceq; [exact Hc|]. intros v. destruct v; try reflexivity.
  apply ceq_bind_eq; [apply call1_ceq, Hd|]. intros w. reflexivity.
Qed.

(* the receiver is a plain value: std Option / Result.  In every method each shape of the receiver is ill-typed,
   or a value that does not depend on the argument, or the result of the callback under a constructor. *)
Lemma c_msem_val_param m tf v ds ds' :
  as_fut (DV v) = None -> Forall2 deq ds ds' -> ceq deq (c_msem m tf (DV v) ds) (c_msem m tf (DV v) ds').
Proof.
  intros E Hds. unfold c_msem. rewrite E. cbv iota.
  apply ceq_if. (* map *)
  { destruct v; try reflexivity; one_arg Hds; try (apply DV_ceq, call1_ceq, Hd); cbn; constructor. }
  apply ceq_if. (* and_then *)
  { destruct v; try reflexivity; one_arg Hds; try (apply DV_ceq, call1_ceq, Hd); cbn; constructor. }
  apply ceq_if. (* filter *)
  { destruct v; try reflexivity; one_arg Hds.
    - cbn. constructor.
    - apply ceq_bind_eq; [apply call1_ceq, Hd|]. intros b.
      destruct b as [|[|]| | | | | | | | | |]; try reflexivity; cbn; constructor. }
  apply ceq_if. (* or *)
  { destruct v; try reflexivity; one_arg Hds; destruct Hd; try reflexivity; cbn; constructor. }
  apply ceq_if. (* or_else *)
  { destruct v; try reflexivity; one_arg Hds; try (apply DV_ceq, call1_ceq, Hd); cbn; constructor. }
  apply ceq_if; [|reflexivity]. (* map_err *)
  destruct v; try reflexivity; one_arg Hds; try (apply DV_ceq, call1_ceq, Hd); cbn; constructor.
Qed.

Lemma c_msem_param m tf r r' ds ds' :
  deq r r' -> Forall2 deq ds ds' -> ceq deq (c_msem m tf r ds) (c_msem m tf r' ds').
Proof.
  intros Hr Hds. destruct Hr as [v|f g H|f g H|c c' H| | |]; try reflexivity.
  - destruct (as_fut (DV v)) as [c|] eqn:E.
    + apply (c_msem_fut_param m tf _ _ c c); [exact E|exact E|apply ceq_eq_refl|exact Hds].
    + apply c_msem_val_param; assumption.
  - apply (c_msem_fut_param m tf _ _ c c'); [reflexivity|reflexivity|apply erase_ceq, H|exact Hds].
Qed.

Lemma c_dotsem_param o sn sn' r r' : deq r r' -> ceq deq (c_dotsem o sn r) (c_dotsem o sn' r').
Proof. reflexivity. Qed.

Lemma c_callsem_param f ds ds' : Forall2 deq ds ds' -> ceq deq (c_callsem f ds) (c_callsem f ds').
Proof.
  intros H. unfold c_callsem. apply ceq_bind with (R := eq).
  - eapply ceq_mono; [|eapply mapM_ceq with (S := eq); [exact H|]].
    + intros a b. apply Forall2_eq.
    + intros d d' Hd. destruct Hd; try reflexivity. apply erase_ceq; auto.
  - intros vs ? <-. cbn. split; [reflexivity|]. intros; constructor.
Qed.

(* for the concrete world the theorem has no hypothesis left *)
Theorem let_erasure_concrete (sp : sprog) :
  ceq deq (spec c_msem c_dotsem c_callsem c_await sp) (spec c_msem c_dotsem c_callsem c_await (strip sp)).
Proof. apply let_erasure; [exact c_msem_param|exact c_dotsem_param|exact c_callsem_param]. Qed.

Theorem let_erasure_concrete_completed (sp : sprog) :
  erase (run_top (sp_cfg sp) (spec c_msem c_dotsem c_callsem c_await sp)) =
  erase (run_top (sp_cfg sp) (spec c_msem c_dotsem c_callsem c_await (strip sp))).
Proof. exact (let_erasure_completed _ _ _ _ c_msem_param c_dotsem_param c_callsem_param sp). Qed.

(* A world whose answers do not depend on snapshots: the rule-table world when no operand is
   instrumented to log the names it sees (`oi_cap`).  Its runner cannot tell a tree from its erasure. *)
Definition no_cap (tbl : list opinfo) : Prop := forall oi, In oi tbl -> oi_cap oi = false.

Lemma lookup_op_in tbl toks oi : lookup_op tbl toks = Some oi -> In oi tbl.
Proof.
  induction tbl as [|o r IH]; cbn; [discriminate|]. destruct (strs_eqb (oi_toks o) toks).
  - intros [= <-]. left; reflexivity.
  - intros H. right. apply IH, H.
Qed.

Lemma handle_erase tbl tn e st : no_cap tbl -> handle tbl tn (erase_ev e) st = handle tbl tn e st.
Proof.
  intros Hno. destruct e as [o sn| |]; [|reflexivity|reflexivity]. unfold handle. f_equal. cbn [erase_ev handle0].
  destruct (lookup_op tbl (flat o)) as [oi|] eqn:E; [|reflexivity].
  rewrite (Hno oi (lookup_op_in _ _ _ E)). reflexivity.
Qed.

Lemma run_erase tbl : no_cap tbl -> forall (c : comp val) tn th st, run tbl tn th (erase c) st = run tbl tn th c st.
Proof.
  intros Hno. fix IH 1. intros [v|n|e k|name t k|h k] tn th st; cbn [erase run]; try reflexivity.
  - rewrite (handle_erase _ _ _ _ Hno). destruct (handle tbl tn e st) as [[v|] st']; [apply IH|reflexivity].
  - rewrite IH. destruct (run tbl (Some name) th t st) as [[o st'] th']. apply IH.
  - destruct (nth_error th h); [apply IH|reflexivity].
Qed.

(* what the test harness shows (result and log) for a program and for the same program without names *)
Theorem let_erasure_run_show tbl tn (sp : sprog) : no_cap tbl ->
  run_show tbl tn (run_top (sp_cfg sp) (spec c_msem c_dotsem c_callsem c_await sp)) =
  run_show tbl tn (run_top (sp_cfg sp) (spec c_msem c_dotsem c_callsem c_await (strip sp))).
Proof.
  intros Hno. unfold run_show.
  rewrite <- (run_erase tbl Hno (run_top _ (spec _ _ _ _ sp))), <- (run_erase tbl Hno (run_top _ (spec _ _ _ _ (strip sp)))).
  rewrite let_erasure_concrete_completed. reflexivity.
Qed.

(* the same on parsed macro inputs: removing every `let <pat> =` from the input *)
Definition strip_input (inp : input) : input :=
  mkInput (map (fun b => mkBranch None (b_members b)) (i_branches inp))
          (i_handler inp) (i_fcp inp) (i_joiner inp) (i_transpose inp) (i_lazy inp).

Lemma prepare_strip cfg inp : prepare cfg (strip_input inp) = option_map strip (prepare cfg inp).
Proof.
  unfold prepare, strip_input. cbn [i_branches i_handler]. rewrite !map_map. cbn [b_members b_pat].
  destruct (all_some _); [|reflexivity]. cbn [option_map]. unfold strip. cbn. rewrite map_map. reflexivity.
Qed.

Lemma prepare_cfg cfg inp sp : prepare cfg inp = Some sp -> sp_cfg sp = cfg.
Proof. unfold prepare. destruct (all_some _); [|discriminate]. intros [= <-]. reflexivity. Qed.

Theorem let_erasure_spec_run cfg inp tbl : no_cap tbl ->
  spec_run cfg inp tbl = spec_run cfg (strip_input inp) tbl.
Proof.
  intros Hno. unfold spec_run. rewrite prepare_strip. destruct (prepare cfg inp) as [sp|] eqn:E; [|reflexivity].
  cbn [option_map]. rewrite <- (prepare_cfg _ _ _ E). apply let_erasure_run_show, Hno.
Qed.

(* non-vacuity: a concrete 2-branch program with a name
     join! { let a = x0 |> f ~|> g,  y0 |> h ~|> i }      and the same without `let a =` *)
Definition ex_branches (pat : option (operand * string)) : list branch :=
  [ mkBranch pat
      [ mkAction Initial false NoMove [[TI "x0"]];
        mkAction Map false NoMove [[TI "f"]];
        mkAction Map true NoMove [[TI "g"]] ];
    mkBranch None
      [ mkAction Initial false NoMove [[TI "y0"]];
        mkAction Map false NoMove [[TI "h"]];
        mkAction Map true NoMove [[TI "i"]] ] ].
Definition ex_let : input := mkInput (ex_branches (Some ([TI "a"], "a"))) None None None None None.
Definition ex_nolet : input := mkInput (ex_branches None) None None None None None.

(* sync kinds: x0 = Some(1), y0 = Some(2); async kinds: ready futures of Ok(1), Ok(2).  f, g, h, i add 10, 100, 20, 200
   to the payload; `cap`: is `i` instrumented to log the names it sees? *)
Definition ex_tbl (async cap : bool) : list opinfo :=
  [ mkOp ["x0"] 1 (KConst (if async then VFut (VOk (VInt 1)) else VSome (VInt 1))) false;
    mkOp ["y0"] 2 (KConst (if async then VFut (VOk (VInt 2)) else VSome (VInt 2))) false;
    mkOp ["f"] 3 (KWAdd 10) false; mkOp ["g"] 4 (KWAdd 100) false;
    mkOp ["h"] 5 (KWAdd 20) false; mkOp ["i"] 6 (KWAdd 200) cap ].

Definition ex_cfgs : list config :=
  [ mkConfig false false false; mkConfig false false true; mkConfig false true false; mkConfig false true true;
    mkConfig true false false; mkConfig true false true; mkConfig true true false; mkConfig true true true ].

Example ex_strip : strip_input ex_let = ex_nolet.
Proof. reflexivity. Qed.

(* both sides computed: the same result and the same log, in all 8 configurations ... *)
Example ex_same_result :
  map (fun cfg => spec_run cfg ex_let (ex_tbl (is_async cfg) false)) ex_cfgs =
  map (fun cfg => spec_run cfg ex_nolet (ex_tbl (is_async cfg) false)) ex_cfgs.
Proof. vm_compute. reflexivity. Qed.

(* ... and the results are meaningful values (join!, join_spawn!, try_join!, try_join_spawn!, then the async four) *)
Example ex_results :
  map (fun cfg => hd "" (spec_run cfg ex_let (ex_tbl (is_async cfg) false))) ex_cfgs =
  [ "(Some(111),Some(222))"; "(Some(111),Some(222))"; "Some((111,222))"; "Some((111,222))";
    "(Ok(111),Ok(222))"; "(Ok(111),Ok(222))"; "Ok((111,222))"; "Ok((111,222))" ].
Proof. vm_compute. reflexivity. Qed.

Example ex_log_join :
  spec_run (mkConfig false false false) ex_let (ex_tbl false false) =
  ["(Some(111),Some(222))"; "E1"; "E3"; "C3(1)"; "E2"; "E5"; "C5(2)"; "E4"; "C4(11)"; "E6"; "C6(22)"].
Proof. vm_compute. reflexivity. Qed.

(* the name IS visible to the world - in snapshots, and only there: when `i` is instrumented to log what
   it sees, the two programs differ in exactly that log entry (the theorem does not hold "because names do nothing") *)
Example ex_snapshot_visible :
  spec_run (mkConfig false false false) ex_let (ex_tbl false true) <> spec_run (mkConfig false false false) ex_nolet (ex_tbl false true) /\
  In "E6{a=Some(11)}" (spec_run (mkConfig false false false) ex_let (ex_tbl false true)) /\
  In "E6{}" (spec_run (mkConfig false false false) ex_nolet (ex_tbl false true)).
Proof. vm_compute. repeat split; try discriminate; auto 20. Qed.

(* the general theorem instantiates on it *)
Example ex_by_theorem cfg async : spec_run cfg ex_let (ex_tbl async false) = spec_run cfg ex_nolet (ex_tbl async false).
Proof.
  rewrite <- ex_strip. apply let_erasure_spec_run.
  intros oi H. cbn in H. repeat (destruct H as [<-|H]; [reflexivity|]). contradiction.
Qed.

(* The parametricity hypothesis cannot be dropped.
   A "method" that runs the closure it is given and branches on the snapshot carried by the closure's first event
   (no Rust method can do that: closures are opaque) makes the named and the unnamed program return different values. *)
Definition peek_msem (m : string) (tf : option (list operand)) (r : dval) (ds : list dval) : comp dval :=
  match ds with
  | [DF f] => match f [VUnit] with
              | Vis (EEval _ (_ :: _)) _ => Ret (DV (VInt 1))
              | _ => Ret (DV (VInt 0))
              end
  | _ => Panic P_STUCK
  end.
(*   join! { let a = x0 >>> |> f <<< }   *)
Definition peek_prog : sprog :=
  {| sp_cfg := mkConfig false false false; sp_names := [Some "a"];
     sp_trees := [[[NAct 0 (mkAction Initial false NoMove [[TI "x0"]]);
                    NWrap 1 (mkAction Map false Wrap []) [NAct 2 (mkAction Map false NoMove [[TI "f"]])]]]];
     sp_handler := None |}.
Example hypothesis_needed :
  let sp := fun p => spec peek_msem (fun _ _ _ => Panic P_STUCK) (fun _ _ => Panic P_STUCK) (fun _ => Panic P_STUCK) p in
  leaves (sp peek_prog) (fun d => d = DV (VInt 1)) /\
  leaves (sp (strip peek_prog)) (fun d => d = DV (VInt 0)) /\
  ~ ceq deq (sp peek_prog) (sp (strip peek_prog)).
Proof.
  cbn. repeat split; try (intros; reflexivity).
  intros [_ H]. specialize (H VUnit). inversion H.
Qed.

Print Assumptions names_irrelevant.
Print Assumptions let_erasure.
Print Assumptions let_erasure_completed.
Print Assumptions let_erasure_leaves.
Print Assumptions let_erasure_concrete.
Print Assumptions let_erasure_spec_run.
Print Assumptions ex_same_result.
